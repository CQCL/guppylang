(** C31 — round trip: printed first-order types read back as the same type.  Three steps: on a
    first-order type the printer is the state-free [prf]; Python's machine reads [prf t] as [ast_of t];
    [arg_of] takes [ast_of t] back to [t] when [t] is well-formed and [safe]. *)
From Coq Require Import String List Bool Arith.
From V.C31 Require Import Tokens GenPrinter Model Spec.
Import ListNotations.
Open Scope string_scope.
Open Scope list_scope.

Section TyInd.
  Variable P : ty -> Prop.
  Hypothesis HNum : forall k, P (TNum k).
  Hypothesis HNone : P TNone.
  Hypothesis HTuple : forall ts, Forall P ts -> P (TTuple ts).
  Hypothesis HApp : forall d args, Forall P args -> P (TApp d args).
  Hypothesis HCNat : forall n, P (CNat n).
  Hypothesis HBound : forall s i, P (TBound s i).
  Hypothesis HExist : forall s i, P (TExist s i).
  Hypothesis HFun : forall ps ins fl out, Forall P ins -> P out -> P (TFun ps ins fl out).
  Fixpoint ty_ind' (t : ty) : P t :=
    let go := fix go (l : list ty) : Forall P l :=
      match l with [] => Forall_nil _ | x :: r => Forall_cons _ (ty_ind' x) (go r) end in
    match t with
    | TNum k => HNum k
    | TNone => HNone
    | TTuple ts => HTuple ts (go ts)
    | TApp d args => HApp d args (go args)
    | CNat n => HCNat n
    | TBound s i => HBound s i
    | TExist s i => HExist s i
    | TFun ps ins fl out => HFun ps ins fl out (go ins) (ty_ind' out)
    end.
End TyInd.

(* the text of a first-order type: [pr] with the generated table put in, and without the printer state,
   which first-order types neither read nor change ([pr_fo]) *)
Fixpoint prf (t : ty) : list token :=
  match t with
  | TNum k => [TName (num_name k)]
  | TNone => [TName "None"]
  | CNat n => [TNumber n]
  | TTuple ts => TLP :: join [TComma] (map prf ts) ++ [TRP]
  | TApp d [] => [TName d]
  | TApp d args => TName d :: TLB :: join [TComma] (map prf args) ++ [TRB]
  | _ => []
  end.

(* first-order, as far as printing and Python's parser are concerned: no variable, no function type, and
   no applied name that Python reads as a constant; no scope of definitions is involved *)
Fixpoint fo (t : ty) : bool :=
  match t with
  | TNum _ | TNone | CNat _ => true
  | TTuple ts => forallb fo ts
  | TApp d args => negb (is_kw d) && forallb fo args
  | _ => false
  end.

(* [wf] in argument position, where a nat constant is admitted as well *)
Definition wfa (E : env) (a : ty) : bool := match a with CNat _ => true | _ => wf E a end.

Lemma wfa_fo : forall E t, wfa E t = true -> fo t = true.
Proof.
  intros E t. induction t using ty_ind'; simpl; intros Hw; try reflexivity; try discriminate.
  - rewrite forallb_forall in *. rewrite Forall_forall in H. intros x Hx.
    apply H; auto. specialize (Hw x Hx). destruct x; simpl in *; auto.
  - apply andb_prop in Hw as [Hk Hw]. rewrite Hk. simpl.
    destruct (slookup d E) as [[| |ps c1 c2]|]; try discriminate.
    apply andb_prop in Hw as [_ Hw].
    rewrite forallb_forall in *. rewrite Forall_forall in H. intros x Hx. apply H; auto.
    specialize (Hw x Hx). unfold wfa. exact Hw.
Qed.

Lemma thread_fo : forall l st,
  Forall (fun x => fo x = true -> forall row st, pr x row st = (prf x, st)) l ->
  forallb fo l = true ->
  thread (fun x => pr x true) l st = (map prf l, st).
Proof.
  induction l; intros st HF Hfo; simpl in *; auto.
  apply andb_prop in Hfo as [Ha Hl]. inversion HF; subst.
  rewrite (H1 Ha). rewrite IHl; auto.
Qed.

Lemma pr_fo : forall t, fo t = true -> forall row st, pr t row st = (prf t, st).
Proof.
  induction t using ty_ind'; intros Hfo row st; simpl in Hfo; try discriminate; try reflexivity.
  - simpl. rewrite thread_fo by auto. destruct (Nat.eqb (length ts) 1); reflexivity.
  - apply andb_prop in Hfo as [_ Hfo]. simpl. destruct args as [|a args]; [reflexivity|].
    rewrite thread_fo by auto. destruct (is_sole_tuple (a :: args)); reflexivity.
Qed.

Definition is_tuple (t : ty) : bool := match t with TTuple _ => true | _ => false end.

(* the Python AST of the printed text of [t] — for EVERY first-order type, also where Python's
   grammar makes it differ from the intended one: the printed 1-tuple `(a)` is just `a`, and a sole
   argument is the subscript itself, so that `X[(a, b)]` has the slice `(a, b)` = two arguments *)
Fixpoint ast_of (t : ty) : pyexpr :=
  match t with
  | TNum k => PName (num_name k)
  | TNone => PNone
  | CNat n => PNum n
  | TTuple ts => match ts with [x] => ast_of x | _ => PTuple (map ast_of ts) end
  | TApp d args =>
      match args with
      | [] => PName d
      | [a] => PSub (PName d) (ast_of a)
      | _ => PSub (PName d) (PTuple (map ast_of args))
      end
  | _ => PNone
  end.

Lemma name_atom_plain : forall d, is_kw d = false -> name_atom d = PName d.
Proof.
  intros d H. unfold is_kw in H. apply orb_false_elim in H as [H H3]. apply orb_false_elim in H as [H1 H2].
  unfold name_atom. rewrite H1, H2, H3. reflexivity.
Qed.

Lemma num_name_plain : forall k, is_kw (num_name k) = false.
Proof. destruct k; vm_compute; reflexivity. Qed.

(* the machine, with no primary pending before the text of [t], has [ast_of t] as the primary just
   completed after it, on the same stack *)
Definition sim (t : ty) : Prop :=
  forall rest stk, run (prf t ++ rest) None stk = run rest (Some (ast_of t)) stk.

(* a comma-separated sequence inside an open bracket of kind [k], up to the token that closes it: the
   elements are pushed, the comma flag is set iff there was a comma, and `)` and `]` both [group] the lot *)
Lemma run_seq : forall close k w,
  (forall e items c r, step close (Some e) ((k, items, c) :: r) = Some (Some (w (group (rev (e :: items)) c)), r)) ->
  forall l x rest items c stk, sim x -> Forall sim l ->
    run (join [TComma] (map prf (x :: l)) ++ close :: rest) None ((k, items, c) :: stk)
      = run rest (Some (w (group (rev items ++ map ast_of (x :: l)) (c || negb (Nat.eqb (length l) 0))))) stk.
Proof.
  intros close k w Hclose. induction l as [|y l IH]; intros x rest items c stk Hx Hl.
  - simpl. rewrite Hx. cbn [run]. rewrite Hclose, orb_false_r. reflexivity.
  - apply Forall_cons_iff in Hl as [Hy Hl].
    change (join [TComma] (map prf (x :: y :: l))) with (prf x ++ TComma :: join [TComma] (map prf (y :: l))).
    rewrite <- app_assoc, Hx. cbn [app run step]. rewrite (IH y rest _ true stk Hy Hl).
    simpl. rewrite <- app_assoc, orb_true_r. reflexivity.
Qed.

Lemma fo_sim : forall t, fo t = true -> sim t.
Proof.
  induction t using ty_ind'; intros Hfo; simpl in Hfo; try discriminate; unfold sim; intros rest stk.
  - simpl. rewrite name_atom_plain by apply num_name_plain. reflexivity.
  - reflexivity.
  - assert (HS : Forall sim ts).
    { rewrite Forall_forall in *. rewrite forallb_forall in Hfo. intros x Hx. apply H; auto. }
    destruct ts as [|x l]; [reflexivity|]. apply Forall_cons_iff in HS as [Hx Hl].
    cbn [prf app]. rewrite <- app_assoc. cbn [app run step].
    rewrite (run_seq TRP FParen (fun e => e)) by auto.
    destruct l; reflexivity.
  - apply andb_prop in Hfo as [Hk Hfo]. apply negb_true_iff in Hk.
    assert (HS : Forall sim args).
    { rewrite Forall_forall in *. rewrite forallb_forall in Hfo. intros x Hx. apply H; auto. }
    destruct args as [|x l]; [simpl; rewrite name_atom_plain by exact Hk; reflexivity|].
    apply Forall_cons_iff in HS as [Hx Hl].
    cbn [prf ast_of app]. rewrite <- app_assoc. cbn [app run step]. rewrite name_atom_plain by exact Hk.
    rewrite (run_seq TRB (FSub (PName d)) (PSub (PName d))) by auto.
    destruct l; reflexivity.
  - reflexivity.
Qed.

Lemma fits_param_ok : forall E p a, arg_fits E p a = true -> param_ok E p a = true.
Proof.
  intros E [mc md|] a H; [|destruct a; (discriminate H || reflexivity)].
  assert (T : is_type a = true /\
              (if mc then copyable E a else true) && (if md then droppable E a else true) = true)
    by (destruct a; (discriminate H || (split; [reflexivity | exact H]))).
  destruct T as [T F]. unfold param_ok. rewrite T. destruct mc, md; exact F.
Qed.

Lemma fits_params_ok : forall E ps args,
  Nat.eqb (length ps) (length args) = true ->
  forallb (fun pa => arg_fits E (fst pa) (snd pa)) (combine ps args) = true ->
  params_ok E ps args = true.
Proof.
  induction ps as [|p ps IH]; intros [|a args] Hl Hf; try discriminate; [reflexivity|].
  simpl in Hf. apply andb_prop in Hf as [Hf1 Hf2]. simpl. rewrite (fits_param_ok E p a Hf1). exact (IH args Hl Hf2).
Qed.

Lemma wf_is_type : forall E t, wf E t = true -> is_type t = true.
Proof. destruct t; simpl; auto; discriminate. Qed.

Lemma map_opt_inverse : forall {A B} (f : B -> option A) (g : A -> B) l,
  Forall (fun x => f (g x) = Some x) l -> map_opt f (map g l) = Some l.
Proof. induction 1 as [|x l Hx _ IH]; simpl; [|rewrite Hx, IH]; reflexivity. Qed.

Lemma ast_of_not_tuple : forall x, is_tuple x = false -> forall es, ast_of x <> PTuple es.
Proof.
  intros [] T es; try discriminate.
  destruct args as [|a [|b l]]; discriminate.
Qed.

Lemma arg_of_sub1 : forall E d sl, (forall es, sl <> PTuple es) ->
  arg_of E (PSub (PName d) sl) =
  match slookup d E with
  | Some df => match arg_of E sl with Some a => instantiate E d df [a] | None => None end
  | None => None
  end.
Proof. intros E d sl N. destruct sl; try reflexivity. destruct (N es eq_refl). Qed.

Lemma arg_of_ast_of : forall E, env_ok E -> forall t, wfa E t = true -> safe t = true -> arg_of E (ast_of t) = Some t.
Proof.
  intros E HE. induction t using ty_ind'; intros Hw Hs; simpl in Hw; try discriminate.
  - simpl. rewrite HE. reflexivity.
  - reflexivity.
  - simpl in Hs. apply andb_prop in Hs as [Hlen Hs].
    assert (Hm : map_opt (fun x => as_type (arg_of E x)) (map ast_of ts) = Some ts).
    { apply map_opt_inverse. rewrite forallb_forall in Hw, Hs. rewrite Forall_forall in *. intros x Hx.
      pose proof (Hw x Hx) as W. rewrite (H x Hx); [| destruct x; (exact W || reflexivity) | exact (Hs x Hx)].
      simpl. rewrite (wf_is_type E x W). reflexivity. }
    destruct ts as [|x [|y l]]; [reflexivity | simpl in Hlen; discriminate |].
    cbn [ast_of arg_of]. rewrite Hm. reflexivity.
  - apply andb_prop in Hw as [Hk Hw]. apply negb_true_iff in Hk.
    simpl in Hs. apply andb_prop in Hs as [Hsole Hs]. apply negb_true_iff in Hsole.
    destruct (slookup d E) as [[| |ps c1 c2]|] eqn:Hd; try discriminate.
    apply andb_prop in Hw as [Hw Hargs]. apply andb_prop in Hw as [Hlen Hfit].
    pose proof (fits_params_ok E ps args Hlen Hfit) as Hpo.
    assert (Hall : map_opt (arg_of E) (map ast_of args) = Some args).
    { apply map_opt_inverse. rewrite forallb_forall in Hargs, Hs. rewrite Forall_forall in *.
      intros x Hx. exact (H x Hx (Hargs x Hx) (Hs x Hx)). }
    destruct args as [|x [|y l]].
    + simpl. rewrite Hd. simpl. rewrite Hpo. reflexivity.
    + simpl in Hall. destruct (arg_of E (ast_of x)) eqn:Hx; try discriminate. inversion Hall; subst.
      cbn [ast_of]. rewrite (arg_of_sub1 E d (ast_of x) (ast_of_not_tuple x Hsole)), Hd, Hx.
      simpl. rewrite Hpo. reflexivity.
    + cbn [ast_of arg_of]. rewrite Hd. rewrite Hall. simpl. rewrite Hpo. reflexivity.
  - reflexivity.
Qed.

Lemma python_reads : forall t, fo t = true -> py_parse (print t) = Some (ast_of t).
Proof.
  intros t Hfo. unfold py_parse, print. rewrite pr_fo by exact Hfo. simpl.
  rewrite <- (app_nil_r (prf t)), (fo_sim t Hfo). reflexivity.
Qed.

Lemma roundtrip : forall E t, env_ok E -> wf E t = true -> safe t = true -> parse E (print t) = Some t.
Proof.
  intros E t HE Hw Hsafe.
  assert (Hwa : wfa E t = true) by (destruct t; auto).
  unfold parse, type_of. rewrite (python_reads t (wfa_fo E t Hwa)), arg_of_ast_of by auto.
  simpl. rewrite (wf_is_type E t Hw). reflexivity.
Qed.
