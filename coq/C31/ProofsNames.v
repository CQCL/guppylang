(** C31 — distinct variables get distinct names in one printer run. *)
From Coq Require Import String Ascii List NArith Bool Arith Lia DecimalString DecimalN.
From V.C31 Require Import Tokens GenPrinter Model Spec ProofsRT.
Import ListNotations.
Open Scope string_scope.
Open Scope list_scope.

Lemma dec_inj : forall n m, dec n = dec m -> n = m.
Proof.
  unfold dec. intros n m H.
  assert (Some (N.to_uint n) = Some (N.to_uint m)) as H1.
  { rewrite <- !NilEmpty.usu. rewrite H. reflexivity. }
  inversion H1 as [H2]. rewrite <- (DecimalN.Unsigned.of_to n), <- (DecimalN.Unsigned.of_to m). rewrite H2. reflexivity.
Qed.

Lemma noq_app_quote : forall a x, noq (a ++ String "'" x)%string = false.
Proof.
  induction a; intros x; simpl.
  - reflexivity.
  - rewrite IHa. apply andb_false_r.
Qed.

Lemma split_inj : forall a b x y, noq a = true -> noq b = true ->
  (a ++ String "'" x)%string = (b ++ String "'" y)%string -> a = b /\ x = y.
Proof.
  induction a as [|c a IH]; intros [|c' b] x y Ha Hb H; simpl in *.
  - inversion H; auto.
  - inversion H; subst. simpl in Hb. discriminate.
  - inversion H; subst. simpl in Ha. discriminate.
  - inversion H; subst.
    apply andb_prop in Ha as [_ Ha]. apply andb_prop in Hb as [_ Hb].
    destruct (IH b x y Ha Hb H2). subst. auto.
Qed.

(* The invariant of a printer run.  The names with base d are d, d'1, d'2, ... ([nameof d k]); the
   counter records how many of them [fresh] has handed out ([cnt]), so the next one is [nameof d (cnt d)]
   in both branches of [fresh].  Display names contain no quote ([noq]), hence a name determines its base
   and index ([nameof_inj]).  [Inv], over the name a state gives a variable ([asg], read off the three
   tables): names of different variables differ, and none is a name [fresh] can still hand out. *)
Definition nameof (d : string) (k : N) : string :=
  if N.eqb k 0 then d else (d ++ String "'" (dec k))%string.

Definition cnt (d : string) (cn : list (string * N)) : N :=
  match slookup d cn with Some c => c | None => 0%N end.

Lemma nameof_inj : forall d d' k k', noq d = true -> noq d' = true ->
  nameof d k = nameof d' k' -> d = d' /\ k = k'.
Proof.
  unfold nameof. intros d d' k k' Hd Hd' H.
  destruct (N.eqb_spec k 0), (N.eqb_spec k' 0); subst.
  - auto.
  - rewrite noq_app_quote in Hd. discriminate.
  - rewrite noq_app_quote in Hd'. discriminate.
  - apply split_inj in H as [-> E]; auto. apply dec_inj in E. auto.
Qed.

Lemma cnt_cons : forall d0 d c cn, cnt d0 ((d, c) :: cn) = if String.eqb d0 d then c else cnt d0 cn.
Proof. intros. unfold cnt. simpl. destruct (String.eqb d0 d); reflexivity. Qed.

Lemma nameof_no_prefix : forall d k r, noq d = true -> nameof d k <> String "?" r.
Proof.
  intros d k r Hn E. unfold nameof in E. destruct (N.eqb k 0); [subst d; discriminate|].
  destruct d; [discriminate|]. injection E as -> _. discriminate.
Qed.

(* an entry of the counter is never 0, so `d'c` is only printed for c >= 1 *)
Lemma fresh_eq : forall d st, (forall c, slookup d (counter st) = Some c -> (1 <= c)%N) ->
  fresh d st = (nameof d (cnt d (counter st)),
                mkPst ((d, (cnt d (counter st) + 1)%N) :: counter st) (bound_names st) (exist_names st) (free_names st)).
Proof.
  intros d st Hpos. unfold fresh, cnt, nameof. change fresh_sep with "'".
  destruct (slookup d (counter st)) as [c|]; [|reflexivity].
  specialize (Hpos c eq_refl). destruct (N.eqb_spec c 0); [lia | reflexivity].
Qed.

(* the name as it is printed: an existential variable's carries the prefix *)
Definition shown (v : var) (nm : string) : string :=
  match v with VBound _ => nm | VExist _ => (exist_prefix ++ nm)%string end.

Definition asg (st : pst) (v : var) : option string :=
  match v with
  | VBound i => if Nat.ltb i (length (bound_names st)) then Some (nth i (bound_names st) "")
                else nlookup i (free_names st)
  | VExist id => option_map (shown v) (nlookup id (exist_names st))
  end.

(* existential names carry the prefix, which no name of [fresh] starts with *)
Lemma shown_inj : forall v v' d d' k k', noq d = true -> noq d' = true ->
  shown v (nameof d k) = shown v' (nameof d' k') -> d = d' /\ k = k'.
Proof.
  intros [i|i] [j|j] d d' k k' Hd Hd' E; simpl in E; change exist_prefix with "?" in E; simpl in E.
  - exact (nameof_inj _ _ _ _ Hd Hd' E).
  - destruct (nameof_no_prefix _ _ _ Hd E).
  - symmetry in E. destruct (nameof_no_prefix _ _ _ Hd' E).
  - injection E as E. exact (nameof_inj _ _ _ _ Hd Hd' E).
Qed.

Lemma var_eq_dec : forall v v' : var, {v = v'} + {v <> v'}.
Proof. decide equality; apply Nat.eq_dec. Qed.

Definition Inv (st : pst) : Prop :=
  (forall d c, slookup d (counter st) = Some c -> (1 <= c)%N) /\
  (forall v' v d k, noq d = true -> (cnt d (counter st) <= k)%N -> asg st v' <> Some (shown v (nameof d k))) /\
  (forall v1 v2 s, asg st v1 = Some s -> asg st v2 = Some s -> v1 = v2).

(* A fresh name is new.  Whatever state gives it to one variable [v], leaves the other variables their
   names and takes over the advanced counter satisfies the invariant again. *)
Lemma fresh_Inv : forall d st st' v, Inv st -> noq d = true ->
  counter st' = (d, (cnt d (counter st) + 1)%N) :: counter st ->
  (forall v', v' <> v -> asg st' v' = asg st v') ->
  asg st' v = Some (shown v (nameof d (cnt d (counter st)))) -> Inv st'.
Proof.
  intros d st st' v (Hpos & Hfut & Hinj) Hd Ec Hfr Hv.
  pose proof (fun v' => Hfut v' v d _ Hd (N.le_refl _)) as Hnot.
  assert (Hsub : forall v' s, asg st' v' = Some s ->
            v' = v /\ s = shown v (nameof d (cnt d (counter st))) \/ asg st v' = Some s).
  { intros v' s H. destruct (var_eq_dec v' v) as [->|N]; [left; split; congruence | right; rewrite <- Hfr; auto]. }
  unfold Inv. rewrite Ec. split; [|split].
  - intros d0 c0. simpl. destruct (String.eqb d0 d); intros H; [injection H as <-; lia | eauto].
  - (* the name just given has the index the counter has passed; for the others the counter only grew *)
    intros v' v0 d0 k Hd0 Hk H. rewrite cnt_cons in Hk. destruct (Hsub v' _ H) as [[_ E]|H'].
    + apply shown_inj in E as [-> ->]; auto. rewrite String.eqb_refl in Hk. lia.
    + apply (Hfut v' v0 d0 k Hd0); [|exact H']. destruct (String.eqb_spec d0 d); [subst d0; lia | exact Hk].
  - intros v1 v2 s H1 H2. destruct (Hsub v1 s H1) as [[-> ->]|H1'], (Hsub v2 _ H2) as [[-> E]|H2'].
    + reflexivity.
    + destruct (Hnot _ H2').
    + subst s. destruct (Hnot _ H1').
    + eauto.
Qed.

Lemma tags_app : forall a b, tags (a ++ b) = tags a ++ tags b.
Proof. induction a as [|[] a IH]; intros b; simpl; auto. rewrite IH. reflexivity. Qed.

Lemma tags_join : forall sep parts, tags sep = [] -> tags (join sep parts) = tags (concat parts).
Proof.
  intros sep parts Hs. induction parts as [|p [|q r] IH]; [reflexivity | simpl; rewrite app_nil_r; reflexivity |].
  change (join sep (p :: q :: r)) with (p ++ sep ++ join sep (q :: r)).
  change (concat (p :: q :: r)) with (p ++ concat (q :: r)). rewrite !tags_app, Hs, IH. reflexivity.
Qed.

Lemma tags_wrap : forall row t, tags (wrap row t) = tags t.
Proof. intros [] t; simpl; auto. rewrite tags_app. simpl. apply app_nil_r. Qed.

Lemma tags_if : forall (b : bool) x y, tags x = [] -> tags y = [] -> tags (if b then x else y) = [].
Proof. intros []; auto. Qed.

Lemma tags_flag : forall f, tags (flag_toks f) = [].
Proof. intros [[] []]; reflexivity. Qed.

(* A piece of a run that starts in [st], prints the tags [tg] and ends in [st']: the invariant holds at
   the end, the binder's names are the same, no variable has lost or changed its name, and every tag
   printed is the name [st'] gives its variable. *)
Definition Good (st : pst) (tg : list (var * string)) (st' : pst) : Prop :=
  Inv st' /\ bound_names st' = bound_names st /\
  (forall v s, asg st v = Some s -> asg st' v = Some s) /\
  (forall v s, In (v, s) tg -> asg st' v = Some s).

Lemma Good_nil : forall st, Inv st -> Good st [] st.
Proof. intros st H. split; [exact H|]. split; [reflexivity|]. split; [auto|]. intros v s []. Qed.

Lemma Good_app : forall st a st1 b st2, Good st a st1 -> Good st1 b st2 -> Good st (a ++ b) st2.
Proof.
  intros st a st1 b st2 (I1 & B1 & M1 & T1) (I2 & B2 & M2 & T2).
  split; [exact I2|]. split; [congruence|]. split; [auto|].
  intros v s H. apply in_app_or in H as [H|H]; auto.
Qed.

Lemma Good_seen : forall st v s, Inv st -> asg st v = Some s -> Good st [(v, s)] st.
Proof. intros st v s I A. repeat (split; [auto|]). intros v0 s0 [[= <- <-]|[]]. exact A. Qed.

Lemma Good_fresh : forall d st st' v, Inv st -> noq d = true ->
  counter st' = (d, (cnt d (counter st) + 1)%N) :: counter st -> bound_names st' = bound_names st ->
  asg st v = None -> (forall v', v' <> v -> asg st' v' = asg st v') ->
  asg st' v = Some (shown v (nameof d (cnt d (counter st)))) ->
  Good st [(v, shown v (nameof d (cnt d (counter st))))] st'.
Proof.
  intros d st st' v I Hd Ec Eb Hnone Hfr Hv.
  split; [exact (fresh_Inv d st st' v I Hd Ec Hfr Hv)|]. split; [exact Eb|]. split.
  - intros v0 s0 H. rewrite Hfr; [exact H | intros ->; congruence].
  - intros v0 s0 [[= <- <-]|[]]. exact Hv.
Qed.

(* what [pr_good] shows of every type by induction: printing a type without inner quantifier is a [Good] piece *)
Definition P (t : ty) : Prop :=
  forall row st, mono t = true -> tnames_ok t = true -> Inv st ->
  Good st (tags (fst (pr t row st))) (snd (pr t row st)).

Lemma thread_good : forall l st,
  Forall P l -> forallb mono l = true -> forallb tnames_ok l = true -> Inv st ->
  Good st (tags (concat (fst (thread (fun x => pr x true) l st)))) (snd (thread (fun x => pr x true) l st)).
Proof.
  induction l as [|x l IH]; intros st HF Hm Hn HI; simpl.
  - apply Good_nil, HI.
  - apply Forall_cons_iff in HF as [HPx HFl]. simpl in Hm, Hn.
    apply andb_prop in Hm as [Hm1 Hm2]. apply andb_prop in Hn as [Hn1 Hn2].
    pose proof (HPx true st Hm1 Hn1 HI) as G. destruct (pr x true st) as [a st1].
    pose proof (IH st1 HFl Hm2 Hn2 (proj1 G)) as G'. destruct (thread (fun x => pr x true) l st1) as [b st2].
    simpl. rewrite tags_app. exact (Good_app _ _ _ _ _ G G').
Qed.

(* the input flags of a function type add keywords only: same state, same tags as [thread] *)
Lemma thread_in_thread : forall f l fl st,
  snd (thread_in f l fl st) = snd (thread f l st) /\
  tags (concat (fst (thread_in f l fl st))) = tags (concat (fst (thread f l st))).
Proof.
  induction l as [|x l IH]; intros fl st; simpl; [auto|].
  destruct (f x st) as [a st1]. specialize (IH (tl fl) st1).
  destruct (thread_in f l (tl fl) st1), (thread f l st1). simpl in *. destruct IH as [-> E].
  split; [reflexivity|]. rewrite !tags_app, tags_flag, E, app_nil_r. reflexivity.
Qed.

Lemma pr_good : forall t, P t.
Proof.
  induction t using ty_ind'; unfold P; intros row st Hm Hn HI.
  - apply Good_nil, HI.
  - apply Good_nil, HI.
  - simpl in Hm, Hn |- *. pose proof (thread_good ts st H Hm Hn HI) as G.
    destruct (thread (fun x => pr x true) ts st) as [parts st1]. simpl.
    rewrite !tags_app, tags_join, tags_if by reflexivity. simpl. rewrite app_nil_r. exact G.
  - simpl in Hm, Hn |- *. destruct args as [|a args]; [apply Good_nil, HI|].
    pose proof (thread_good (a :: args) st H Hm Hn HI) as G.
    destruct (thread (fun x => pr x true) (a :: args) st) as [parts st1]. simpl.
    rewrite !tags_app, tags_join, tags_if by reflexivity. simpl. rewrite app_nil_r. exact G.
  - apply Good_nil, HI.
  - simpl in Hn |- *. change free_bound_fresh with true. cbv iota.
    destruct (Nat.ltb i (length (bound_names st))) eqn:Ei.
    + apply Good_seen; [exact HI|]. simpl. rewrite Ei. reflexivity.
    + destruct (nlookup i (free_names st)) as [nm|] eqn:El.
      * apply Good_seen; [exact HI|]. simpl. rewrite Ei. exact El.
      * rewrite (fresh_eq s st (proj1 HI s)). simpl.
        apply (Good_fresh s st _ (VBound i) HI Hn); [reflexivity | reflexivity | | |].
        -- simpl. rewrite Ei. exact El.
        -- intros [j|j] N; simpl; [|reflexivity]. destruct (Nat.ltb j (length (bound_names st))); [reflexivity|].
           destruct (Nat.eqb_spec j i); [congruence | reflexivity].
        -- simpl. rewrite Ei, Nat.eqb_refl. reflexivity.
  - simpl in Hn |- *.
    destruct (nlookup i (exist_names st)) as [nm|] eqn:El.
    + apply Good_seen; [exact HI|]. simpl. rewrite El. reflexivity.
    + rewrite (fresh_eq s st (proj1 HI s)). simpl.
      apply (Good_fresh s st _ (VExist i) HI Hn); [reflexivity | reflexivity | | |].
      * simpl. rewrite El. reflexivity.
      * intros [j|j] N; simpl; [reflexivity|]. destruct (Nat.eqb_spec j i); [congruence | reflexivity].
      * simpl. rewrite Nat.eqb_refl. reflexivity.
  - simpl in Hm, Hn. destruct ps as [|p ps]; [|discriminate].
    apply andb_prop in Hm as [Hm1 Hm2]. apply andb_prop in Hn as [Hn1 Hn2]. simpl in Hn1.
    pose proof (thread_good ins st H Hm1 Hn1 HI) as G.
    destruct (thread_in_thread (fun x => pr x true) ins fl st) as [Es Et]. rewrite <- Es, <- Et in G.
    cbn [pr alloc_params length].
    destruct (thread_in (fun x => pr x true) ins fl st) as [iparts st2].
    pose proof (IHt true st2 Hm2 Hn2 (proj1 G)) as G'. destruct (pr t true st2) as [otoks st3].
    cbn [fst snd] in *. rewrite tags_wrap.
    replace (tags _) with (tags (concat iparts) ++ tags otoks); [exact (Good_app _ _ _ _ _ G G')|].
    destruct (Nat.eqb (length ins) 1); simpl; rewrite !tags_app, tags_join by reflexivity;
      simpl; rewrite ?app_nil_r; reflexivity.
Qed.

Lemma alloc_params_inv : forall ps st,
  Inv st -> forallb (fun p => noq (fst p)) ps = true ->
  Inv (alloc_params ps st) /\
  length (bound_names (alloc_params ps st)) = length (bound_names st) + length ps.
Proof.
  induction ps as [|[nm k] ps IH]; intros st HI Hn; simpl in *.
  - split; [exact HI | lia].
  - apply andb_prop in Hn as [Hn1 Hn2].
    rewrite (fresh_eq nm st (proj1 HI nm)). simpl. set (st' := mkPst _ _ _ _).
    (* the new name goes to position [length (bound_names st)]; no other position moves *)
    assert (I' : Inv st').
    { apply (fresh_Inv nm st st' (VBound (length (bound_names st))) HI Hn1); [reflexivity | |].
      - intros [j|j] N; [|reflexivity]. simpl. rewrite app_length, Nat.add_1_r.
        destruct (Nat.ltb_spec j (length (bound_names st))), (Nat.ltb_spec j (S (length (bound_names st))));
          try lia; [rewrite app_nth1 by assumption; reflexivity | destruct N; f_equal; lia | reflexivity].
      - simpl. rewrite app_length, Nat.add_1_r, (proj2 (Nat.ltb_lt _ _) (Nat.lt_succ_diag_r _)), nth_middle.
        reflexivity. }
    destruct (IH st' I' Hn2) as (I2 & L2).
    split; [exact I2|]. rewrite L2. simpl. rewrite app_length. simpl. lia.
Qed.

Lemma quant_asg : forall st ps i v s, i + length ps <= length (bound_names st) ->
  In (v, s) (tags (concat (quant_parts ps i (bound_names st)))) -> asg st v = Some s.
Proof.
  intros st.
  assert (Hi : forall i, i < length (bound_names st) -> asg st (VBound i) = Some (nth i (bound_names st) "")).
  { intros i L. simpl. apply Nat.ltb_lt in L. rewrite L. reflexivity. }
  induction ps as [|[nm [|k [|]]] ps IH]; simpl; intros i v s L H; [contradiction | | |].
  - destruct H as [[= <- <-]|H]; [apply Hi; lia | apply (IH (S i)); [lia | exact H]].
  - apply (IH (S i)); [lia | exact H].
  - destruct H as [[= <- <-]|H]; [apply Hi; lia | apply (IH (S i)); [lia | exact H]].
Qed.

Lemma Inv_init : Inv init_pst.
Proof. repeat split; intros [] *; discriminate. Qed.

Lemma print_consistent : forall t, rank1 t = true -> tnames_ok t = true ->
  exists st, Inv st /\ forall v s, In (v, s) (tags (print t)) -> asg st v = Some s.
Proof.
  intros t Hr Hn. unfold print.
  assert (Hmono_case : mono t = true -> exists st, Inv st /\ forall v s, In (v, s) (tags (fst (pr t false init_pst))) -> asg st v = Some s).
  { intros Hm. destruct (pr_good t false init_pst Hm Hn Inv_init) as (I & _ & _ & T). eauto. }
  destruct t; try (apply Hmono_case; exact Hr).
  destruct ps as [|p0 ps0]; [apply Hmono_case; simpl in *; exact Hr|].
  (* a quantifier at the top: the rest is printed as the non-generic function type, in the state after the
     allocation of the parameters, and they are still in scope in the state after it *)
  simpl in Hr, Hn. apply andb_prop in Hn as [Hn0 Hn2]. apply andb_prop in Hn0 as [Hnp Hn1].
  set (ps := p0 :: ps0) in *.
  destruct (alloc_params_inv ps init_pst Inv_init Hnp) as (I1 & L1).
  assert (Hn' : tnames_ok (TFun [] ins fl t) = true) by (simpl; rewrite Hn1, Hn2; reflexivity).
  pose proof (pr_good (TFun [] ins fl t) false _ Hr Hn' I1) as G.
  cbn [pr alloc_params length wrap] in G |- *. fold ps.
  destruct (thread_in (fun x => pr x true) ins fl (alloc_params ps init_pst)) as [iparts st2].
  destruct (pr t true st2) as [otoks st3]. cbn [fst snd] in G. destruct G as (I3 & B3 & _ & T3).
  exists st3. split; [assumption|].
  replace (length ps) with (S (length ps0)) by reflexivity. cbv iota. cbn [fst].
  intros v s Hin. do 3 rewrite tags_app in Hin.
  rewrite tags_join in Hin by reflexivity. cbn [tags app] in Hin.
  apply in_app_or in Hin as [Hin|Hin]; [|auto].
  apply (quant_asg st3 ps 0 v s); [rewrite B3, L1; reflexivity | exact Hin].
Qed.
