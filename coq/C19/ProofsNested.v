(** C19 — nested subscripts lent to a call: `f(qs[i][j])`. *)
From Coq Require Import ZArith List.
From V.C19 Require Import Array Proofs.
Import ListNotations.
Open Scope Z_scope.

Section Nested.
  Variables (n m : nat) (cells inner : list (option val)) (i j : Z).
  Hypothesis Hlen : length cells = n.
  Hypothesis Hn : Z.of_nat n <= two63.
  Hypothesis Hi : 0 <= i < Z.of_nat n.
  Hypothesis Hlm : length inner = m.
  Hypothesis Hm : Z.of_nat m <= two63.
  Hypothesis Hj : 0 <= j < Z.of_nat m.
  Hypothesis Hci : nth_error cells (Z.to_nat i) = Some (Some (VArr inner)).
  Variables (fr : list val) (a ri rj b : nat).
  Hypothesis Ha : nth_error fr a = Some (VArr cells).
  Hypothesis Hri : nth_error fr ri = Some (VInt i).
  Hypothesis Hrj : nth_error fr rj = Some (VInt j).
  Hypothesis Hb : length fr = b.

  Lemma run_nested_pre : forall v,
    nth_error inner (Z.to_nat j) = Some (Some v) ->
    run (seq_nested_pre n m a ri rj b) fr
    = Ok (fr ++ [VUsize (i mod two64); VArr (upd cells (Z.to_nat i) None); VArr inner;
                 VUsize (j mod two64); VArr (upd inner (Z.to_nat j) None); v;
                 VUsize (i mod two64); VArr (upd cells (Z.to_nat i) (Some (VArr (upd inner (Z.to_nat j) None))))]).
  Proof.
    intros v Hcj. subst b. unfold seq_nested_pre.
    exec eq_refl. exec borrow_full. exec eq_refl. exec borrow_full. exec eq_refl. exec return_empty.
    rewrite upd_upd. reflexivity.
  Qed.

  Lemma run_nested_post : forall e w,
    nth_error fr e = Some w -> nth_error inner (Z.to_nat j) = Some None ->
    run (seq_nested_post n m a ri rj e b) fr
    = Ok (fr ++ [VUsize (i mod two64); VArr (upd cells (Z.to_nat i) None); VArr inner;
                 VUsize (j mod two64); VArr (upd inner (Z.to_nat j) (Some w));
                 VUsize (i mod two64); VArr (upd cells (Z.to_nat i) (Some (VArr (upd inner (Z.to_nat j) (Some w)))))]).
  Proof.
    intros e w He Hcj. subst b. unfold seq_nested_post.
    exec eq_refl. exec borrow_full. exec eq_refl. exec return_empty. exec eq_refl. exec return_empty.
    rewrite upd_upd. reflexivity.
  Qed.
End Nested.

Lemma run_lend_nested_at : forall n m cells inner i j fr a ri rj b f v w,
  length cells = n -> Z.of_nat n <= two63 -> 0 <= i < Z.of_nat n ->
  length inner = m -> Z.of_nat m <= two63 -> 0 <= j < Z.of_nat m ->
  nth_error cells (Z.to_nat i) = Some (Some (VArr inner)) ->
  nth_error inner (Z.to_nat j) = Some (Some v) ->
  nth_error fr a = Some (VArr cells) -> nth_error fr ri = Some (VInt i) -> nth_error fr rj = Some (VInt j) ->
  length fr = b -> op_sem f [v] = Ok [w] ->
  exists new, run (seq_lend_nested_at n m f a ri rj b) fr = Ok (fr ++ new)
    /\ nth_error new 15 = Some (VArr (upd cells (Z.to_nat i) (Some (VArr (upd inner (Z.to_nat j) (Some w)))))).
Proof.
  intros n m cells inner i j fr a ri rj b f v w Hlen Hn Hi Hlm Hm Hj Hci Hcj Ha Hri Hrj <- Hf.
  eexists. split.
  - unfold seq_lend_nested_at.
    rewrite run_app, (run_nested_pre n m cells inner i j Hlen Hn Hi Hlm Hm Hj Hci fr a ri rj _ Ha Hri Hrj eq_refl v Hcj).
    cbn [obind app]. exec Hf.
    erewrite (run_nested_post n m (upd cells (Z.to_nat i) (Some (VArr (upd inner (Z.to_nat j) None))))
                (upd inner (Z.to_nat j) None) i j) by (eauto with cells regs || apply app_length).
    rewrite <- app_assoc. reflexivity.
  - cbn. rewrite !upd_upd. reflexivity.
Qed.

Definition only_cell_ij_changed (ki kj : nat) (x : option val) (a b : list (option val)) : Prop :=
  exists ia ib, nth_error a ki = Some (Some (VArr ia)) /\ only_cell_changed ki (Some (VArr ib)) a b
                /\ only_cell_changed kj x ia ib.

Lemma upd_only_cell_ij_changed : forall a ia ki kj x y,
  nth_error a ki = Some (Some (VArr ia)) -> nth_error ia kj = Some y ->
  only_cell_ij_changed ki kj x a (upd a ki (Some (VArr (upd ia kj x)))).
Proof.
  intros a ia ki kj x y Ha Hia. exists ia, (upd ia kj x).
  split; [exact Ha | split; eapply upd_only_cell_changed; eassumption].
Qed.
