(** C19 — iteration and comprehension enumerate the cells in index order. *)
From Coq Require Import String ZArith List Lia.
From V.C19 Require Import Array GenIter ModelIter Proofs.
Import ListNotations.
Open Scope Z_scope.

Example bindings_are_the_modelled_compilers :
  (bind_getitem, bind_setitem, bind_copy, bind_unsafe_getitem, bind_discard_all_used)
  = ("ArrayGetitemCompiler", "ArraySetitemCompiler", "CopyInoutCompiler",
     "ArrayGetitemCompiler", "ArrayDiscardAllUsedCompiler")%string.
Proof. reflexivity. Qed.

Lemma nat_to_int_small : forall n, Z.of_nat n < two63 -> nat_to_int n = Z.of_nat n.
Proof. intros. apply wrap_s_nonneg. lia. Qed.

Lemma wrap_s_succ : forall k, Z.of_nat k + 1 < two63 -> wrap_s (Z.of_nat k + 1) = Z.of_nat (S k).
Proof. intros. rewrite wrap_s_nonneg by lia. lia. Qed.

Lemma iter_next_in : forall n k xs, Z.of_nat n < two63 -> (k < n)%nat ->
  array_iter_next n xs (Z.of_nat k)
  = obind (call_getitem_linear n xs (Z.of_nat k)) (fun r => Ok (Some (fst r, (snd r, Z.of_nat (S k))))).
Proof.
  intros n k xs Hn Hk. unfold array_iter_next, int_lt, int_add.
  rewrite nat_to_int_small, wrap_s_succ by lia.
  destruct (Z.ltb_spec (Z.of_nat k) (Z.of_nat n)); [reflexivity | lia].
Qed.

Lemma iter_next_end : forall n cells, Z.of_nat n < two63 -> length cells = n -> all_none cells = true ->
  array_iter_next n (VArr cells) (Z.of_nat n) = Ok None.
Proof.
  intros n cells Hn Hlen Hnone. unfold array_iter_next, int_lt.
  rewrite nat_to_int_small, Z.ltb_irrefl by assumption.
  unfold call_discard_all_used, seq_discard_all_used. cbn. subst n. rewrite len_ok_refl, Hnone. reflexivity.
Qed.

Lemma iter_next_some : forall n cells k e,
  Z.of_nat n < two63 -> length cells = n -> nth_error cells k = Some (Some e) ->
  array_iter_next n (VArr cells) (Z.of_nat k) = Ok (Some (e, (VArr (upd cells k None), Z.of_nat (S k)))).
Proof.
  intros n cells k e Hn Hlen Hc.
  assert (k < n)%nat by (subst n; apply nth_error_Some; congruence).
  rewrite iter_next_in by assumption. unfold call_getitem_linear.
  rewrite (get_linear_full n cells (Z.of_nat k) e), Nat2Z.id;
    [reflexivity | assumption | lia | lia | rewrite Nat2Z.id; assumption].
Qed.

Lemma iterate_some : forall f n xs i e xs' i',
  array_iter_next n xs i = Ok (Some (e, (xs', i'))) ->
  iterate (S f) n xs i = obind (iterate f n xs' i') (fun r => Ok (e :: r)).
Proof. intros f n xs i e xs' i' H. cbn [iterate]. rewrite H. reflexivity. Qed.

Lemma iterate_none : forall f n xs i, array_iter_next n xs i = Ok None -> iterate (S f) n xs i = Ok [].
Proof. intros f n xs i H. cbn [iterate]. rewrite H. reflexivity. Qed.

Lemma all_none_snoc : forall A (l : list (option A)), all_none l = true -> all_none (l ++ [None]) = true.
Proof. induction l as [|[x|] l IH]; simpl; auto. Qed.

Lemma iterate_from : forall rest pre n,
  Z.of_nat n < two63 -> n = (length pre + length rest)%nat -> all_none pre = true ->
  iterate (S (length rest)) n (VArr (pre ++ map Some rest)) (Z.of_nat (length pre)) = Ok rest.
Proof.
  induction rest as [|e rest IH]; intros pre n Hn Hk Hpre; cbn [length map] in Hk |- *.
  - rewrite Nat.add_0_r in Hk. subst n. rewrite app_nil_r. apply iterate_none, iter_next_end; auto.
  - erewrite iterate_some
      by (apply iter_next_some; [assumption | rewrite app_length; cbn [length]; rewrite map_length; lia | apply reg_new0]).
    rewrite upd_app_r.
    specialize (IH (pre ++ [None]) n). rewrite <- app_assoc, app_length, Nat.add_1_r in IH.
    cbn [app] in IH. rewrite IH by (auto using all_none_snoc; lia). reflexivity.
Qed.

Lemma comp_step_l : forall n cells count e,
  length cells = n -> Z.of_nat n <= two63 -> 0 <= count < Z.of_nat n ->
  nth_error cells (Z.to_nat count) = Some None ->
  run_outs (seq_comp_step n) outs_comp_step [VInt count; VArr cells; e]
  = Ok [VArr (upd cells (Z.to_nat count) (Some e)); VInt (wrap_s (count + 1))].
Proof.
  intros n cells count e Hlen Hn Hc Hcell. unfold run_outs, seq_comp_step.
  exec eq_refl. exec return_empty. exec eq_refl. exec eq_refl. reflexivity.
Qed.

Lemma comp_drive_from : forall es pre n,
  Z.of_nat n < two63 -> n = (length pre + length es)%nat ->
  comp_drive n es (VArr (map Some pre ++ repeat None (length es))) (Z.of_nat (length pre))
  = Ok (VArr (map Some (pre ++ es))).
Proof.
  induction es as [|e es IH]; intros pre n Hn Hk; cbn [comp_drive length repeat] in *.
  - rewrite !app_nil_r. reflexivity.
  - rewrite (comp_step_l n);
      [ | rewrite app_length, map_length; cbn [length]; rewrite repeat_length; lia | lia | lia
        | rewrite Nat2Z.id, <- (map_length Some pre); apply reg_new0 ].
    rewrite Nat2Z.id, wrap_s_succ, <- (map_length Some pre), upd_app_r, map_length by lia.
    specialize (IH (pre ++ [e]) n). rewrite map_app, <- !app_assoc, app_length, Nat.add_1_r in IH.
    apply IH; [assumption | lia].
Qed.
