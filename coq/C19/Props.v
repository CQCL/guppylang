(** C19 — array access is bounds-safe and alias-free: the property theorems.

   All statements are about the op sequences of Array.v part 3 (the sequences /repo's compiler
   emits; compared with the really emitted ones on every run) executed by the abstract
   borrow-array machine of Array.v parts 1-2 (trusted op semantics).  An index is any int64
   [i]; [n] is the static array length, assumed <= 2^63 (the usize reading of a negative int64
   is >= 2^63).  The property as a whole is PARTIAL: see props/C19/NOTES.md. *)
From Coq Require Import String ZArith List Lia.
From V.C19 Require Import Array GenIter ModelIter Proofs ProofsIter ProofsNested.
Import ListNotations.
Open Scope Z_scope.

(** xs[i], copyable elements *)
Theorem read_touches_exactly_cell_i : forall n cells i v,
  length cells = n -> Z.of_nat n <= two63 -> 0 <= i < Z.of_nat n ->
  nth_error cells (Z.to_nat i) = Some (Some v) ->
  run_outs (seq_get_classical n) outs_get_classical [VArr cells; VInt i] = Ok [v; VArr cells].
Proof.
  intros n cells i v Hlen Hn Hi Hc. unfold run_outs, seq_get_classical.
  exec eq_refl. exec get_full. erewrite run_unwrap_some by reflexivity. reflexivity.
Qed.
Print Assumptions read_touches_exactly_cell_i.

Theorem read_any_other_index_panics : forall n cells i,
  length cells = n -> Z.of_nat n <= two63 -> is_int64 i -> (i < 0 \/ Z.of_nat n <= i) ->
  run_outs (seq_get_classical n) outs_get_classical [VArr cells; VInt i] = Panic msg_index_oob.
Proof.
  intros n cells i Hlen Hn Hi Ho. unfold run_outs, seq_get_classical.
  exec eq_refl. exec get_out. erewrite run_unwrap_none by reflexivity. reflexivity.
Qed.
Print Assumptions read_any_other_index_panics.

Example read_example :
  run_outs (seq_get_classical 3) outs_get_classical [VArr [Some (VInt 10); Some (VInt 11); Some (VInt 12)]; VInt 1]
  = Ok [VInt 11; VArr [Some (VInt 10); Some (VInt 11); Some (VInt 12)]]
  /\ run_outs (seq_get_classical 3) outs_get_classical [VArr [Some (VInt 10); Some (VInt 11); Some (VInt 12)]; VInt (-1)]
  = Panic msg_index_oob
  /\ run_outs (seq_get_classical 3) outs_get_classical [VArr [Some (VInt 10); Some (VInt 11); Some (VInt 12)]; VInt 3]
  = Panic msg_index_oob.
Proof. vm_compute. auto. Qed.

(** xs[i] = v, copyable elements *)
Theorem write_touches_exactly_cell_i : forall n cells i v old,
  length cells = n -> Z.of_nat n <= two63 -> 0 <= i < Z.of_nat n ->
  nth_error cells (Z.to_nat i) = Some (Some old) ->
  exists cells', run_outs (seq_set_classical n) outs_set_classical [VArr cells; VInt i; v] = Ok [VArr cells']
                 /\ only_cell_changed (Z.to_nat i) (Some v) cells cells'.
Proof.
  intros n cells i v old Hlen Hn Hi Hc. exists (upd cells (Z.to_nat i) (Some v)). split.
  - unfold run_outs, seq_set_classical.
    exec eq_refl. exec set_full. erewrite run_unwrap_some by reflexivity. reflexivity.
  - eapply upd_only_cell_changed, Hc.
Qed.
Print Assumptions write_touches_exactly_cell_i.

Theorem write_any_other_index_panics : forall n cells i v,
  length cells = n -> Z.of_nat n <= two63 -> is_int64 i -> (i < 0 \/ Z.of_nat n <= i) ->
  run_outs (seq_set_classical n) outs_set_classical [VArr cells; VInt i; v] = Panic msg_index_oob.
Proof.
  intros n cells i v Hlen Hn Hi Ho. unfold run_outs, seq_set_classical.
  exec eq_refl. exec set_out. erewrite run_unwrap_none by reflexivity. reflexivity.
Qed.
Print Assumptions write_any_other_index_panics.

Example write_example :
  run_outs (seq_set_classical 3) outs_set_classical [VArr [Some (VInt 10); Some (VInt 11); Some (VInt 12)]; VInt 2; VInt 7]
  = Ok [VArr [Some (VInt 10); Some (VInt 11); Some (VInt 7)]]
  /\ run_outs (seq_set_classical 3) outs_set_classical [VArr [Some (VInt 10); Some (VInt 11); Some (VInt 12)]; VInt (-3); VInt 7]
  = Panic msg_index_oob.
Proof. vm_compute. auto. Qed.

(** lending a linear element: qs[i] as an argument *)
Theorem lend_takes_exactly_cell_i : forall n cells i v,
  length cells = n -> Z.of_nat n <= two63 -> 0 <= i < Z.of_nat n ->
  nth_error cells (Z.to_nat i) = Some (Some v) ->
  exists cells', run_outs (seq_get_linear n) outs_get_linear [VArr cells; VInt i] = Ok [v; VArr cells']
                 /\ only_cell_changed (Z.to_nat i) None cells cells'.
Proof.
  intros n cells i v Hlen Hn Hi Hc. exists (upd cells (Z.to_nat i) None). split.
  - apply get_linear_full; assumption.
  - eapply upd_only_cell_changed, Hc.
Qed.
Print Assumptions lend_takes_exactly_cell_i.

Theorem lend_any_other_index_panics : forall n cells i,
  length cells = n -> Z.of_nat n <= two63 -> is_int64 i -> (i < 0 \/ Z.of_nat n <= i) ->
  run_outs (seq_get_linear n) outs_get_linear [VArr cells; VInt i] = Panic msg_op_oob.
Proof.
  intros n cells i Hlen Hn Hi Ho. unfold run_outs, seq_get_linear.
  exec eq_refl. exec_panic borrow_out.
Qed.
Print Assumptions lend_any_other_index_panics.

Theorem lend_lent_cell_panics : forall n cells i,
  length cells = n -> Z.of_nat n <= two63 -> 0 <= i < Z.of_nat n ->
  nth_error cells (Z.to_nat i) = Some None ->
  run_outs (seq_get_linear n) outs_get_linear [VArr cells; VInt i] = Panic msg_already_borrowed.
Proof.
  intros n cells i Hlen Hn Hi Hc. unfold run_outs, seq_get_linear.
  exec eq_refl. exec_panic borrow_empty.
Qed.
Print Assumptions lend_lent_cell_panics.

(** g(qs[i], qs[i]) panics instead of aliasing *)
Theorem lend_same_element_twice_panics : forall n g cells i v,
  length cells = n -> Z.of_nat n <= two63 -> 0 <= i < Z.of_nat n ->
  nth_error cells (Z.to_nat i) = Some (Some v) ->
  run_outs (seq_use2 n g) outs_use2 [VArr cells; VInt i; VInt i] = Panic msg_already_borrowed.
Proof.
  intros n g cells i v Hlen Hn Hi Hc. unfold run_outs, seq_use2.
  exec eq_refl. exec borrow_full. exec eq_refl. exec_panic borrow_empty.
Qed.
Print Assumptions lend_same_element_twice_panics.

(** g(qs[i], qs[j]) *)
Theorem lend_two_distinct_restores_array : forall n g cells i j vi vj,
  length cells = n -> Z.of_nat n <= two63 -> 0 <= i < Z.of_nat n -> 0 <= j < Z.of_nat n -> i <> j ->
  nth_error cells (Z.to_nat i) = Some (Some vi) ->
  nth_error cells (Z.to_nat j) = Some (Some vj) ->
  run_outs (seq_use2 n g) outs_use2 [VArr cells; VInt i; VInt j] = Ok [VArr cells].
Proof.
  intros n g cells i j vi vj Hlen Hn Hi Hj Hne Hci Hcj.
  assert (Hij : Z.to_nat i <> Z.to_nat j) by lia. assert (Hji : Z.to_nat j <> Z.to_nat i) by lia.
  unfold run_outs, seq_use2.
  exec eq_refl. exec borrow_full. exec eq_refl. exec borrow_full. exec eq_refl.
  exec eq_refl. exec return_empty. exec eq_refl. exec return_empty. cbn.
  (* the two write-backs undo the two borrows, cell by cell *)
  rewrite (upd_comm _ cells), upd_upd, (upd_comm _ (upd cells _ _)), upd_upd by assumption.
  rewrite (upd_id _ cells), upd_id by assumption. reflexivity.
Qed.
Print Assumptions lend_two_distinct_restores_array.

Theorem lend_two_first_index_invalid_panics : forall n g cells i j,
  length cells = n -> Z.of_nat n <= two63 -> is_int64 i -> (i < 0 \/ Z.of_nat n <= i) ->
  run_outs (seq_use2 n g) outs_use2 [VArr cells; VInt i; VInt j] = Panic msg_op_oob.
Proof.
  intros n g cells i j Hlen Hn Hi Ho. unfold run_outs, seq_use2.
  exec eq_refl. exec_panic borrow_out.
Qed.
Print Assumptions lend_two_first_index_invalid_panics.

Theorem lend_two_second_index_invalid_panics : forall n g cells i j vi,
  length cells = n -> Z.of_nat n <= two63 -> 0 <= i < Z.of_nat n ->
  nth_error cells (Z.to_nat i) = Some (Some vi) ->
  is_int64 j -> (j < 0 \/ Z.of_nat n <= j) ->
  run_outs (seq_use2 n g) outs_use2 [VArr cells; VInt i; VInt j] = Panic msg_op_oob.
Proof.
  intros n g cells i j vi Hlen Hn Hi Hci Hj Ho. unfold run_outs, seq_use2.
  exec eq_refl. exec borrow_full. exec eq_refl. exec_panic borrow_out.
Qed.
Print Assumptions lend_two_second_index_invalid_panics.

Example lend_example :
  let qs := [Some (VRes 0); Some (VRes 1); Some (VRes 2); Some (VRes 3)] in
  run_outs (seq_use2 4 "CX") outs_use2 [VArr qs; VInt 3; VInt 1] = Ok [VArr qs]
  /\ run_outs (seq_use2 4 "CX") outs_use2 [VArr qs; VInt 2; VInt 2] = Panic msg_already_borrowed
  /\ run_outs (seq_use2 4 "CX") outs_use2 [VArr qs; VInt 2; VInt (-2)] = Panic msg_op_oob.
Proof. vm_compute. auto. Qed.

(** g(qs[i]) *)
Theorem lend_one_restores_array : forall n g cells i v,
  length cells = n -> Z.of_nat n <= two63 -> 0 <= i < Z.of_nat n ->
  nth_error cells (Z.to_nat i) = Some (Some v) ->
  run_outs (seq_use1 n g) outs_use1 [VArr cells; VInt i] = Ok [VArr cells].
Proof.
  intros n g cells i v Hlen Hn Hi Hc. unfold run_outs, seq_use1.
  exec eq_refl. exec borrow_full. exec eq_refl. exec eq_refl. exec return_empty. cbn.
  rewrite upd_upd, upd_id by assumption. reflexivity.
Qed.
Print Assumptions lend_one_restores_array.

Theorem lend_one_any_other_index_panics : forall n g cells i,
  length cells = n -> Z.of_nat n <= two63 -> is_int64 i -> (i < 0 \/ Z.of_nat n <= i) ->
  run_outs (seq_use1 n g) outs_use1 [VArr cells; VInt i] = Panic msg_op_oob.
Proof.
  intros n g cells i Hlen Hn Hi Ho. unfold run_outs, seq_use1.
  exec eq_refl. exec_panic borrow_out.
Qed.
Print Assumptions lend_one_any_other_index_panics.

(** qs[i] = q (linear write) *)
Theorem give_back_fills_exactly_cell_i : forall n cells i v,
  length cells = n -> Z.of_nat n <= two63 -> 0 <= i < Z.of_nat n ->
  nth_error cells (Z.to_nat i) = Some None ->
  exists cells', run_outs (seq_set_linear n) outs_set_linear [VArr cells; VInt i; v] = Ok [VArr cells']
                 /\ only_cell_changed (Z.to_nat i) (Some v) cells cells'.
Proof.
  intros n cells i v Hlen Hn Hi Hc. exists (upd cells (Z.to_nat i) (Some v)). split.
  - unfold run_outs, seq_set_linear. exec eq_refl. exec return_empty. reflexivity.
  - eapply upd_only_cell_changed, Hc.
Qed.
Print Assumptions give_back_fills_exactly_cell_i.

Theorem give_back_any_other_index_panics : forall n cells i v,
  length cells = n -> Z.of_nat n <= two63 -> is_int64 i -> (i < 0 \/ Z.of_nat n <= i) ->
  run_outs (seq_set_linear n) outs_set_linear [VArr cells; VInt i; v] = Panic msg_op_oob.
Proof.
  intros n cells i v Hlen Hn Hi Ho. unfold run_outs, seq_set_linear.
  exec eq_refl. exec_panic return_out.
Qed.
Print Assumptions give_back_any_other_index_panics.

Theorem give_back_into_full_cell_panics : forall n cells i v w,
  length cells = n -> Z.of_nat n <= two63 -> 0 <= i < Z.of_nat n ->
  nth_error cells (Z.to_nat i) = Some (Some w) ->
  run_outs (seq_set_linear n) outs_set_linear [VArr cells; VInt i; v] = Panic msg_not_borrowed.
Proof.
  intros n cells i v w Hlen Hn Hi Hc. unfold run_outs, seq_set_linear.
  exec eq_refl. exec_panic return_full.
Qed.
Print Assumptions give_back_into_full_cell_panics.

(** copy() *)
Theorem copy_sees_elements_in_order : forall n vs, length vs = n ->
  run_outs (seq_copy n) outs_copy [VArr (map Some vs)] = Ok [VArr (map Some vs); VArr (map Some vs)].
Proof.
  intros n vs Hlen. unfold run_outs, seq_copy. exec clone_full. reflexivity.
Qed.
Print Assumptions copy_sees_elements_in_order.

Theorem copy_of_array_with_lent_cell_panics : forall n cells k,
  length cells = n -> nth_error cells k = Some None ->
  run_outs (seq_copy n) outs_copy [VArr cells] = Panic msg_some_borrowed.
Proof.
  intros n cells k Hlen Hc. unfold run_outs, seq_copy. exec_panic clone_lent.
Qed.
Print Assumptions copy_of_array_with_lent_cell_panics.

(** unpacking `a1, .., al, *mid, b1, .., br = xs` (and without the star, where mid = []):
    for EVERY decomposition xs = left ++ mid ++ right the left patterns get [left], the right
    patterns get [right], both in index order, and the starred name gets the array [mid] *)
Theorem unpack_sees_elements_in_order : forall left mid right star,
  (star = false -> mid = []) ->
  run_outs (seq_unpack (length (left ++ mid ++ right)) (length left) (length right) star)
    (outs_unpack_left (length left)
     ++ (if star then [out_unpack_star (length left) (length right)] else [])
     ++ outs_unpack_right (length left) (length right))
    [VArr (map Some (left ++ mid ++ right))]
  = Ok (left ++ (if star then [VArr (map Some mid)] else []) ++ right).
Proof.
  intros left mid right star Hstar.
  rewrite <- (rev_involutive right). generalize (rev right) as pop. intros pop. rewrite rev_length.
  unfold run_outs. rewrite unpack_run by assumption. cbn [obind].
  apply lookups_ok. rewrite !map_app. apply f_equal2; [ | apply f_equal2 ].
  - apply regs_map_seq. intros j v Hj. apply unpacked_left, Hj.
  - destruct star; [ | reflexivity ]. cbn [map]. unfold out_unpack_star. rewrite unpacked_star. reflexivity.
  - unfold outs_unpack_right. rewrite !map_rev. apply f_equal, regs_map_seq. intros j v Hj.
    apply unpacked_right, Hj.
Qed.
Print Assumptions unpack_sees_elements_in_order.

Example unpack_example :
  run_outs (seq_unpack 5 2 1 true) (outs_unpack_left 2 ++ [out_unpack_star 2 1] ++ outs_unpack_right 2 1)
    [VArr (map Some [VInt 0; VInt 1; VInt 2; VInt 3; VInt 4])]
  = Ok [VInt 0; VInt 1; VArr [Some (VInt 2); Some (VInt 3)]; VInt 4]
  /\ run_outs (seq_unpack 3 3 0 false) (outs_unpack_left 3 ++ [] ++ outs_unpack_right 3 0)
    [VArr (map Some [VRes 7; VRes 8; VRes 9])] = Ok [VRes 7; VRes 8; VRes 9].
Proof. vm_compute. auto. Qed.

(** `for x in xs`: the GENERATED ArrayIter.__next__ (GenIter.v, from std/array.py), started by
    the generated __iter__, delivers cells 0..n-1 in index order and then stops, discarding the
    fully lent array *)
Theorem iteration_sees_elements_in_order : forall n vs,
  length vs = n -> Z.of_nat n < two63 -> for_loop_elements n (VArr (map Some vs)) = Ok vs.
Proof.
  intros n vs Hlen Hn. unfold for_loop_elements. subst n.
  exact (iterate_from vs [] (length vs) Hn eq_refl eq_refl).
Qed.
Print Assumptions iteration_sees_elements_in_order.

Theorem iteration_over_lent_cell_panics : forall n cells k,
  length cells = n -> Z.of_nat n < two63 -> (k < n)%nat -> nth_error cells k = Some None ->
  array_iter_next n (VArr cells) (Z.of_nat k) = Panic msg_already_borrowed.
Proof.
  intros n cells k Hlen Hn Hk Hc. rewrite iter_next_in by assumption. unfold call_getitem_linear.
  rewrite (lend_lent_cell_panics n cells (Z.of_nat k));
    [reflexivity | assumption | lia | lia | rewrite Nat2Z.id; assumption].
Qed.
Print Assumptions iteration_over_lent_cell_panics.

Example iteration_example :
  for_loop_elements 3 (VArr (map Some [VRes 4; VRes 5; VRes 6])) = Ok [VRes 4; VRes 5; VRes 6].
Proof. vm_compute. reflexivity. Qed.

(** array(e for ...) *)
Theorem comprehension_fills_cells_in_order : forall n es,
  length es = n -> Z.of_nat n < two63 -> comprehension n es = Ok (VArr (map Some es)).
Proof.
  intros n es Hlen Hn. unfold comprehension, seq_comp_init. exec eq_refl. exec eq_refl. cbn [run].
  subst n. exact (comp_drive_from es [] (length es) Hn eq_refl).
Qed.
Print Assumptions comprehension_fills_cells_in_order.

Theorem comprehension_over_array_keeps_order : forall n vs,
  length vs = n -> Z.of_nat n < two63 ->
  comprehension_over_array n (VArr (map Some vs)) = Ok (VArr (map Some vs)).
Proof.
  intros n vs Hlen Hn. unfold comprehension_over_array.
  rewrite iteration_sees_elements_in_order by assumption.
  apply comprehension_fills_cells_in_order; assumption.
Qed.
Print Assumptions comprehension_over_array_keeps_order.

Example comprehension_example :
  comprehension 3 [VInt 7; VInt 8; VInt 9] = Ok (VArr [Some (VInt 7); Some (VInt 8); Some (VInt 9)]).
Proof. vm_compute. reflexivity. Qed.

(** Nested subscripts `f(qs[i][j])` (arrays of arrays).  The emitted sequence evaluates each
    index expression once and every borrow / return of the outer array reads that one register. *)

Theorem lend_nested_touches_exactly_cell_ij : forall n m cells inner i j v,
  length cells = n -> Z.of_nat n <= two63 -> Z.of_nat m <= two63 ->
  0 <= i < Z.of_nat n -> 0 <= j < Z.of_nat m -> length inner = m ->
  nth_error cells (Z.to_nat i) = Some (Some (VArr inner)) ->
  nth_error inner (Z.to_nat j) = Some (Some v) ->
  exists cells', run_outs (seq_lend_nested_pre n m) outs_lend_nested_pre [VArr cells; VInt i; VInt j] = Ok [v; VArr cells']
                 /\ only_cell_ij_changed (Z.to_nat i) (Z.to_nat j) None cells cells'.
Proof.
  intros n m cells inner i j v Hlen Hn Hm Hi Hj Hlm Hci Hcj. eexists. split.
  - unfold run_outs, seq_lend_nested_pre.
    erewrite run_nested_pre by (eassumption || reflexivity). reflexivity.
  - eapply upd_only_cell_ij_changed; eassumption.
Qed.
Print Assumptions lend_nested_touches_exactly_cell_ij.

Theorem lend_nested_gives_back_to_cell_ij : forall n m cells inner i j w,
  length cells = n -> Z.of_nat n <= two63 -> Z.of_nat m <= two63 ->
  0 <= i < Z.of_nat n -> 0 <= j < Z.of_nat m -> length inner = m ->
  nth_error cells (Z.to_nat i) = Some (Some (VArr inner)) ->
  nth_error inner (Z.to_nat j) = Some None ->
  exists cells', run_outs (seq_lend_nested_post n m) outs_lend_nested_post [VArr cells; VInt i; VInt j; w] = Ok [VArr cells']
                 /\ only_cell_ij_changed (Z.to_nat i) (Z.to_nat j) (Some w) cells cells'.
Proof.
  intros n m cells inner i j w Hlen Hn Hm Hi Hj Hlm Hci Hcj. eexists. split.
  - unfold run_outs, seq_lend_nested_post.
    erewrite run_nested_post by (eassumption || reflexivity). reflexivity.
  - eapply upd_only_cell_ij_changed; eassumption.
Qed.
Print Assumptions lend_nested_gives_back_to_cell_ij.

(** the whole `g(qs[i][j])` *)
Theorem lend_nested_restores_array : forall n m cells inner i j,
  length cells = n -> Z.of_nat n <= two63 -> Z.of_nat m <= two63 ->
  forall g v, 0 <= i < Z.of_nat n -> 0 <= j < Z.of_nat m -> length inner = m ->
  nth_error cells (Z.to_nat i) = Some (Some (VArr inner)) ->
  nth_error inner (Z.to_nat j) = Some (Some v) ->
  run_outs (seq_lend_nested n m (OGate g)) outs_lend_nested [VArr cells; VInt i; VInt j] = Ok [VArr cells].
Proof.
  intros n m cells inner i j Hlen Hn Hm g v Hi Hj Hlm Hci Hcj.
  destruct (run_lend_nested_at n m cells inner i j [VArr cells; VInt i; VInt j] 0 1 2 3 (OGate g) v v)
    as [new [Hrun Hlast]]; try assumption; try reflexivity.
  unfold run_outs, seq_lend_nested. rewrite Hrun. cbn [obind lookups outs_lend_nested].
  change (nth_error (_ ++ new) 18) with (nth_error new 15). rewrite Hlast.
  rewrite (upd_id _ inner), upd_id by assumption. reflexivity.
Qed.
Print Assumptions lend_nested_restores_array.

Theorem lend_nested_outer_index_invalid_panics : forall n m cells i j,
  length cells = n -> Z.of_nat n <= two63 ->
  forall f, is_int64 i -> (i < 0 \/ Z.of_nat n <= i) ->
  run_outs (seq_lend_nested n m f) outs_lend_nested [VArr cells; VInt i; VInt j] = Panic msg_op_oob.
Proof.
  intros n m cells i j Hlen Hn f Hi Ho. unfold run_outs, seq_lend_nested, seq_lend_nested_at, seq_nested_pre. cbn [app].
  exec eq_refl. exec_panic borrow_out.
Qed.
Print Assumptions lend_nested_outer_index_invalid_panics.

Theorem lend_nested_inner_index_invalid_panics : forall n m cells inner i j,
  length cells = n -> Z.of_nat n <= two63 -> Z.of_nat m <= two63 ->
  forall f, 0 <= i < Z.of_nat n -> length inner = m ->
  nth_error cells (Z.to_nat i) = Some (Some (VArr inner)) ->
  is_int64 j -> (j < 0 \/ Z.of_nat m <= j) ->
  run_outs (seq_lend_nested n m f) outs_lend_nested [VArr cells; VInt i; VInt j] = Panic msg_op_oob.
Proof.
  intros n m cells inner i j Hlen Hn Hm f Hi Hlm Hci Hj Ho.
  unfold run_outs, seq_lend_nested, seq_lend_nested_at, seq_nested_pre. cbn [app].
  exec eq_refl. exec borrow_full. exec eq_refl. exec_panic borrow_out.
Qed.
Print Assumptions lend_nested_inner_index_invalid_panics.

(** `g(qs[bump(ctr)][c])` with an EFFECTFUL index expression: the oracle is consulted once (the
    counter goes from k to k+1) and the element it named is the one lent and given back *)
Theorem lend_nested_effectful_index_evaluated_once : forall n m cells inner i j,
  length cells = n -> Z.of_nat n <= two63 -> Z.of_nat m <= two63 ->
  forall g c k v, i = k -> j = c -> Z.of_nat n < two63 ->
  0 <= i < Z.of_nat n -> 0 <= j < Z.of_nat m -> length inner = m ->
  nth_error cells (Z.to_nat i) = Some (Some (VArr inner)) ->
  nth_error inner (Z.to_nat j) = Some (Some v) ->
  run_outs (seq_lend_nested_oracle n m (OGate g) c) outs_lend_nested_oracle [VArr cells; VArr [Some (VInt k)]]
  = Ok [VArr cells; VArr [Some (VInt (k + 1))]].
Proof.
  intros n m cells inner i j Hlen Hn Hm g c k v <- <- Hn' Hi Hj Hlm Hci Hcj.
  unfold run_outs, seq_lend_nested_oracle. cbn [app]. exec eq_refl. exec eq_refl.
  rewrite wrap_s_nonneg by lia.
  (* registers so far: 0 = array, 1 = counter, 2 = c, 3 = the index the oracle returned, 4 = counter + 1 *)
  destruct (run_lend_nested_at n m cells inner i j
              [VArr cells; VArr [Some (VInt i)]; VInt j; VInt i; VArr [Some (VInt (i + 1))]] 0 3 2 5 (OGate g) v v)
    as [new [Hrun Hlast]]; try assumption; try reflexivity.
  rewrite Hrun. cbn [obind lookups outs_lend_nested_oracle].
  change (nth_error (_ ++ new) 20) with (nth_error new 15). rewrite Hlast.
  rewrite (upd_id _ inner), upd_id by assumption. reflexivity.
Qed.
Print Assumptions lend_nested_effectful_index_evaluated_once.

Theorem read_nested_touches_exactly_cell_ij : forall n m cells inner i j,
  length cells = n -> Z.of_nat n <= two63 -> Z.of_nat m <= two63 ->
  forall v, 0 <= i < Z.of_nat n -> 0 <= j < Z.of_nat m -> length inner = m ->
  nth_error cells (Z.to_nat i) = Some (Some (VArr inner)) ->
  nth_error inner (Z.to_nat j) = Some (Some v) ->
  run_outs (seq_get_nested n m) outs_get_nested [VArr cells; VInt i; VInt j] = Ok [v; VArr cells].
Proof.
  intros n m cells inner i j Hlen Hn Hm v Hi Hj Hlm Hci Hcj. unfold run_outs, seq_get_nested.
  exec eq_refl. exec borrow_full. exec eq_refl. exec get_full. erewrite run_unwrap_some by reflexivity.
  exec eq_refl. exec return_empty. cbn.
  rewrite upd_upd, upd_id by assumption. reflexivity.
Qed.
Print Assumptions read_nested_touches_exactly_cell_ij.

Theorem read_nested_inner_index_invalid_panics : forall n m cells inner i j,
  length cells = n -> Z.of_nat n <= two63 -> Z.of_nat m <= two63 ->
  0 <= i < Z.of_nat n -> length inner = m ->
  nth_error cells (Z.to_nat i) = Some (Some (VArr inner)) ->
  is_int64 j -> (j < 0 \/ Z.of_nat m <= j) ->
  run_outs (seq_get_nested n m) outs_get_nested [VArr cells; VInt i; VInt j] = Panic msg_index_oob.
Proof.
  intros n m cells inner i j Hlen Hn Hm Hi Hlm Hci Hj Ho. unfold run_outs, seq_get_nested.
  exec eq_refl. exec borrow_full. exec eq_refl. exec get_out. erewrite run_unwrap_none by reflexivity.
  reflexivity.
Qed.
Print Assumptions read_nested_inner_index_invalid_panics.

Theorem write_nested_touches_exactly_cell_ij : forall n m cells inner i j v old,
  length cells = n -> Z.of_nat n <= two63 -> Z.of_nat m <= two63 ->
  0 <= i < Z.of_nat n -> 0 <= j < Z.of_nat m -> length inner = m ->
  nth_error cells (Z.to_nat i) = Some (Some (VArr inner)) ->
  nth_error inner (Z.to_nat j) = Some (Some old) ->
  exists cells', run_outs (seq_set_nested n m) outs_set_nested [VArr cells; VInt i; VInt j; v] = Ok [VArr cells']
                 /\ only_cell_ij_changed (Z.to_nat i) (Z.to_nat j) (Some v) cells cells'.
Proof.
  intros n m cells inner i j v old Hlen Hn Hm Hi Hj Hlm Hci Hcj. eexists. split.
  - unfold run_outs, seq_set_nested.
    exec eq_refl. exec borrow_full. exec eq_refl. exec set_full. erewrite run_unwrap_some by reflexivity.
    exec eq_refl. exec return_empty. cbn.
    rewrite upd_upd. reflexivity.
  - eapply upd_only_cell_ij_changed; eassumption.
Qed.
Print Assumptions write_nested_touches_exactly_cell_ij.

Example lend_nested_example :
  let row k := VArr [Some (VRes (10 * k)); Some (VRes (10 * k + 1))] in
  let qs := [Some (row 0); Some (row 1); Some (row 2)] in
  run_outs (seq_lend_nested 3 2 (OGate "H")) outs_lend_nested [VArr qs; VInt 2; VInt 1] = Ok [VArr qs]
  /\ run_outs (seq_lend_nested_oracle 3 2 (OGate "H") 1) outs_lend_nested_oracle [VArr qs; VArr [Some (VInt 1)]]
     = Ok [VArr qs; VArr [Some (VInt 2)]]
  /\ run_outs (seq_lend2_nested_oracle 3 2 "CX" 0 1) outs_lend2_nested_oracle [VArr qs; VArr [Some (VInt 0)]]
     = Ok [VArr qs; VArr [Some (VInt 2)]]
  /\ run_outs (seq_lend_nested 3 2 (OGate "H")) outs_lend_nested [VArr qs; VInt 3; VInt 1] = Panic msg_op_oob
  /\ run_outs (seq_lend_nested 3 2 (OGate "H")) outs_lend_nested [VArr qs; VInt 0; VInt (-1)] = Panic msg_op_oob.
Proof. vm_compute. auto 10. Qed.

(** PARTIAL.  Not proved here: (1) that the HUGR ops behave as Array.v part 1 says (trusted
    spec); (2) that the compiler emits the sequences of Array.v part 3 for ALL programs (tied by
    comparison on compiled sample programs each run); (3) the loop protocol that calls __next__
    until Nothing (modelled by [iterate] / [comp_drive]); (4) n >= 2^63. *)
