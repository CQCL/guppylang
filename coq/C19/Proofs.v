(** C19 — lemmas about the abstract borrow-array machine of Array.v: what each op does on a
    cell, and how a sequence is run one instruction at a time. *)
From Coq Require Import String ZArith List Bool Lia ZifyBool.
From V.C19 Require Import Array.
Import ListNotations.
Open Scope Z_scope.

Lemma two64_eq : two64 = 2 * two63. Proof. reflexivity. Qed.
Lemma two63_pos : 0 < two63. Proof. reflexivity. Qed.

Lemma mod64_nonneg : forall i, 0 <= i < two63 -> i mod two64 = i.
Proof. intros i H. apply Z.mod_small. pose proof two64_eq. lia. Qed.

Lemma mod64_neg : forall i, - two63 <= i < 0 -> i mod two64 = i + two64.
Proof.
  intros i H. pose proof two64_eq. rewrite <- (Z_mod_plus_full i 1). apply Z.mod_small. lia.
Qed.

Lemma uidx_in : forall n i, Z.of_nat n <= two63 -> 0 <= i < Z.of_nat n ->
  uidx n (i mod two64) = Some (Z.to_nat i).
Proof.
  intros n i Hn Hi. rewrite mod64_nonneg by lia. unfold uidx.
  destruct (_ && _) eqn:E; [reflexivity | lia].
Qed.

Lemma uidx_out : forall n i, Z.of_nat n <= two63 -> is_int64 i -> (i < 0 \/ Z.of_nat n <= i) ->
  uidx n (i mod two64) = None.
Proof.
  intros n i Hn [Hlo Hhi] Hout. pose proof two64_eq. unfold uidx.
  destruct (Z_lt_dec i 0).
  - rewrite mod64_neg by lia. destruct (_ && _) eqn:E; [lia | reflexivity].
  - rewrite mod64_nonneg by lia. destruct (_ && _) eqn:E; [lia | reflexivity].
Qed.

Lemma wrap_s_small : forall z, is_int64 z -> wrap_s z = z.
Proof.
  intros z [Hlo Hhi]. unfold wrap_s. pose proof two64_eq.
  rewrite Z.mod_small by lia. lia.
Qed.

Lemma wrap_s_nonneg : forall z, 0 <= z < two63 -> wrap_s z = z.
Proof. intros z H. apply wrap_s_small. unfold is_int64. pose proof two63_pos. lia. Qed.

Lemma upd_length : forall A (l : list A) k x, length (upd l k x) = length l.
Proof. induction l; destruct k; simpl; intros; auto. Qed.

Lemma upd_same : forall A (l : list A) k x y, nth_error l k = Some y -> nth_error (upd l k x) k = Some x.
Proof. induction l; destruct k; simpl; intros; try discriminate; eauto. Qed.

Lemma upd_other : forall A (l : list A) k j x, j <> k -> nth_error (upd l k x) j = nth_error l j.
Proof.
  induction l; destruct k; destruct j; simpl; intros; try congruence; auto.
Qed.

Lemma upd_id : forall A (l : list A) k x, nth_error l k = Some x -> upd l k x = l.
Proof.
  induction l; destruct k; simpl; intros; try congruence.
  f_equal. auto.
Qed.

Lemma upd_upd : forall A (l : list A) k x y, upd (upd l k x) k y = upd l k y.
Proof. induction l; destruct k; simpl; intros; auto. f_equal. auto. Qed.

Lemma upd_app_r : forall A (a b : list A) x y, upd (a ++ x :: b) (length a) y = a ++ y :: b.
Proof. induction a; simpl; intros; auto. f_equal. auto. Qed.

Lemma upd_comm : forall A (l : list A) j k x y, j <> k -> upd (upd l j x) k y = upd (upd l k y) j x.
Proof. induction l; destruct j; destruct k; simpl; intros; try congruence. f_equal. auto. Qed.

Lemma all_some_map : forall A (vs : list A), all_some (map Some vs) = Some vs.
Proof. induction vs; simpl; auto. rewrite IHvs. reflexivity. Qed.

Lemma all_some_inv : forall A (l : list (option A)) vs, all_some l = Some vs -> l = map Some vs.
Proof.
  induction l as [|[x|] l IH]; simpl; intros vs H.
  - inversion H. reflexivity.
  - destruct (all_some l) eqn:E; inversion H. simpl. f_equal. auto.
  - discriminate.
Qed.

Lemma all_some_none : forall A (l : list (option A)) k, nth_error l k = Some None -> all_some l = None.
Proof.
  induction l as [|[x|] l IH]; destruct k; simpl; intros H; try discriminate; auto.
  rewrite (IH _ H). reflexivity.
Qed.

Lemma len_ok_refl : forall cells, len_ok (length cells) cells = true.
Proof. intros. unfold len_ok. apply Nat.eqb_refl. Qed.

Definition only_cell_changed (k : nat) (x : option val) (a b : list (option val)) : Prop :=
  length b = length a /\ nth_error b k = Some x /\ forall j, j <> k -> nth_error b j = nth_error a j.

Lemma upd_only_cell_changed : forall l k x y, nth_error l k = Some y -> only_cell_changed k x l (upd l k x).
Proof.
  intros l k x y H. split; [apply upd_length | split; [eapply upd_same, H | intros; apply upd_other; assumption]].
Qed.

(** what is asked about an array that earlier ops have written to *)
Lemma upd_length_eq : forall A (l : list A) k x n, length l = n -> length (upd l k x) = n.
Proof. intros. rewrite upd_length. assumption. Qed.
Create HintDb cells.
#[export] Hint Resolve upd_length_eq upd_same : cells.
#[export] Hint Extern 2 (nth_error (upd _ _ _) _ = _) => rewrite upd_other by assumption : cells.

Section Cell.
  Context {n : nat} {cells : list (option val)} {i : Z}.
  Hypothesis Hlen : length cells = n.
  Hypothesis Hn : Z.of_nat n <= two63.

  Lemma with_cell_in : forall oob full empty, 0 <= i < Z.of_nat n ->
    with_cell n cells (i mod two64) oob full empty =
    match nth_error cells (Z.to_nat i) with
    | Some (Some v) => full (Z.to_nat i) v
    | Some None => empty (Z.to_nat i)
    | None => Stuck "cell"%string
    end.
  Proof.
    intros. unfold with_cell. subst n. rewrite len_ok_refl. rewrite uidx_in by assumption. reflexivity.
  Qed.

  Lemma with_cell_out : forall oob full empty, is_int64 i -> (i < 0 \/ Z.of_nat n <= i) ->
    with_cell n cells (i mod two64) oob full empty = oob.
  Proof.
    intros. unfold with_cell. subst n. rewrite len_ok_refl. rewrite uidx_out by assumption. reflexivity.
  Qed.

  Section In.
    Hypothesis Hi : 0 <= i < Z.of_nat n.

    Lemma get_full : forall v, nth_error cells (Z.to_nat i) = Some (Some v) ->
      op_sem (OGet n) [VArr cells; VUsize (i mod two64)] = Ok [vsome [v]; VArr cells].
    Proof. intros v H. cbn. rewrite with_cell_in, H by assumption. reflexivity. Qed.

    Lemma get_empty : nth_error cells (Z.to_nat i) = Some None ->
      op_sem (OGet n) [VArr cells; VUsize (i mod two64)] = Panic msg_already_borrowed.
    Proof. intros H. cbn. rewrite with_cell_in, H by assumption. reflexivity. Qed.

    Lemma set_full : forall v old, nth_error cells (Z.to_nat i) = Some (Some old) ->
      op_sem (OSet n) [VArr cells; VUsize (i mod two64); v] = Ok [VSum 1 [old; VArr (upd cells (Z.to_nat i) (Some v))]].
    Proof. intros v old H. cbn. rewrite with_cell_in, H by assumption. reflexivity. Qed.

    Lemma borrow_full : forall v, nth_error cells (Z.to_nat i) = Some (Some v) ->
      op_sem (OBorrow n) [VArr cells; VUsize (i mod two64)] = Ok [VArr (upd cells (Z.to_nat i) None); v].
    Proof. intros v H. cbn. rewrite with_cell_in, H by assumption. reflexivity. Qed.

    Lemma borrow_empty : nth_error cells (Z.to_nat i) = Some None ->
      op_sem (OBorrow n) [VArr cells; VUsize (i mod two64)] = Panic msg_already_borrowed.
    Proof. intros H. cbn. rewrite with_cell_in, H by assumption. reflexivity. Qed.

    Lemma return_empty : forall v, nth_error cells (Z.to_nat i) = Some None ->
      op_sem (OReturn n) [VArr cells; VUsize (i mod two64); v] = Ok [VArr (upd cells (Z.to_nat i) (Some v))].
    Proof. intros v H. cbn. rewrite with_cell_in, H by assumption. reflexivity. Qed.

    Lemma return_full : forall v w, nth_error cells (Z.to_nat i) = Some (Some w) ->
      op_sem (OReturn n) [VArr cells; VUsize (i mod two64); v] = Panic msg_not_borrowed.
    Proof. intros v w H. cbn. rewrite with_cell_in, H by assumption. reflexivity. Qed.
  End In.

  Section Out.
    Hypothesis Hi : is_int64 i.
    Hypothesis Ho : i < 0 \/ Z.of_nat n <= i.

    Lemma get_out : op_sem (OGet n) [VArr cells; VUsize (i mod two64)] = Ok [vnone; VArr cells].
    Proof. cbn. apply with_cell_out; assumption. Qed.

    Lemma set_out : forall v, op_sem (OSet n) [VArr cells; VUsize (i mod two64); v] = Ok [VSum 0 [v; VArr cells]].
    Proof. intros. cbn. apply with_cell_out; assumption. Qed.

    Lemma borrow_out : op_sem (OBorrow n) [VArr cells; VUsize (i mod two64)] = Panic msg_op_oob.
    Proof. cbn. apply with_cell_out; assumption. Qed.

    Lemma return_out : forall v, op_sem (OReturn n) [VArr cells; VUsize (i mod two64); v] = Panic msg_op_oob.
    Proof. intros. cbn. apply with_cell_out; assumption. Qed.
  End Out.
End Cell.

Lemma run_op : forall op ins p fr args outs,
  lookups fr ins = Ok args -> op_sem op args = Ok outs -> run (IOp op ins :: p) fr = run p (fr ++ outs).
Proof. intros op ins p fr args outs Hl Ho. cbn [run exec_instr]. rewrite Hl. cbn [obind]. rewrite Ho. reflexivity. Qed.

Lemma run_op_panic : forall op ins p fr args msg,
  lookups fr ins = Ok args -> op_sem op args = Panic msg -> run (IOp op ins :: p) fr = Panic msg.
Proof. intros op ins p fr args msg Hl Ho. cbn [run exec_instr]. rewrite Hl. cbn [obind]. rewrite Ho. reflexivity. Qed.

Lemma run_app : forall p q fr, run (p ++ q) fr = obind (run p fr) (run q).
Proof.
  induction p as [|i p IH]; intros q fr; simpl; [reflexivity|].
  destruct (exec_instr i fr); simpl; auto.
Qed.

Lemma reg_old : forall A (fr l : list A) r v, nth_error fr r = Some v -> nth_error (fr ++ l) r = Some v.
Proof. intros A fr l r v H. rewrite nth_error_app1; [assumption | apply nth_error_Some; congruence]. Qed.

Lemma reg_new : forall A (fr l : list A) k v, nth_error l k = Some v -> nth_error (fr ++ l) (length fr + k) = Some v.
Proof. intros A fr l k v H. rewrite nth_error_app2, Nat.add_comm, Nat.add_sub by lia. assumption. Qed.

Lemma reg_new0 : forall A (fr l : list A) v, nth_error (fr ++ v :: l) (length fr) = Some v.
Proof. intros. rewrite <- (Nat.add_0_r (length fr)). apply reg_new. reflexivity. Qed.

Lemma lookups_cons : forall fr r rs v vs,
  nth_error fr r = Some v -> lookups fr rs = Ok vs -> lookups fr (r :: rs) = Ok (v :: vs).
Proof. intros fr r rs v vs H1 H2. cbn [lookups]. rewrite H1, H2. reflexivity. Qed.

Lemma lookups_nil : forall fr, lookups fr [] = Ok [].
Proof. reflexivity. Qed.

Create HintDb regs.
#[export] Hint Resolve lookups_nil lookups_cons reg_old reg_new reg_new0 : regs.
#[export] Hint Extern 1 (nth_error (_ :: _) _ = _) => reflexivity : regs.
(* an operand is found in the frame as it was ([reg_old]) or among the values appended last,
   which are numbered from [length fr] ([reg_new], [reg_new0]) *)
Ltac regs := solve [reflexivity | eauto 8 with regs].

(** [exec lem]: run the next instruction; its operands are read off the frame and [lem] says
    what its op does with them ([eq_refl] where [op_sem] computes: conversions, constants, gates;
    side conditions about written-to arrays by [cells]). *)
Tactic Notation "exec" uconstr(lem) :=
  erewrite run_op; [ | regs | eapply lem; eauto with cells ]; rewrite <- ?app_assoc; cbn [app].
Tactic Notation "exec_panic" uconstr(lem) :=
  erewrite run_op_panic; [ reflexivity | regs | eapply lem; eauto with cells ].

(** [lookups] is [map (nth_error fr)] where every register is defined, so what [map] does on
    [++] and [rev] need not be proved again for it *)
Lemma lookups_ok : forall fr rs vs, map (nth_error fr) rs = map Some vs -> lookups fr rs = Ok vs.
Proof.
  induction rs as [|r rs IH]; intros [|v vs] H; try discriminate; [reflexivity|].
  injection H as Hr Hrs. cbn [lookups]. rewrite Hr, (IH _ Hrs). reflexivity.
Qed.

Lemma regs_map_seq : forall (fr : list val) (f : nat -> nat) vs s,
  (forall j v, nth_error vs j = Some v -> nth_error fr (f (s + j)%nat) = Some v) ->
  map (nth_error fr) (map f (seq s (length vs))) = map Some vs.
Proof.
  intros fr f vs. induction vs as [|x vs IH]; intros s H; cbn [length seq map]; [reflexivity|].
  rewrite <- (Nat.add_0_r s) at 1. rewrite (H O x eq_refl), IH; [reflexivity|].
  intros j v Hj. rewrite Nat.add_succ_comm. apply H. exact Hj.
Qed.

Lemma lookups_seq : forall vs post, lookups (vs ++ post) (seq 0 (length vs)) = Ok vs.
Proof.
  intros vs post. rewrite <- (map_id (seq _ _)). apply lookups_ok, regs_map_seq.
  intros j v H. apply reg_old, H.
Qed.

Lemma run_unwrap_some : forall s msg nfail k p fr vs,
  nth_error fr s = Some (VSum 1 vs) -> length vs = k -> run (unwrap s msg nfail k :: p) fr = run p (fr ++ vs).
Proof.
  intros s msg nfail k p fr vs H <-. cbn [run]. unfold unwrap. cbn [exec_instr]. rewrite H.
  cbn [lookups obind fst snd]. rewrite lookups_seq. reflexivity.
Qed.

Lemma run_unwrap_none : forall s msg nfail k p fr vs,
  nth_error fr s = Some (VSum 0 vs) -> length vs = nfail -> run (unwrap s msg nfail k :: p) fr = Panic msg.
Proof.
  intros s msg nfail k p fr vs H <-. cbn [run]. unfold unwrap. cbn [exec_instr]. rewrite H.
  cbn [lookups obind fst snd]. rewrite app_nil_r. cbn [exec_instr lookups obind op_sem].
  rewrite reg_new0, lookups_seq. reflexivity.
Qed.

Lemma read_lent_l : forall n cells i,
  length cells = n -> Z.of_nat n <= two63 -> 0 <= i < Z.of_nat n ->
  nth_error cells (Z.to_nat i) = Some None ->
  run_outs (seq_get_classical n) outs_get_classical [VArr cells; VInt i] = Panic msg_already_borrowed.
Proof.
  intros n cells i Hlen Hn Hi Hc. unfold run_outs, seq_get_classical.
  exec eq_refl. exec_panic get_empty.
Qed.

Lemma get_linear_full : forall n cells i v,
  length cells = n -> Z.of_nat n <= two63 -> 0 <= i < Z.of_nat n ->
  nth_error cells (Z.to_nat i) = Some (Some v) ->
  run_outs (seq_get_linear n) outs_get_linear [VArr cells; VInt i]
  = Ok [v; VArr (upd cells (Z.to_nat i) None)].
Proof.
  intros n cells i v Hlen Hn Hi Hc. unfold run_outs, seq_get_linear.
  exec eq_refl. exec borrow_full. reflexivity.
Qed.

Lemma use1_lent_l : forall n g cells i,
  length cells = n -> Z.of_nat n <= two63 -> 0 <= i < Z.of_nat n ->
  nth_error cells (Z.to_nat i) = Some None ->
  run_outs (seq_use1 n g) outs_use1 [VArr cells; VInt i] = Panic msg_already_borrowed.
Proof.
  intros n g cells i Hlen Hn Hi Hc. unfold run_outs, seq_use1.
  exec eq_refl. exec_panic borrow_empty.
Qed.

Lemma clone_full : forall n vs, length vs = n ->
  op_sem (OClone n) [VArr (map Some vs)] = Ok [VArr (map Some vs); VArr (map Some vs)].
Proof. intros n vs <-. cbn. unfold len_ok. rewrite map_length, Nat.eqb_refl, all_some_map. reflexivity. Qed.

Lemma clone_lent : forall n cells k, length cells = n -> nth_error cells k = Some None ->
  op_sem (OClone n) [VArr cells] = Panic msg_some_borrowed.
Proof. intros n cells k <- H. cbn. rewrite len_ok_refl, (all_some_none _ _ _ H). reflexivity. Qed.

(** pop_right pops from the left of the reversed array and hands the rest back reversed, so what one
    direction does to the cells is [back]: the identity from the left, [rev] from the right. *)
Definition back (d : bool) (l : list val) : list val := if d then l else rev l.

Lemma pop_some : forall (d : bool) e (l : list val),
  op_sem (if d then OPopLeft (S (length l)) else OPopRight (S (length l))) [VArr (map Some (back d (e :: l)))]
  = Ok [vsome [e; VArr (map Some (back d l))]].
Proof.
  intros d e l. unfold op_sem, sem_pop, len_ok. destruct d; cbn [back].
  - cbn [map length]. rewrite map_length, Nat.eqb_refl. reflexivity.
  - rewrite map_length, rev_length. cbn [length]. rewrite Nat.eqb_refl, <- map_rev, rev_involutive.
    cbn [map pop_result]. rewrite map_rev. reflexivity.
Qed.

(** What the pops [todo] append to a frame that ends in the array they start from, the array
    left over excepted: per pop the array it reads, its Option and its element (registers 3j,
    3j+1, 3j+2 from where the pops begin). *)
Fixpoint popped (d : bool) (todo rest : list val) : list val :=
  match todo with
  | [] => []
  | e :: p => VArr (map Some (back d (todo ++ rest))) :: vsome [e; VArr (map Some (back d (p ++ rest)))] :: e
              :: popped d p rest
  end.

Lemma popped_length : forall d todo rest, length (popped d todo rest) = (3 * length todo)%nat.
Proof. induction todo as [|e p IH]; intros rest; cbn [popped length]; [reflexivity | rewrite IH; lia]. Qed.

Lemma popped_elem : forall d todo rest post j v,
  nth_error todo j = Some v -> nth_error (popped d todo rest ++ post) (3 * j + 2) = Some v.
Proof.
  induction todo as [|e p IH]; intros rest post [|j] v H; try discriminate.
  - exact H.
  - replace (3 * S j + 2)%nat with (S (S (S (3 * j + 2)))) by lia. apply IH, H.
Qed.

Lemma pops_run : forall d todo rest fr base, length fr = base ->
  run (seq_pops d (length (todo ++ rest)) (length todo) base) (fr ++ [VArr (map Some (back d (todo ++ rest)))])
  = Ok (fr ++ popped d todo rest ++ [VArr (map Some (back d rest))]).
Proof.
  intros d. induction todo as [|e p IH]; intros rest fr base <-; [reflexivity|].
  cbn [app length seq_pops popped Nat.pred].
  erewrite run_op; [ | cbn [lookups]; rewrite reg_new0; reflexivity | apply pop_some ].
  erewrite run_unwrap_some; [ | rewrite <- app_assoc, <- Nat.add_1_r; apply reg_new; reflexivity | reflexivity ].
  (* the frame ends in the array left over: the remaining pops start from it *)
  specialize (IH rest (fr ++ [VArr (map Some (back d (e :: p ++ rest))); vsome [e; VArr (map Some (back d (p ++ rest)))]; e])
                 (3 + length fr)%nat).
  rewrite <- !app_assoc in *. apply IH. rewrite app_length, Nat.add_comm. reflexivity.
Qed.

(** The frame after `a.., *m, b.. = left ++ mid ++ rev pop`, where [pop] is what the right patterns
    get in the order it is popped: the pops from the left, those from the right, the array left
    over. *)
Definition unpacked (left mid pop : list val) : list val :=
  popped true left (mid ++ rev pop) ++ popped false pop (rev mid) ++ [VArr (map Some mid)].

Lemma unpacked_left : forall left mid pop j v,
  nth_error left j = Some v -> nth_error (unpacked left mid pop) (3 * j + 2) = Some v.
Proof. intros left mid pop j v H. apply popped_elem, H. Qed.

Lemma unpacked_right : forall left mid pop j v,
  nth_error pop j = Some v -> nth_error (unpacked left mid pop) (3 * (length left + j) + 2) = Some v.
Proof.
  intros left mid pop j v H. unfold unpacked.
  replace (3 * (length left + j) + 2)%nat with (length (popped true left (mid ++ rev pop)) + (3 * j + 2))%nat
    by (rewrite popped_length; lia).
  apply reg_new, popped_elem, H.
Qed.

Lemma unpacked_star : forall left mid pop,
  nth_error (unpacked left mid pop) (3 * (length left + length pop)) = Some (VArr (map Some mid)).
Proof.
  intros. unfold unpacked. rewrite app_assoc.
  replace (3 * (length left + length pop))%nat
    with (length (popped true left (mid ++ rev pop) ++ popped false pop (rev mid)))
    by (rewrite app_length, !popped_length; lia).
  apply reg_new0.
Qed.

Lemma unpack_run : forall left mid pop star,
  (star = false -> mid = []) ->
  run (seq_unpack (length (left ++ mid ++ rev pop)) (length left) (length pop) star)
    [VArr (map Some (left ++ mid ++ rev pop))]
  = Ok (unpacked left mid pop).
Proof.
  intros left mid pop star Hstar. unfold seq_unpack.
  pose proof (pops_run true left (mid ++ rev pop) [] 0 eq_refl) as Hl. cbn [back app] in Hl.
  (* from the right, what is left of the cells is [pop ++ rev mid] read backwards *)
  pose proof (pops_run false pop (rev mid) _ _ (popped_length true left (mid ++ rev pop))) as Hr.
  cbn [back] in Hr. rewrite rev_app_distr, !rev_involutive in Hr.
  replace (length (left ++ mid ++ rev pop) - length left)%nat
    with (length (pop ++ rev mid)) by (rewrite !app_length, !rev_length; lia).
  rewrite run_app, Hl. cbn [obind]. rewrite run_app, Hr. cbn [obind]. fold (unpacked left mid pop).
  destruct star; [reflexivity | rewrite (Hstar eq_refl)].
  erewrite run_op; [ | cbn [lookups]; rewrite unpacked_star; reflexivity | reflexivity ].
  rewrite app_nil_r. reflexivity.
Qed.
