(** C28 — induction over histories.  Configurations and their derivation chains are two lists
    that grow in step; the invariant relates them position by position.  Under it a world
    shows of a configuration what its chain tells ([told]), and a history only ever appends
    to the list of chains: that is both reproducibility and the purity of derivation. *)
From Coq Require Import List.
From V.C28 Require Import ModelBase GenEmu ModelHist ProofsStep GenBuilder ModelBuilder.
Import ListNotations.
Local Open Scope nat_scope.

Definition prefix {A} (l l' : list A) : Prop := exists t, l' = l ++ t.

Lemma prefix_refl : forall A (l : list A), prefix l l.
Proof. intros. exists []. symmetry. apply app_nil_r. Qed.

Lemma prefix_app : forall A (l t : list A), prefix l (l ++ t).
Proof. intros. exists t. reflexivity. Qed.

Lemma prefix_trans : forall A (a b c : list A), prefix a b -> prefix b c -> prefix a c.
Proof. intros A a b c [t ->] [u ->]. exists (t ++ u). symmetry. apply app_assoc. Qed.

Lemma prefix_nth_error : forall A (l l' : list A) i x,
  prefix l l' -> nth_error l i = Some x -> nth_error l' i = Some x.
Proof.
  intros A l l' i x [t ->] H. rewrite nth_error_app1; [ exact H | ].
  apply nth_error_Some. congruence.
Qed.

Lemma Forall2_impl : forall A B (P Q : A -> B -> Prop) l1 l2,
  (forall a b, P a b -> Q a b) -> Forall2 P l1 l2 -> Forall2 Q l1 l2.
Proof. induction 2; constructor; auto. Qed.

Lemma Forall2_nth_error : forall A B (P : A -> B -> Prop) l1 l2, Forall2 P l1 l2 ->
  forall i, match nth_error l1 i, nth_error l2 i with
            | Some a, Some b => P a b
            | None, None => True
            | _, _ => False
            end.
Proof. induction 1; intros [ | i]; simpl; auto. apply IHForall2. Qed.

Definition told {CH O} (tell : CH -> option O) (chain : list CH) (i : nat) : option O :=
  match nth_error chain i with Some ch => tell ch | None => None end.

Lemma told_prefix : forall CH O (tell : CH -> option O) chain chain' i o,
  prefix chain chain' -> told tell chain i = Some o -> told tell chain' i = Some o.
Proof.
  unfold told. intros CH O tell chain chain' i o E H.
  destruct (nth_error chain i) as [ch | ] eqn:N; [ | discriminate ].
  rewrite (prefix_nth_error _ _ _ _ _ E N). exact H.
Qed.

Lemma fold_left_inv : forall W O A (f : W -> O -> W) (I : W -> Prop) (g : W -> list A),
  (forall w o, I w -> I (f w o) /\ prefix (g w) (g (f w o))) ->
  forall ops w, I w -> I (fold_left f ops w) /\ prefix (g w) (g (fold_left f ops w)).
Proof.
  intros W O A f I g S. induction ops as [ | o ops IH ]; intros w H; simpl.
  - split; [ exact H | apply prefix_refl ].
  - destruct (S w o H) as [H1 R1]. destruct (IH _ H1) as [H2 R2]. eauto using prefix_trans.
Qed.

(* the invariant at one position: c's references lie in h, and chain ch replayed alone ends in
   a configuration with the same content as c has in h *)
Definition good (h : heap) (c : inst) (ch : list vop) : Prop :=
  wf h c /\
  exists st, replay ch = Some st /\ wf (fst st) (snd st) /\ content (fst st) (snd st) = content h c.

Lemma good_frame : forall h h' c ch, frame h h' -> good h c ch -> good h' c ch.
Proof.
  intros h h' c ch F [W (st & R & W1 & C)]. split; [ eapply refs_frame; eauto | ].
  exists st. rewrite (content_frame h h' c W F). auto.
Qed.

Lemma good_root : forall h i n, good (fst (mk_root h i n)) (snd (mk_root h i n)) [VNew i n].
Proof.
  intros. split; [ apply mk_root_ok | ]. exists (mk_root [] i n).
  split; [ reflexivity | ]. split; [ apply mk_root_ok | apply mk_root_content ].
Qed.

Lemma good_step : forall h c ch m ra ao,
  good h c ch -> (meth_uses_ref m = true -> ra < length h /\ ao = hget h ra) ->
  good (fst (step m ra h c)) (snd (step m ra h c)) (ch ++ [VStep m ao]).
Proof.
  intros h c ch m ra ao [W ([h1 c1] & R & W1 & C)] A. cbn [fst snd] in *.
  split; [ apply step_frame; [ exact W | intro U; apply A, U ] | ].
  assert (F : frame h1 (halloc_h h1 ao)) by apply frame_alloc, frame_refl.
  assert (Wa : wf (halloc_h h1 ao) c1) by (eapply refs_frame; eauto).
  exists (step m (halloc_r h1) (halloc_h h1 ao) c1). split; [ | split ].
  - unfold replay. rewrite fold_left_app. fold (replay ch). rewrite R. reflexivity.
  - apply step_frame; [ exact Wa | intro; apply new_lt ].
  - apply step_sim; auto.
    + rewrite (content_frame _ _ _ W1 F). exact C.
    + intro U. destruct (A U) as [B ->]. rewrite hget_alloc_new.
      split; [ apply new_lt | split; [ exact B | reflexivity ] ].
Qed.

Lemma good_obs : forall h c ch, good h c ch -> chain_obs ch = Some (run_args h c).
Proof.
  intros h c ch [_ (st & R & _ & C)]. unfold chain_obs. rewrite R. simpl.
  f_equal. apply run_args_content, C.
Qed.

Record inv (w : world) : Prop := mkInv {
  inv_cfg : Forall2 (good (w_heap w)) (w_env w) (w_chain w);
  inv_user : Forall (fun r => r < length (w_heap w)) (w_user w);
  inv_log : forall i o, In (i, o) (w_log w) -> told chain_obs (w_chain w) i = Some o
}.

Lemma inv_w0 : inv w0.
Proof. constructor; simpl; auto. intros i o []. Qed.

Lemma observe_chain : forall w i, inv w -> observe w i = told chain_obs (w_chain w) i.
Proof.
  intros w i I. pose proof (Forall2_nth_error _ _ _ _ _ (inv_cfg w I) i) as G. unfold observe, told.
  destruct (nth_error (w_env w) i) as [c | ], (nth_error (w_chain w) i) as [ch | ]; try contradiction; [ | reflexivity ].
  symmetry. apply good_obs, G.
Qed.

Lemma cfg_frame : forall h h' env chain,
  frame h h' -> Forall2 (good h) env chain -> Forall2 (good h') env chain.
Proof. intros h h' env chain F. apply Forall2_impl. intros c ch. apply good_frame, F. Qed.

Lemma inv_add : forall w h' c ch,
  inv w -> frame (w_heap w) h' -> good h' c ch ->
  let w' := mkW h' (w_env w ++ [c]) (w_user w) (w_log w) (w_chain w ++ [ch]) in
  inv w' /\ prefix (w_chain w) (w_chain w').
Proof.
  intros w h' c ch [IC IU IL] F G w'. split; [ constructor; simpl | apply prefix_app ].
  - apply Forall2_app; [ eapply cfg_frame; eauto | auto ].
  - eapply refs_frame; eauto.
  - intros i o H. eapply told_prefix; [ apply prefix_app | apply IL, H ].
Qed.

Lemma resolve_arg_bound : forall w a r, inv w -> resolve_arg w a = Some r -> r < length (w_heap w).
Proof.
  intros w a r I H. destruct a as [ | k | cfg j ]; simpl in H.
  - discriminate.
  - pose proof (inv_user w I) as U. rewrite Forall_forall in U. eapply U, nth_error_In, H.
  - pose proof (Forall2_nth_error _ _ _ _ _ (inv_cfg w I) cfg) as G.
    destruct (nth_error (w_env w) cfg) as [c | ]; [ | discriminate ].
    destruct (nth_error (w_chain w) cfg); [ destruct G as [W _] | contradiction ].
    unfold wf in W. rewrite Forall_forall in W. eapply W, nth_error_In, H.
Qed.

Lemma exec_op_inv : forall w o, inv w -> inv (exec_op w o) /\ prefix (w_chain w) (w_chain (exec_op w o)).
Proof.
  intros w o I. pose proof (prefix_refl _ (w_chain w)) as X.
  destruct o as [ob | i n | src m a | src]; cbn [exec_op].
  - assert (F : frame (w_heap w) (halloc_h (w_heap w) ob)) by apply frame_alloc, frame_refl.
    destruct I as [IC IU IL]. split; [ constructor; simpl | exact X ].
    + eapply cfg_frame; eauto.
    + apply Forall_app. split; [ eapply refs_frame; eauto | ].
      apply Forall_cons; [ apply new_lt | apply Forall_nil ].
    + exact IL.
  - apply inv_add; [ exact I | apply mk_root_ok | apply good_root ].
  - pose proof (Forall2_nth_error _ _ _ _ _ (inv_cfg w I) src) as G.
    destruct (nth_error (w_env w) src) as [c | ]; [ | auto ].
    destruct (nth_error (w_chain w) src) as [ch | ]; [ | auto ].
    destruct (meth_uses_ref m) eqn:U; [ destruct (resolve_arg w a) as [ra | ] eqn:Ra; [ | auto ] | ].
    all: apply inv_add; [ exact I | apply step_frame; [ apply G | rewrite U; intro ] | apply good_step; [ exact G | rewrite U; intro ] ].
    all: eauto using resolve_arg_bound; discriminate.
  - (* the entry logged is what the configuration shows now *)
    pose proof (observe_chain w src I) as O. unfold observe in O.
    destruct (nth_error (w_env w) src) as [c | ]; [ | auto ].
    split; [ | exact X ]. destruct I as [IC IU IL]. constructor; simpl; auto.
    intros i o H. apply in_app_or in H.
    destruct H as [H | [[= <- <-] | []]]; [ apply IL, H | symmetry; exact O ].
Qed.

Lemma exec_inv : forall ops w, inv w -> inv (exec ops w) /\ prefix (w_chain w) (w_chain (exec ops w)).
Proof.
  apply (fold_left_inv _ _ _ _ inv w_chain), exec_op_inv.
Qed.

(* a builder holds only values, so it IS the replay of its chain *)
Definition breplay (ch : list bmeth) : bcfg := fold_left (fun b m => bstep m b) ch b_default.
Definition binv (w : bworld) : Prop := bw_env w = map breplay (bw_chain w).

Lemma binv_bw0 : binv bw0.
Proof. reflexivity. Qed.

Lemma bexec_op_inv : forall w o, binv w -> binv (bexec_op w o) /\ prefix (bw_chain w) (bw_chain (bexec_op w o)).
Proof.
  unfold binv. intros w o I. pose proof (prefix_refl _ (bw_chain w)) as X.
  destruct o as [ | src m | src p ]; cbn [bexec_op].
  - split; [ | apply prefix_app ]. simpl. rewrite map_app, I. reflexivity.
  - pose proof (nth_error_map breplay src (bw_chain w)) as G. rewrite <- I in G. rewrite G.
    destruct (nth_error (bw_chain w) src) as [ch | ]; cbn [option_map]; [ | auto ].
    split; [ | apply prefix_app ]. simpl. rewrite map_app, I. cbn [map]. unfold breplay. rewrite fold_left_app. reflexivity.
  - destruct (nth_error (bw_env w) src); auto.
Qed.

Lemma bexec_inv : forall ops w, binv w -> binv (bexec ops w) /\ prefix (bw_chain w) (bw_chain (bexec ops w)).
Proof.
  apply (fold_left_inv _ _ _ _ binv bw_chain), bexec_op_inv.
Qed.

Lemma bobserve_chain : forall w i p, binv w ->
  bobserve w i p = told (fun ch => Some (bchain_obs ch p)) (bw_chain w) i.
Proof.
  intros w i p I. unfold bobserve, told. rewrite I, nth_error_map.
  destruct (nth_error (bw_chain w) i); reflexivity.
Qed.
