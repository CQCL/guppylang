(** C28 — the heap of component objects, and facts about the generated step functions: each
    proof is one generic script over whatever the translator produced; a method that writes
    to an object reachable from another configuration makes [step_frame] fail. *)
From Coq Require Import ZArith List Lia.
From V.C28 Require Import ModelBase GenEmu.
Import ListNotations.
Local Open Scope nat_scope.

Lemma upd_length : forall h r f, length (upd h r f) = length h.
Proof. induction h; destruct r; simpl; intros; auto. Qed.

Lemma hset_length : forall h r s, length (hset_seed h r s) = length h.
Proof. intros. apply upd_length. Qed.

Lemma halloc_length : forall h o, length (halloc_h h o) = S (length h).
Proof. intros. unfold halloc_h. rewrite app_length. simpl. lia. Qed.

Lemma hget_alloc_old : forall h o r, r < length h -> hget (halloc_h h o) r = hget h r.
Proof. intros. apply app_nth1. assumption. Qed.

Lemma hget_alloc_new : forall h o, hget (halloc_h h o) (halloc_r h) = o.
Proof. intros. unfold hget, halloc_h, halloc_r. rewrite app_nth2, Nat.sub_diag by lia. reflexivity. Qed.

Lemma nth_upd_other : forall h r r' f, r <> r' -> nth r (upd h r' f) dflt_obj = nth r h dflt_obj.
Proof.
  induction h; intros; simpl.
  - destruct r'; reflexivity.
  - destruct r', r; simpl; auto; try congruence.
Qed.

Lemma nth_upd_same : forall h r f, r < length h -> nth r (upd h r f) dflt_obj = f (nth r h dflt_obj).
Proof.
  induction h; intros; simpl in *.
  - lia.
  - destruct r; simpl; auto. apply IHh. lia.
Qed.

Lemma hget_set_other : forall h r r' s, r <> r' -> hget (hset_seed h r' s) r = hget h r.
Proof. intros. apply nth_upd_other. assumption. Qed.

Lemma hget_set_same : forall h r s, r < length h ->
  hget (hset_seed h r s) r = obj_with_seed (hget h r) s.
Proof. intros. unfold hget, hset_seed. rewrite nth_upd_same by assumption. reflexivity. Qed.

Lemma lt_alloc : forall h o r, r < length h -> r < length (halloc_h h o).
Proof. intros. rewrite halloc_length. lia. Qed.
Lemma lt_set : forall h r' s r, r < length h -> r < length (hset_seed h r' s).
Proof. intros. rewrite hset_length. assumption. Qed.
Lemma new_lt : forall h o, halloc_r h < length (halloc_h h o).
Proof. intros. rewrite halloc_length. apply Nat.lt_succ_diag_r. Qed.
Lemma old_neq_new : forall h r, r < length h -> r <> halloc_r h.
Proof. unfold halloc_r. intros. lia. Qed.

Create HintDb heap discriminated.
#[export] Hint Resolve lt_alloc lt_set new_lt old_neq_new : heap.

(* reads through allocations and seed writes; the side conditions (index in range, old index
   is not the new one) are left to the [heap] hints *)
Ltac hs :=
  repeat first
    [ rewrite hget_alloc_new
    | rewrite hget_alloc_old by auto with heap
    | rewrite hget_set_other by auto with heap
    | rewrite hget_set_same by auto with heap ].

(* h' extends h: every object of h is still there, at its index, with the same fields *)
Definition frame (h h' : heap) : Prop :=
  length h <= length h' /\ forall r, r < length h -> hget h' r = hget h r.

Lemma frame_refl : forall h, frame h h.
Proof. split; auto. Qed.

Lemma frame_alloc : forall a h o, frame a h -> frame a (halloc_h h o).
Proof.
  intros a h o [L F]. split.
  - rewrite halloc_length. lia.
  - intros. rewrite hget_alloc_old by lia. apply F. assumption.
Qed.

(* a write to an object allocated after a, as with_seed's to its copy of the simulator *)
Lemma frame_set_fresh : forall a h0 h s, frame a h0 -> frame a h -> frame a (hset_seed h (halloc_r h0) s).
Proof.
  intros a h0 h s [L0 _] [L F]. split.
  - rewrite hset_length. assumption.
  - intros. rewrite hget_set_other by (unfold halloc_r; lia). apply F. assumption.
Qed.

#[export] Hint Resolve frame_refl frame_alloc frame_set_fresh : heap.

Definition wf (h : heap) (c : inst) : Prop := Forall (fun r => r < length h) (inst_refs c).

Ltac wf_hyps :=
  unfold wf, inst_refs in *;
  repeat match goal with
         | H : Forall _ (_ :: _) |- _ => apply Forall_cons_iff in H; destruct H
         | H : Forall _ [] |- _ => clear H
         end.

Ltac fields c := destruct c; repeat match goal with o : opts |- _ => destruct o end.

(* the heap operations stay folded for the [heap] hints.  ([autounfold with emu] first would
   leave its result in the proof term, where every field of the new configuration is a
   projection out of a copy of the whole record.) *)
Ltac run_step := unfold content, inst_refs; cbn -[hget halloc_r halloc_h hset_seed].

(* entry by entry: what is done to one entry then costs one entry, not the list *)
Ltac entries T := repeat apply (f_equal2 (@cons T)); try reflexivity.

Lemma refs_frame : forall h h' (l : list ref),
  frame h h' -> Forall (fun r => r < length h) l -> Forall (fun r => r < length h') l.
Proof. intros h h' l [L _]. apply Forall_impl. intros. lia. Qed.

Lemma content_frame : forall h h' c, wf h c -> frame h h' -> content h' c = content h c.
Proof.
  intros h h' c W [_ F]. wf_hyps. unfold content. repeat rewrite F by assumption. reflexivity.
Qed.

Lemma mk_root_ok : forall h i n,
  frame h (fst (mk_root h i n)) /\ wf (fst (mk_root h i n)) (snd (mk_root h i n)).
Proof.
  intros. unfold wf. run_step. split; [ auto with heap | ].
  repeat apply Forall_cons; try apply Forall_nil; auto 6 with heap.
Qed.

Lemma mk_root_content : forall h h' i n,
  content (fst (mk_root h i n)) (snd (mk_root h i n)) =
  content (fst (mk_root h' i n)) (snd (mk_root h' i n)).
Proof. intros. run_step. entries oval; hs; reflexivity. Qed.

Lemma step_frame : forall m ra h c,
  wf h c -> (meth_uses_ref m = true -> ra < length h) ->
  frame h (fst (step m ra h c)) /\ wf (fst (step m ra h c)) (snd (step m ra h c)).
Proof.
  intros m ra h c W A. wf_hyps.
  destruct m; cbn [meth_uses_ref] in A; try specialize (A eq_refl); run_step.
  all: split; [ auto with heap | ].
  all: repeat apply Forall_cons; try apply Forall_nil; auto with heap.
Qed.

(* a step reads of the heap only the objects its configuration holds and the one passed: from
   equal content and equal argument objects, in any two heaps, it gives equal content *)
Lemma step_sim : forall m ra1 ra2 h1 h2 c1 c2,
  wf h1 c1 -> wf h2 c2 -> content h1 c1 = content h2 c2 ->
  (meth_uses_ref m = true -> ra1 < length h1 /\ ra2 < length h2 /\ hget h1 ra1 = hget h2 ra2) ->
  content (fst (step m ra1 h1 c1)) (snd (step m ra1 h1 c1)) =
  content (fst (step m ra2 h2 c2)) (snd (step m ra2 h2 c2)).
Proof.
  intros m ra1 ra2 h1 h2 c1 c2 W1 W2 C A. fields c1. fields c2. wf_hyps.
  (* equal content, used before the step: the same scalars on both sides and one equation
     per reference *)
  cbn in C. injection C as ?. subst.
  destruct m; cbn [meth_uses_ref] in A; try (destruct (A eq_refl) as (? & ? & ?)); clear A; run_step.
  (* an object entry is read back to the old heaps, where the equations are *)
  all: entries oval; hs; congruence.
Qed.

Lemma run_args_content : forall h1 h2 c1 c2,
  content h1 c1 = content h2 c2 -> run_args h1 c1 = run_args h2 c2.
Proof.
  intros h1 h2 c1 c2 C. fields c1. fields c2. cbn in C. injection C as ?. subst.
  unfold run_args. cbn -[hget].
  entries (String.string * oval)%type; congruence.
Qed.
