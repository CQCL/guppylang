(** C23 — lemmas.  A dict with distinct keys is determined by its key order and its lookups
    ([ns_ext]); the cycle of `mock_builtins` for any table of mocks, on a namespace reached
    through a lens. *)
From Coq Require Import ZArith String Bool List.
From V.C23 Require Import ModelBase GenMock Model.
Import ListNotations.
Open Scope string_scope.
Open Scope list_scope.

Lemma d_in_cons : forall x k v t, d_in x ((k, v) :: t) = String.eqb k x || d_in x t.
Proof. intros. unfold d_in. simpl. destruct (String.eqb k x); reflexivity. Qed.
Lemma d_in_keys : forall d x, d_in x d = true <-> In x (keys d).
Proof.
  induction d as [|[k v] t IH]; intro x; [split; [discriminate|intros []]|].
  rewrite d_in_cons, orb_true_iff, IH, String.eqb_eq. reflexivity.
Qed.
Lemma d_in_lookup : forall d x, d_in x d = true -> exists v, d_lookup d x = Some v.
Proof. intros d x H. unfold d_in in H. destruct (d_lookup d x); [eauto|discriminate]. Qed.
Lemma d_notin_lookup : forall d x, d_in x d = false -> d_lookup d x = None.
Proof. intros d x H. unfold d_in in H. destruct (d_lookup d x); [discriminate|reflexivity]. Qed.
Lemma lookup_notin : forall d x, ~ In x (keys d) -> d_lookup d x = None.
Proof.
  intros d x H. apply d_notin_lookup. destruct (d_in x d) eqn:E; [|reflexivity].
  apply d_in_keys in E. contradiction.
Qed.

Lemma ns_ext : forall a b : ns, NoDup (keys b) -> keys a = keys b ->
  (forall y, In y (keys b) -> d_lookup a y = d_lookup b y) -> a = b.
Proof.
  induction a as [|[k v] a IH]; intros [|[k' v'] b] ND HK HL; simpl in *; try discriminate; [reflexivity|].
  injection HK as -> HK. inversion ND; subst.
  assert (v = v') as ->.
  { specialize (HL k' (or_introl eq_refl)). rewrite String.eqb_refl in HL. congruence. }
  f_equal. apply IH; [assumption|assumption|].
  intros y Hy. specialize (HL y (or_intror Hy)). destruct (String.eqb_spec k' y) as [->|]; [contradiction|assumption].
Qed.

Lemma lookup_app : forall a b y,
  d_lookup (a ++ b) y = match d_lookup a y with Some v => Some v | None => d_lookup b y end.
Proof.
  induction a as [|[k v] a IH]; intros b y; simpl; [reflexivity|]. now destruct (String.eqb k y).
Qed.

Lemma lookup_set : forall d x v y, d_lookup (d_set d x v) y = if String.eqb x y then Some v else d_lookup d y.
Proof.
  induction d as [|[k w] t IH]; intros x v y; simpl; [reflexivity|].
  destruct (String.eqb_spec k x) as [->|N]; simpl.
  - now destruct (String.eqb x y).
  - rewrite IH. destruct (String.eqb_spec k y) as [->|]; [|reflexivity].
    destruct (String.eqb_spec x y); [congruence|reflexivity].
Qed.
Lemma d_in_set : forall d x v y, d_in y (d_set d x v) = String.eqb x y || d_in y d.
Proof. intros. unfold d_in. rewrite lookup_set. now destruct (String.eqb x y). Qed.
Lemma keys_set : forall d x v, keys (d_set d x v) = if d_in x d then keys d else keys d ++ [x].
Proof.
  induction d as [|[k w] t IH]; intros x v; [reflexivity|].
  simpl. rewrite d_in_cons. destruct (String.eqb k x); simpl; [reflexivity|].
  rewrite IH. now destruct (d_in x t).
Qed.
Lemma dict_ok_set : forall d x v, dict_ok d -> dict_ok (d_set d x v).
Proof.
  unfold dict_ok. intros d x v ND. rewrite keys_set. destruct (d_in x d) eqn:E; [assumption|].
  apply (NoDup_Add (Add_app x (keys d) [])). rewrite app_nil_r. split; [assumption|].
  rewrite <- d_in_keys. congruence.
Qed.

Lemma lookup_update : forall src d y, NoDup (keys src) ->
  d_lookup (d_update d src) y = match d_lookup src y with Some v => Some v | None => d_lookup d y end.
Proof.
  unfold d_update. induction src as [|[k v] r IH]; intros d y ND; simpl; [reflexivity|].
  simpl in ND. inversion ND; subst. rewrite IH by assumption. rewrite lookup_set.
  destruct (String.eqb_spec k y) as [<-|]; [|reflexivity]. now rewrite lookup_notin.
Qed.
Lemma keys_update : forall src d, NoDup (keys src) ->
  keys (d_update d src) = keys d ++ filter (fun x => negb (d_in x d)) (keys src).
Proof.
  unfold d_update. induction src as [|[k v] r IH]; intros d ND; simpl; [now rewrite app_nil_r|].
  simpl in ND. inversion ND; subst. rewrite IH, keys_set by assumption.
  rewrite (filter_ext_in _ (fun x => negb (d_in x d))).
  - destruct (d_in k d); simpl; [reflexivity|now rewrite <- app_assoc].
  - intros x Hx. rewrite d_in_set. now destruct (String.eqb_spec k x) as [<-|].
Qed.
Lemma keys_update_in : forall src d, (forall x, In x (keys src) -> d_in x d = true) ->
  keys (d_update d src) = keys d.
Proof.
  unfold d_update. induction src as [|[k v] r IH]; simpl; intros d H; [reflexivity|].
  rewrite IH.
  - rewrite keys_set, H; auto.
  - intros x Hx. rewrite d_in_set, (H x) by auto. apply orb_true_r.
Qed.
Lemma dict_ok_update : forall src d, dict_ok d -> dict_ok (d_update d src).
Proof.
  unfold d_update. induction src as [|[k v] r IH]; simpl; intros; [assumption|]. apply IH. now apply dict_ok_set.
Qed.

Lemma d_remove_app : forall h x v r, ~ In x (keys h) -> d_remove (h ++ (x, v) :: r) x = h ++ r.
Proof.
  induction h as [|[k w] h IH]; simpl; intros x v r H; [now rewrite String.eqb_refl|].
  destruct (String.eqb_spec k x); [tauto|]. f_equal. apply IH. tauto.
Qed.
Lemma d_del_app : forall h x v r, ~ In x (keys h) -> d_del (h ++ (x, v) :: r) x = (h ++ r, None).
Proof.
  intros h x v r H. unfold d_del, d_in. rewrite lookup_app, lookup_notin by assumption.
  simpl. rewrite String.eqb_refl. now rewrite d_remove_app.
Qed.

(** old = {x: g[x] for x in mock if x in g} *)
Lemma comp_spec : forall g mock acc, dict_ok acc ->
  exists old, d_comp_keys (keys mock) (fun x => d_in x g) (fun x => d_get g x) acc = inl old /\
    dict_ok old /\
    forall y, d_lookup old y = if d_in y mock && d_in y g then d_lookup g y else d_lookup acc y.
Proof.
  intros g. induction mock as [|[x w] mock IH]; intros acc Hacc; simpl.
  - now exists acc.
  - destruct (d_in x g) eqn:Ein.
    + destruct (d_in_lookup g x Ein) as [v Hv]. unfold d_get. rewrite Hv.
      destruct (IH (d_set acc x v) (dict_ok_set _ x v Hacc)) as (old & Ho & Hok & Hl).
      exists old. split; [exact Ho|]. split; [exact Hok|].
      intro y. rewrite Hl, lookup_set, d_in_cons. destruct (String.eqb_spec x y) as [<-|]; [|reflexivity].
      rewrite Ein, Hv. now destruct (d_in x mock).
    + destruct (IH acc Hacc) as (old & Ho & Hok & Hl).
      exists old. split; [exact Ho|]. split; [exact Hok|].
      intro y. rewrite Hl, d_in_cons. destruct (String.eqb_spec x y) as [<-|]; [|reflexivity].
      now rewrite Ein, !andb_false_r.
Qed.

(** g.update(mock) is g's own keys [h0] (some rebound) followed by the appended keys [A]; once the
    loop has deleted [A], h0.update(old) is g again *)
Lemma update_restore : forall g mock old h0 A, dict_ok g -> dict_ok mock -> dict_ok old ->
  (forall y, d_lookup old y = if d_in y mock && d_in y g then d_lookup g y else None) ->
  d_update g mock = h0 ++ A -> keys h0 = keys g ->
  d_update h0 old = g.
Proof.
  intros g mock old h0 A Hg Hm Ho Hl Hsplit Hk. apply ns_ext; [exact Hg| |].
  - rewrite <- Hk. apply keys_update_in. intros x Hx.
    apply d_in_keys. rewrite Hk. apply d_in_keys.
    apply d_in_keys in Hx. unfold d_in in Hx. rewrite Hl in Hx.
    destruct (d_in x g); [reflexivity|]. now rewrite andb_false_r in Hx.
  - intros y Eg. apply d_in_keys in Eg. rewrite lookup_update, Hl, Eg, andb_true_r by exact Ho.
    destruct (d_in_lookup g y Eg) as [v Hv]. rewrite Hv.
    destruct (d_in y mock) eqn:Em; [reflexivity|].
    (* y is a key of g that is not mocked: update(mock) left it alone, and it lies in h0 *)
    assert (Hy : d_in y h0 = true) by (apply d_in_keys; rewrite Hk; now apply d_in_keys).
    destruct (d_in_lookup h0 y Hy) as [w Hw]. rewrite Hw, <- Hv.
    pose proof (lookup_app h0 A y) as L. rewrite <- Hsplit, Hw in L. rewrite <- L.
    now rewrite lookup_update, (d_notin_lookup mock y Em) by exact Hm.
Qed.

(** The cycle only ever passes through states [putg _ s] of the one outer state [s], so the lens
    laws are needed at [s] alone (for one module among several: wherever its index is in range). *)
Section Lens.
  Context {S : Type} (getg : S -> ns) (putg : ns -> S -> S) (s : S).
  Hypothesis get_put : forall g, getg (putg g s) = g.
  Hypothesis put_put : forall g g', putg g (putg g' s) = putg g s.
  Hypothesis put_get : putg (getg s) s = s.

  (** for x in mock: if x not in old: del g[x] *)
  Definition restore_loop (mk : list string) (old : ns) : S -> S * outcome :=
    for_keys mk (fun x s => if negb (d_in x old)
                            then (let '(g', o) := d_del (getg s) x in (putg g' s, o)) else (s, None)).

  Definition mock_ref (mock : ns) (yield_ : S -> S * outcome) (s : S) : S * outcome :=
    match d_comp mock (fun x => d_in x (getg s)) (fun x => d_get (getg s) x) with
    | inr e => (s, Some e)
    | inl old =>
        match (putg (d_update (getg s) mock) s, @None string) with
        | (s, None) => try_finally (fun s => yield_ s)
                         (fun s => match restore_loop (keys mock) old s with
                                   | (s, None) => (putg (d_update (getg s) old) s, None)
                                   | (s, Some e) => (s, Some e)
                                   end) s
        | (s, Some e) => (s, Some e)
        end
    end.

  (** the loop deletes exactly the appended keys, in the order of appending: no KeyError, [h0] undisturbed *)
  Lemma restore_loop_app : forall old mk h0 A,
    filter (fun x => negb (d_in x old)) mk = keys A ->
    (forall x, In x (keys A) -> ~ In x (keys h0)) ->
    restore_loop mk old (putg (h0 ++ A) s) = (putg h0 s, None).
  Proof.
    unfold restore_loop. induction mk as [|x mk IH]; intros h0 A HA Hdis; simpl in *.
    - destruct A; [|discriminate]. now rewrite app_nil_r.
    - destruct (negb (d_in x old)); [|now apply IH].
      destruct A as [|[k v] A]; [discriminate|]. injection HA as <- HA.
      rewrite get_put, d_del_app, put_put by (apply Hdis; now left).
      apply IH; [assumption|]. intros y Hy. apply Hdis. now right.
  Qed.

  (** the hypothesis on the body is, for nested traces, the induction hypothesis *)
  Lemma mock_ref_restores : forall mock yield_ o, dict_ok mock -> dict_ok (getg s) ->
    yield_ (putg (d_update (getg s) mock) s) = (putg (d_update (getg s) mock) s, o) ->
    mock_ref mock yield_ s = (s, o).
  Proof.
    intros mock yield_ o NDm NDg Hy. unfold mock_ref, d_comp.
    destruct (comp_spec (getg s) mock [] (NoDup_nil _)) as (old & -> & NDo & Hl).
    cbv beta iota. unfold try_finally. cbv beta. rewrite Hy. cbv beta iota.
    destruct (map_eq_app _ _ _ _ (keys_update mock (getg s) NDm)) as (h0 & A & Hsplit & Hk0 & HkA).
    fold (keys h0) in Hk0. fold (keys A) in HkA.
    rewrite Hsplit, restore_loop_app.
    - rewrite get_put.
      rewrite (update_restore (getg s) mock old h0 A), put_put, put_get; auto.
    - rewrite HkA. apply filter_ext_in. intros x Hx. f_equal.
      apply d_in_keys in Hx. unfold d_in at 1. rewrite Hl, Hx. simpl.
      destruct (d_in x (getg s)) eqn:E; [|reflexivity]. now destruct (d_in_lookup _ x E) as [v ->].
    - intros x Hx. rewrite HkA in Hx. apply filter_In in Hx as [_ Hx].
      rewrite Hk0, <- d_in_keys. now destruct (d_in x (getg s)).
  Qed.
End Lens.

(** The generated body is [mock_ref] at the generated table, by conversion: a change of shape
    in `mock_builtins` breaks this lemma, a change of the table does not. *)
Lemma gen_is_ref : forall S (getg : S -> ns) putg yield_ s,
  mock_builtins_gen getg putg yield_ s = mock_ref getg putg mock_lit yield_ s.
Proof. reflexivity. Qed.

Lemma mock_lit_nodup : dict_ok mock_lit.
Proof. apply dict_ok_update. constructor. Qed.
Lemma mock_lit_binds : forallb (fun x => match d_lookup mock_lit x with Some (VMock _) => true | _ => false end)
                         mock_names = true.
Proof. reflexivity. Qed.

Lemma update_mocked : forall g, mocked (d_update g mock_lit).
Proof.
  intros g x Hx. rewrite lookup_update by exact mock_lit_nodup.
  pose proof (proj1 (forallb_forall _ _) mock_lit_binds x Hx) as H. cbv beta in H.
  destruct (d_lookup mock_lit x) as [[n|]|]; try discriminate. now exists n.
Qed.

Lemma nth_set_nth : forall {A} m (x d : A) l, (m < length l)%nat -> nth m (set_nth m x l) d = x.
Proof.
  induction m as [|m IH]; intros x d l H.
  - destruct l; [inversion H|reflexivity].
  - destruct l; [inversion H|]. apply IH. now apply Nat.succ_lt_mono.
Qed.
Lemma set_nth_set_nth : forall {A} m (x y : A) l, set_nth m x (set_nth m y l) = set_nth m x l.
Proof. induction m; destruct l; simpl; intros; try reflexivity. f_equal. apply IHm. Qed.
Lemma set_nth_nth : forall {A} m (d : A) l, set_nth m (nth m l d) l = l.
Proof. induction m; destruct l; simpl; intros; try reflexivity. f_equal. apply IHm. Qed.
Lemma length_set_nth : forall {A} m (x : A) l, length (set_nth m x l) = length l.
Proof. induction m; destruct l; simpl; intros; try reflexivity. f_equal. apply IHm. Qed.
Lemma Forall_set_nth : forall {A} (P : A -> Prop) m x l, Forall P l -> P x -> Forall P (set_nth m x l).
Proof.
  induction m; destruct l; simpl; intros; try assumption; inversion H; subst; constructor; auto.
Qed.
Lemma Forall_nth_default : forall {A} (P : A -> Prop) m l d, Forall P l -> P d -> P (nth m l d).
Proof. induction m; destruct l; simpl; intros; try assumption; inversion H; subst; auto. Qed.

Lemma getm_ok : forall m s, state_ok s -> dict_ok (getm m s).
Proof. intros. apply (Forall_nth_default dict_ok); [assumption|constructor]. Qed.

Lemma enter_ok : forall m s, state_ok s ->
  let s' := putm m (d_update (getm m s) mock_lit) s in state_ok s' /\ length s' = length s.
Proof.
  intros m s Hok. split; [|apply length_set_nth].
  apply Forall_set_nth; [assumption|]. now apply dict_ok_update, getm_ok.
Qed.

Scheme item_mut := Induction for item Sort Prop
  with items_mut := Induction for items Sort Prop.
Combined Scheme item_items_ind from item_mut, items_mut.

Lemma run_restores :
  (forall i s, state_ok s -> mods_ok_item (length s) i = true -> run_item i s = (s, raises_item i)) /\
  (forall l s, state_ok s -> mods_ok_items (length s) l = true -> run_items l s = (s, raises_items l)).
Proof.
  apply item_items_ind.
  - intros. reflexivity.
  - intros m body IH s Hok Hm. simpl in Hm. apply andb_true_iff in Hm. destruct Hm as [Hlt Hb].
    apply Nat.ltb_lt in Hlt. destruct (enter_ok m s Hok) as [Hok' Hlen].
    change (run_item (ITrace m body) s) with (mock_builtins_gen (getm m) (putm m) (run_items body) s).
    change (raises_item (ITrace m body)) with (raises_items body).
    rewrite gen_is_ref.
    apply (mock_ref_restores (getm m) (putm m)).
    + intro g. now apply nth_set_nth.
    + intros. apply set_nth_set_nth.
    + apply set_nth_nth.
    + apply mock_lit_nodup.
    + now apply getm_ok.
    + apply IH; [exact Hok'|]. now rewrite Hlen.
  - intros body IH s Hok Hm.
    change (run_item (ICatch body) s) with (let '(s1, _) := run_items body s in (s1, @None string)).
    change (mods_ok_item (length s) (ICatch body)) with (mods_ok_items (length s) body) in Hm.
    rewrite (IH s Hok Hm). reflexivity.
  - intros. reflexivity.
  - intros i IHi rest IHr s Hok Hm. simpl in Hm. apply andb_true_iff in Hm. destruct Hm as [Hi Hr].
    simpl. rewrite (IHi s Hok Hi). destruct (raises_item i); [reflexivity|]. now apply IHr.
Qed.
