(** C03 — Classical control and data flow behave as in Python (decided on the compiler side:
    the CFG that guppylang's CFGBuilder produces, run by the CFG semantics of CfgSem.v,
    against the Python semantics PySem.v of the source).

    Full-strength statement (DESIGN A.2): for every program p of PyAst the
    builder accepts, every oracle, store and fuel on which Python terminates normally,
    [run_cfg (build p)] terminates with the same value, user variables and call trace.
    The faithful builder model REFUTES it ([build_preserves_refuted_*], witnesses replayed on
    the real CFGBuilder by check.py).

    PROVED: [build_preserves_partial] — for every function body of the decidable fragment
    [frag_stmts] (Frag.v): assignments to names and tuples of names, augmented assignments,
    expression statements and return with lift-free expressions (no and/or, conditional
    expression, walrus or chained comparison in value position); if/elif/else, while, break,
    continue, pass, return, nested arbitrarily, unreachable code after jumps included; branch
    conditions in [frag_cond] (not/and/or/conditional expressions over lift-free leaves,
    True/False constants, and chained comparisons whose operands are lift-free and whose middle
    operands are also call-free) — for every oracle, initial state and fuel on which the Python
    semantics terminates normally (return or falling off the end), the CFG that the model of
    CFGBuilder.build produces (after update_reachable and pruning) runs from the entry block
    to the exit block with the same returned value, the same store and the same call trace;
    and every terminating run of that CFG gives that result ([build_preserves_partial_unique]).
    PROVED: [build_preserves_safe_partial] (+ [_unique]) — the same on [lsafe_stmts] (Lift.v), which
    admits lifted expressions under the order conditions stated there; the CFG store also holds the
    builder's temporaries.
    NOT PROVED: for loops (ForModel.v, no theorem); chained comparisons whose middle operand is
    lifted (Builder.v answers ErrUnmodelled) or contains a call (refuted); these are covered by the
    CFG-equality tie and the semantic search only. *)
From Coq Require Import ZArith List Bool.
From V.C03 Require Import PyAst PySem Cfg CfgSem Builder Encode Frag Witness ProofsRefute ProofsBase ProofsExpr ProofsBranch ProofsLayout ProofsStmt ProofsBuild Lift ProofsSim ProofsLayoutE ProofsSemE Unpack GenUnpack ProofsUnpack.
Import ListNotations.

(* v1 = (v0 + (v0 := 5)): Python adds the old v0, the CFG computes 5 + 5 *)
Theorem build_preserves_refuted_walrus : refutes w_walrus.
Proof. apply refutes_b_sound. vm_compute. reflexivity. Qed.
Print Assumptions build_preserves_refuted_walrus.

(* v1 = (f0() + (f2() if v3 else f0(1))): the conditional expression runs before f0() *)
Theorem build_preserves_refuted_ifexp_order : refutes w_ifexp.
Proof. apply refutes_b_sound. vm_compute. reflexivity. Qed.
Print Assumptions build_preserves_refuted_ifexp_order.

(* v1 = (f0() + (v3 and f1())): the BoolOp runs before f0() *)
Theorem build_preserves_refuted_boolop_order : refutes w_boolop.
Proof. apply refutes_b_sound. vm_compute. reflexivity. Qed.
Print Assumptions build_preserves_refuted_boolop_order.

(* if ((-5) < f0() < 9): ... : f0 is called twice *)
Theorem build_preserves_refuted_chain_dup : refutes w_chain.
Proof. apply refutes_b_sound. vm_compute. reflexivity. Qed.
Print Assumptions build_preserves_refuted_chain_dup.

(* v1 = (v2 and 3): Python yields 3, the CFG yields True *)
Theorem build_preserves_refuted_boolop_value : refutes w_boolval.
Proof. apply refutes_b_sound. vm_compute. reflexivity. Qed.
Print Assumptions build_preserves_refuted_boolop_value.

(* v1 += (v1 := 5): Python reads the old v1 first *)
Theorem build_preserves_refuted_augassign : refutes w_aug.
Proof. apply refutes_b_sound. vm_compute. reflexivity. Qed.
Print Assumptions build_preserves_refuted_augassign.

(* ExprBuilder on lift-free expressions: no block, no temporary, same Python meaning *)
Theorem expr_builder_preserves_partial : forall e bb s oracle st, lift_free e = true ->
  exists e', build_expr e bb s = BOk (e', bb) s /\ eval oracle e' st = eval oracle e st.
Proof.
  intros e bb s oracle st H. exists (fold_neg e).
  split; [exact (build_lift_free e H bb s) | apply fold_neg_eval].
Qed.
Print Assumptions expr_builder_preserves_partial.

(* BranchBuilder.add_branch on the fragment frag_cond: in every graph G extending the builder's
   result, from the end of the current block bb control reaches the true target t (resp. false
   target f) at position 0 with exactly Python's state/trace. *)
Theorem branch_build_preserves_partial : forall oracle e, frag_cond e = true ->
  forall bb t f g n s',
  build_branch e bb t f (mkB g n) = BOk tt s' ->
  opn g bb -> bb <> exit_idx -> exit_idx < length g -> t < length g -> f < length g -> t <> bb -> f <> bb ->
  exists g', s' = mkB g' n /\ grows g bb g' /\
    forall G, ext g' G -> forall st b st' ret, eval_truth oracle e st = Done (b, st') ->
      steps oracle G (mkConfig bb (slen g bb) st ret) (mkConfig (if b then t else f) 0 st' ret).
Proof. intros oracle e H bb t f g n s' B O Nb Ne _ _ _ _. exact (branch_ok oracle e H bb t f g n s' B O Nb Ne). Qed.
Print Assumptions branch_build_preserves_partial.

(* not (v0 < 1 and (v1 or (True if v2 == 3 else f1(v0)))), current block 0, targets 2 and 3 *)
Definition ex_cond : expr :=
  EUnary UNot (EBool BoAnd (ECmp (v 0) (CLast CLt (i 1)))
    (EBool BoOr (v 1) (EIf (ECmp (v 2) (CLast CEq (i 3))) (EConst (CBool true)) (ECall 1 (ECons (v 0) ENil))))).
Definition ex_graph : list block := [empty_block; empty_block; empty_block; empty_block].
Example branch_hypotheses_satisfiable :
  frag_cond ex_cond = true /\
  (exists s', build_branch ex_cond 0 2 3 (mkB ex_graph 0) = BOk tt s' /\ length (bs_blocks s') = 8) /\
  opn ex_graph 0 /\ exit_idx < length ex_graph /\
  (exists st', eval_truth test_oracle ex_cond st0 = Done (false, st')).
Proof.
  split. { reflexivity. }
  split. { eexists; split; vm_compute; reflexivity. }
  split. { unfold opn; simpl; repeat split; auto. }
  split. { unfold exit_idx; simpl; repeat constructor. }
  eexists. vm_compute. reflexivity.
Qed.

Theorem build_preserves_partial : forall oracle p returns_none g s,
  frag_stmts p = true -> build p returns_none = BOk g s ->
  forall fuel st v st', exec_py oracle fuel p st = Done (v, st') ->
  exists fuel', run_cfg oracle g fuel' st = Done (v, st').
Proof.
  intros oracle p rn g s F B fuel st v st' X.
  destruct (build_preserves oracle eq (@eq_refl _) _ _ _ p rn g s (proj2 (visit_spec_all oracle) p F) B fuel st v st' X)
    as (f'&st''&R&<-).
  eauto.
Qed.
Print Assumptions build_preserves_partial.

(* ... and the CFG cannot terminate with anything else *)
Theorem build_preserves_partial_unique : forall oracle p returns_none g s,
  frag_stmts p = true -> build p returns_none = BOk g s ->
  forall fuel st v st', exec_py oracle fuel p st = Done (v, st') ->
  forall fuel' r, run_cfg oracle g fuel' st = Done r -> r = (v, st').
Proof.
  intros oracle p rn g s F B fuel st v st' X fuel' [v' st''] R.
  destruct (build_preserves_unique oracle eq (@eq_refl _) _ _ _ p rn g s (proj2 (visit_spec_all oracle) p F) B fuel st v st' X fuel' _ R)
    as (<-&<-).
  reflexivity.
Qed.
Print Assumptions build_preserves_partial_unique.

(*   while (-1 <= v0 < 3) and (not (v0 == v1)):
         v0 += 1
         if ((v0 == 2) if v3 else (v0 == 1)):
             continue
         elif v2:
             break
         f0(v0)
     return (v0, v1)
     v2 = 5 *)
Definition ex_prog : stmts :=
  SCons (SWhile (EBool BoAnd (ECmp (EUnary UNeg (i 1)) (CMore CLe (v 0) (CLast CLt (i 3)))) (EUnary UNot (ECmp (v 0) (CLast CEq (v 1)))))
           (SCons (SAug 0 BAdd (i 1))
           (SCons (SIf (EIf (v 3) (ECmp (v 0) (CLast CEq (i 2))) (ECmp (v 0) (CLast CEq (i 1))))
                       (one SContinue)
                       (one (SIf (v 2) (one SBreak) SNil)))
           (one (SExpr (ECall 0 (ECons (v 0) ENil)))))) SNil)
  (SCons (SReturn (Some (ETuple (ECons (v 0) (ECons (v 1) ENil)))))
  (one (SAssign (TName (VU 2)) (i 5)))).
Example build_hypotheses_satisfiable :
  frag_stmts ex_prog = true /\
  (exists g s, build ex_prog false = BOk g s /\ length g = 14) /\
  (exists st', exec_py test_oracle 30 ex_prog st0 = Done (VTuple [VInt 1; VInt 1], st')).
Proof.
  split. { reflexivity. }
  split. { eexists. eexists. split; vm_compute; reflexivity. }
  eexists. vm_compute. reflexivity.
Qed.

(* accepted bodies carry no loop else suite, whatever their expressions: after fix-1 the builder drops none (the defect
   was found under C32, which does not import this) *)
Theorem build_accepts_no_loop_else_thm : forall p returns_none g s,
  build p returns_none = BOk g s -> no_loop_else_list p = true.
Proof.
  intros p rn g s B. unfold build in B.
  destruct (visit_stmts p entry_idx (Some entry_idx) (mkJ exit_idx None None) init_state) as [f s1|] eqn:V; [|discriminate].
  exact (proj2 visit_no_loop_else p _ _ _ _ _ _ V).
Qed.
Print Assumptions build_accepts_no_loop_else_thm.

(* Lifted expressions (and/or as values, conditional expressions, walrus, chained comparison as a
   value) on the decidable fragment [lsafe_val] / [lsafe_cond] of Lift.v (= order_safe of DESIGN
   A.2 with lift-free, call-free middle operands in chains), for sources without %tmp names ([nt]).  The CFG state
   [stc] and the Python state [stp] are related by [sim]: same call trace, same user variables
   (temporaries are free).

   ExprBuilder.build: the blocks the builder adds run from the end of block bb to the end of
   block bb' (Python's order of the lifted parts), changing only walrus targets and the new
   temporaries n..n'; evaluating the residual expression e' there yields Python's value and a
   related state. *)
Theorem expr_build_preserves_safe_partial : forall oracle e bb g n e' bb' s',
  build_expr e bb (mkB g n) = BOk (e', bb') s' ->
  lsafe_val e = true -> nt e = true -> opn g bb -> bb <> exit_idx -> exit_idx < length g ->
  exists g' n', s' = mkB g' n' /\ grows g bb g' /\ n <= n' /\ opn g' bb' /\
    forall G, ext g' G -> forall stc stp v stp1 ret,
      sim stc stp -> eval oracle e stp = Done (v, stp1) ->
      exists stm, steps oracle G (mkConfig bb (slen g bb) stc ret) (mkConfig bb' (slen g' bb') stm ret) /\
        mods (wtargets e) n n' stc stm /\
        exists stc1, eval oracle e' stm = Done (v, stc1) /\ sim stc1 stp1.
Proof.
  intros oracle e bb g n e' bb' s' B LS N O Nb Ne.
  destruct (proj1 (proj1 build_lay e) _ _ _ _ _ _ B _ (conj (opn_at_slen g bb O) (conj Nb Ne))) as (g'&n'&Eq&Gr&(O'&_)&Lay).
  exists g', n'. split; [exact Eq|]. split; [exact Gr|].
  split; [exact (proj1 (lsafe_val_sound oracle g' e LS N _ _ _ _ _ (Lay g' (ext_refl _))))|]. split; [exact O'|].
  intros G E stc stp v stp1 ret S X.
  destruct (proj2 (lsafe_val_sound oracle G e LS N _ _ _ _ _ (Lay G E)) stc stp v stp1 ret S X) as (stm&T&M&R&_).
  exists stm. auto.
Qed.
Print Assumptions expr_build_preserves_safe_partial.

(* BranchBuilder.add_branch on conditions whose leaves may contain lifted expressions *)
Theorem branch_build_preserves_safe_partial : forall oracle e bb t f g n s',
  build_branch e bb t f (mkB g n) = BOk tt s' ->
  lsafe_cond e = true -> nt e = true ->
  opn g bb -> bb <> exit_idx -> exit_idx < length g -> t < length g -> f < length g -> t <> bb -> f <> bb ->
  exists g' n', s' = mkB g' n' /\ grows g bb g' /\ n <= n' /\
    forall G, ext g' G -> forall stc stp b stp' ret,
      sim stc stp -> eval_truth oracle e stp = Done (b, stp') ->
      exists stc', steps oracle G (mkConfig bb (slen g bb) stc ret) (mkConfig (if b then t else f) 0 stc' ret) /\
        sim stc' stp'.
Proof.
  intros oracle e bb t f g n s' B LS N O Nb Ne _ _ _ _.
  exact (cond_spec_builds oracle sim le e (lsafe_cond_spec oracle e LS N) bb t f g n s' B O Nb Ne).
Qed.
Print Assumptions branch_build_preserves_safe_partial.

(* satisfiable on: f0(v1 if v0 < 3 else (v1 != 0 and v0 == 1), (v0 < v1 < 9) or ((v2 := v3) == 1)) *)
Definition ex_lifted : expr :=
  ECall 0 (ECons (EIf (ECmp (v 0) (CLast CLt (i 3))) (v 1)
                      (EBool BoAnd (ECmp (v 1) (CLast CNe (i 0))) (ECmp (v 0) (CLast CEq (i 1)))))
          (ECons (EBool BoOr (ECmp (v 0) (CMore CLt (v 1) (CLast CLt (i 9))))
                             (ECmp (EWalrus 2 (v 3)) (CLast CEq (i 1)))) ENil)).
Example lifted_hypotheses_satisfiable :
  lsafe_val ex_lifted = true /\ nt ex_lifted = true /\ lift_free ex_lifted = false /\
  (exists r s', build_expr ex_lifted 0 (mkB [empty_block; empty_block] 0) = BOk r s') /\
  (exists v st', eval test_oracle ex_lifted st0 = Done (v, st')).
Proof.
  split. { reflexivity. } split. { reflexivity. } split. { reflexivity. }
  split. { eexists. eexists. vm_compute. reflexivity. }
  eexists. eexists. vm_compute. reflexivity.
Qed.

(* Statement level with lifted expressions: CFGBuilder.build preserves the Python meaning on the
   decidable fragment [lsafe_stmts] (Lift.v): assignments to user names / tuples of names,
   augmented assignments (not re-binding their own target inside the value), expression
   statements, return, with [lsafe_val] expressions; if/elif/else and while (no else) with
   [lsafe_cond] conditions; break, continue, pass; nested arbitrarily; no %tmp in the source.
   The CFG ends with Python's returned value, Python's call trace and Python's values of all
   user variables (the CFG store additionally holds the builder's temporaries). *)
Theorem build_preserves_safe_partial : forall oracle p returns_none g s,
  lsafe_stmts p = true -> build p returns_none = BOk g s ->
  forall fuel st v st', exec_py oracle fuel p st = Done (v, st') ->
  exists fuel' st'', run_cfg oracle g fuel' st = Done (v, st'') /\
    snd st'' = snd st' /\ forall x, fst st'' (VU x) = fst st' (VU x).
Proof.
  intros oracle p rn g s F B.
  exact (build_preserves oracle sim sim_refl _ _ _ p rn g s (proj2 (lvisit_spec_all oracle) p F) B).
Qed.
Print Assumptions build_preserves_safe_partial.

Theorem build_preserves_safe_partial_unique : forall oracle p returns_none g s,
  lsafe_stmts p = true -> build p returns_none = BOk g s ->
  forall fuel st v st', exec_py oracle fuel p st = Done (v, st') ->
  forall fuel' r, run_cfg oracle g fuel' st = Done r ->
    fst r = v /\ snd (snd r) = snd st' /\ forall x, fst (snd r) (VU x) = fst st' (VU x).
Proof.
  intros oracle p rn g s F B.
  exact (build_preserves_unique oracle sim sim_refl _ _ _ p rn g s (proj2 (lvisit_spec_all oracle) p F) B).
Qed.
Print Assumptions build_preserves_safe_partial_unique.

(* satisfiable on:
     while (v0 < 3) and ((v4 := f0(v0)) != 1):
         v1 = (v0 if v3 else f2(v1)) + v2
         v0 += (1 if (v1 < 0 or v0 < v1 < 9) else 2)
         if (v2 := v0 * 2) > 4 and not v3:
             break
     return (v0, v1, (v2 == 4) or (v1 != 0)) *)
Definition ex_lprog : stmts :=
  SCons (SWhile (EBool BoAnd (ECmp (v 0) (CLast CLt (i 3)))
                             (ECmp (EWalrus 4 (ECall 0 (ECons (v 0) ENil))) (CLast CNe (i 1))))
     (SCons (SAssign (TName (VU 1)) (EBin BAdd (EIf (v 3) (v 0) (ECall 2 (ECons (v 1) ENil))) (v 2)))
     (SCons (SAug 0 BAdd (EIf (EBool BoOr (ECmp (v 1) (CLast CLt (i 0))) (ECmp (v 0) (CMore CLt (v 1) (CLast CLt (i 9)))))
                              (i 1) (i 2)))
     (one (SIf (EBool BoAnd (ECmp (EWalrus 2 (EBin BMul (v 0) (i 2))) (CLast CGt (i 4))) (EUnary UNot (v 3)))
               (one SBreak) SNil)))) SNil)
  (one (SReturn (Some (ETuple (ECons (v 0) (ECons (v 1)
        (ECons (EBool BoOr (ECmp (v 2) (CLast CEq (i 4))) (ECmp (v 1) (CLast CNe (i 0)))) ENil))))))).
Example lbuild_hypotheses_satisfiable :
  lsafe_stmts ex_lprog = true /\ frag_stmts ex_lprog = false /\
  (exists g s, build ex_lprog false = BOk g s /\ bs_tmp s = 3) /\
  (exists v st', exec_py test_oracle 40 ex_lprog st0 = Done (v, st')).
Proof.
  split. { reflexivity. } split. { reflexivity. }
  split. { eexists. eexists. split; vm_compute; reflexivity. }
  eexists. eexists. vm_compute. reflexivity.
Qed.

(* chained comparisons with a lifted first and last operand are inside the fragment:
   (v0 if v3 else 1) < v1 <= (v2 := v0), as a condition and as a value *)
Definition ex_chain : expr :=
  ECmp (EIf (v 3) (v 0) (i 1)) (CMore CLt (v 1) (CLast CLe (EWalrus 2 (v 0)))).
Example lifted_chain_in_fragment :
  lsafe_val ex_chain = true /\ lsafe_cond ex_chain = true /\
  lsafe_stmts (one (SAssign (TName (VU 4)) ex_chain)) = true.
Proof. repeat split; reflexivity. Qed.

(* Unpacking assignment `p1..pk, *s, q1..qm = xs` over an array, as lowered by
   StmtCompiler._assign_array (model Unpack.v; the two reversal decisions of the helper `pop` are read
   from compiler/stmt_compiler.py on every run into GenUnpack.v): for every element type, every
   pattern and every array the bindings are exactly Python's - pi = xs[i], qj = xs[n-m+j],
   s = xs[k:n-m] - and there is no binding exactly when Python raises (wrong number of elements). *)
Theorem unpack_array_matches_python : forall (A : Type) left starred right (xs : list A),
  assign_array A gen_rev_pats_right gen_rev_elts_right left starred right xs = py_unpack A left starred right xs.
Proof.
  intros A left starred right xs. unfold gen_rev_pats_right, gen_rev_elts_right. apply assign_array_python.
Qed.
Print Assumptions unpack_array_matches_python.

Example unpack_example :
  assign_array nat gen_rev_pats_right gen_rev_elts_right [0] (Some 9) [1; 2; 3] [10; 11; 12; 13; 14; 15] =
  Some ([(0, 10); (1, 13); (2, 14); (3, 15)], Some (9, [11; 12])).
Proof. reflexivity. Qed.
