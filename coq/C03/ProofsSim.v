(** C03 — facts about PySem alone (no builder, no CFG): states equal on user variables ([sim]),
    successful evaluation as rules ([Eval]), what it reads ([agree]), what it may change ([tframe], [mods]) and when its value
    survives later changes ([stays]). *)
From Coq Require Import ZArith List Bool Lia.
From V.C03 Require Import PyAst PySem Frag Lift.
Import ListNotations.

(* CFG state vs Python state: same trace, same user variables (temporaries are free) *)
Definition sim (c p : state) : Prop := snd c = snd p /\ forall x, fst c (VU x) = fst p (VU x).

Lemma sim_refl : forall s, sim s s.
Proof. split; auto. Qed.

Lemma sim_upd_user : forall c p x v, sim c p ->
  sim (upd (fst c) (VU x) v, snd c) (upd (fst p) (VU x) v, snd p).
Proof. intros c p x v (T&U). split; simpl; auto. intros y. unfold upd. simpl. destruct (Nat.eqb x y); auto. Qed.

Lemma sim_upd_tmp : forall c p k v, sim c p -> sim (upd (fst c) (VT k) v, snd c) p.
Proof. intros c p k v (T&U). split; simpl; auto. Qed.

Lemma not_in_spec : forall x b, negb (existsb (Nat.eqb x) b) = true -> ~ In x b.
Proof.
  intros x b H Hb. apply negb_true_iff in H. assert (existsb (Nat.eqb x) b = true); [|congruence].
  apply existsb_exists. exists x. split; auto. apply Nat.eqb_refl.
Qed.

Lemma disjoint_spec : forall a b, disjoint a b = true -> forall x, In x a -> ~ In x b.
Proof. unfold disjoint. intros a b H x Ha. rewrite forallb_forall in H. exact (not_in_spec x b (H x Ha)). Qed.

Definition tframe (lo hi : nat) (s s' : state) : Prop :=
  forall k, ~ (lo <= k < hi) -> fst s' (VT k) = fst s (VT k).

Lemma tframe_refl : forall lo hi s, tframe lo hi s s.
Proof. intros lo hi s k _. reflexivity. Qed.

Lemma tframe_trans : forall lo mid hi s s1 s2, lo <= mid <= hi ->
  tframe lo mid s s1 -> tframe mid hi s1 s2 -> tframe lo hi s s2.
Proof. intros lo mid hi s s1 s2 L A B k N. rewrite B, A; auto; lia. Qed.

Lemma tframe_weaken : forall lo hi lo' hi' s s', tframe lo hi s s' -> lo' <= lo -> hi <= hi' -> tframe lo' hi' s s'.
Proof. intros lo hi lo' hi' s s' A L1 L2 k N. apply A. lia. Qed.

Definition mods (w : list nat) (lo hi : nat) (s s' : state) : Prop :=
  (forall x, ~ In x w -> fst s' (VU x) = fst s (VU x)) /\
  (forall k, ~ (lo <= k < hi) -> fst s' (VT k) = fst s (VT k)).

Lemma mods_refl : forall w lo hi s, mods w lo hi s s.
Proof. split; auto. Qed.

Lemma mods_trans : forall w1 w2 lo mid hi s s1 s2, lo <= mid <= hi ->
  mods w1 lo mid s s1 -> mods w2 mid hi s1 s2 -> mods (w1 ++ w2) lo hi s s2.
Proof.
  intros w1 w2 lo mid hi s s1 s2 L (A1&B1) (A2&B2). split.
  - intros x N. rewrite A2, A1; auto; intro; apply N; apply in_or_app; auto.
  - intros k N. rewrite B2, B1; auto; lia.
Qed.

Section Sim.
Variable oracle : trace -> nat -> list val -> val.

(** Successful evaluation as big-step rules, one per way [eval] returns [Done]. *)
Inductive Eval : expr -> state -> val -> state -> Prop :=
| E_const : forall c st, Eval (EConst c) st (eval_const c) st
| E_name : forall x st v, fst st x = Some v -> Eval (EName x) st v st
| E_unary : forall op a st va s1 r, Eval a st va s1 -> eval_unop op va = Some r -> Eval (EUnary op a) st r s1
| E_bin : forall op a b st va s1 vb s2 r,
    Eval a st va s1 -> Eval b s1 vb s2 -> eval_binop op va vb = Some r -> Eval (EBin op a b) st r s2
| E_cmp : forall l rest st vl s1 v s2, Eval l st vl s1 -> EvalC vl rest s1 v s2 -> Eval (ECmp l rest) st v s2
| E_bool_stop : forall op a b st va s1,
    Eval a st va s1 -> truthy va = match op with BoAnd => false | BoOr => true end -> Eval (EBool op a b) st va s1
| E_bool_go : forall op a b st va s1 v s2,
    Eval a st va s1 -> truthy va = match op with BoAnd => true | BoOr => false end -> Eval b s1 v s2 ->
    Eval (EBool op a b) st v s2
| E_if : forall c a b st vc s1 v s2,
    Eval c st vc s1 -> Eval (if truthy vc then a else b) s1 v s2 -> Eval (EIf c a b) st v s2
| E_walrus : forall x a st v s1, Eval a st v s1 -> Eval (EWalrus x a) st v (upd (fst s1) (VU x) v, snd s1)
| E_call : forall f args st vs s1, EvalL args st vs s1 ->
    Eval (ECall f args) st (oracle (snd s1) f vs) (fst s1, Ev f vs (oracle (snd s1) f vs) :: snd s1)
| E_tuple : forall es st vs s1, EvalL es st vs s1 -> Eval (ETuple es) st (VTuple vs) s1
with EvalL : exprs -> state -> list val -> state -> Prop :=
| E_nil : forall st, EvalL ENil st [] st
| E_cons : forall e r st v s1 vs s2, Eval e st v s1 -> EvalL r s1 vs s2 -> EvalL (ECons e r) st (v :: vs) s2
with EvalC : val -> ctail -> state -> val -> state -> Prop :=
| E_last : forall op r vl st vr s1 b,
    Eval r st vr s1 -> eval_cmpop op vl vr = Some b -> EvalC vl (CLast op r) st (VBool b) s1
| E_more_stop : forall op m rest vl st vm s1,
    Eval m st vm s1 -> eval_cmpop op vl vm = Some false -> EvalC vl (CMore op m rest) st (VBool false) s1
| E_more_go : forall op m rest vl st vm s1 v s2,
    Eval m st vm s1 -> eval_cmpop op vl vm = Some true -> EvalC vm rest s1 v s2 -> EvalC vl (CMore op m rest) st v s2.

Scheme Eval_mut := Minimality for Eval Sort Prop
  with EvalL_mut := Minimality for EvalL Sort Prop
  with EvalC_mut := Minimality for EvalC Sort Prop.
Combined Scheme Eval_mutind from Eval_mut, EvalL_mut, EvalC_mut.

Lemma eval_Eval_all :
  (forall e st v st', eval oracle e st = Done (v, st') -> Eval e st v st') /\
  (forall es st vs st', eval_list oracle es st = Done (vs, st') -> EvalL es st vs st') /\
  (forall t vl st v st', eval_ctail oracle vl t st = Done (v, st') -> EvalC vl t st v st').
Proof.
  apply expr_mutind; intros; simpl in *.
  - inversion H; constructor.
  - destruct (fst st x) eqn:L; inversion H; subst. constructor; auto.
  - destruct (eval oracle e st) as [[va s1]| |] eqn:Ea; simpl in *; try discriminate.
    destruct (eval_unop op va) eqn:U; inversion H0; subst. econstructor; eauto.
  - destruct (eval oracle a st) as [[va s1]| |] eqn:Ea; simpl in *; try discriminate.
    destruct (eval oracle b s1) as [[vb s2]| |] eqn:Eb; simpl in *; try discriminate.
    destruct (eval_binop op va vb) eqn:U; inversion H1; subst. econstructor; eauto.
  - destruct (eval oracle l st) as [[vl s1]| |] eqn:El; simpl in *; try discriminate. econstructor; eauto.
  - destruct op; destruct (eval oracle a st) as [[va s1]| |] eqn:Ea; simpl in *; try discriminate;
      destruct (truthy va) eqn:T; try (inversion H1; subst; apply E_bool_stop; auto; fail);
      eapply E_bool_go; eauto.
  - destruct (eval oracle c st) as [[vc s1]| |] eqn:Ec; simpl in *; try discriminate.
    eapply E_if; eauto. destruct (truthy vc); auto.
  - destruct (eval oracle e st) as [[va s1]| |] eqn:Ea; simpl in *; try discriminate.
    inversion H0; subst. constructor; auto.
  - destruct (eval_list oracle args st) as [[vs s1]| |] eqn:Ea; simpl in *; try discriminate.
    inversion H0; subst. constructor; auto.
  - destruct (eval_list oracle es st) as [[vs s1]| |] eqn:Ea; simpl in *; try discriminate.
    inversion H0; subst. constructor; auto.
  - inversion H; constructor.
  - destruct (eval oracle e st) as [[va s1]| |] eqn:Ea; simpl in *; try discriminate.
    destruct (eval_list oracle es s1) as [[vr s2]| |] eqn:Eb; simpl in *; try discriminate.
    inversion H1; subst. econstructor; eauto.
  - destruct (eval oracle e st) as [[vr s1]| |] eqn:Ea; simpl in *; try discriminate.
    destruct (eval_cmpop op vl vr) eqn:U; inversion H0; subst. econstructor; eauto.
  - destruct (eval oracle e st) as [[vm s1]| |] eqn:Ea; simpl in *; try discriminate.
    destruct (eval_cmpop op vl vm) as [[|]|] eqn:U; try discriminate.
    + eapply E_more_go; eauto.
    + inversion H1; subst. eapply E_more_stop; eauto.
Qed.

Definition eval_Eval := proj1 eval_Eval_all.

Lemma Eval_pure_all :
  (forall e st v st', Eval e st v st' -> pure e = true -> st' = st) /\
  (forall es st vs st', EvalL es st vs st' -> pure_list es = true -> st' = st) /\
  (forall vl t st v st', EvalC vl t st v st' -> pure_ctail t = true -> st' = st).
Proof.
  apply Eval_mutind; simpl; auto; try discriminate.
  - intros op a b st va s1 vb s2 r _ IHa _ IHb _ P. apply andb_prop in P. rewrite IHb, IHa; tauto.
  - intros l rest st vl s1 v s2 _ IHl _ IHr P. apply andb_prop in P. rewrite IHr, IHl; tauto.
  - intros op a b st va s1 _ IHa _ P. apply andb_prop in P. apply IHa; tauto.
  - intros op a b st va s1 v s2 _ IHa _ _ IHb P. apply andb_prop in P. rewrite IHb, IHa; tauto.
  - intros c a b st vc s1 v s2 _ IHc _ IHab P. apply andb_prop in P. destruct P as [P Pb]. apply andb_prop in P.
    rewrite IHab, IHc; try tauto. destruct (truthy vc); tauto.
  - intros e r st v s1 vs s2 _ IHe _ IHr P. apply andb_prop in P. rewrite IHr, IHe; tauto.
  - intros op m rest vl st vm s1 _ IHm _ P. apply andb_prop in P. apply IHm; tauto.
  - intros op m rest vl st vm s1 v s2 _ IHm _ _ IHr P. apply andb_prop in P. rewrite IHr, IHm; tauto.
Qed.

Lemma pure_eval : forall e, pure e = true -> forall st v st', eval oracle e st = Done (v, st') -> st' = st.
Proof. intros e P st v st' H. exact (proj1 Eval_pure_all e st v st' (eval_Eval e st v st' H) P). Qed.

(** Evaluation in another state: states that agree on the user variables in [X] and, if [T], on the trace. *)
Section Agree.
Variable X : nat -> Prop.
Variable T : Prop.

Definition agree (s' s : state) : Prop := (forall x, X x -> fst s' (VU x) = fst s (VU x)) /\ (T -> snd s' = snd s).

(* [agree] compares all that an expression reads: it reads no temporary (n: its [nt]), its user variables R (its
   [reads]) are in X, and the trace is compared unless the expression is pure (p) *)
Definition covers (n p : bool) (R : list nat) : Prop := n = true /\ (forall x, In x R -> X x) /\ (p = false -> T).

Lemma covers_l {n1 n2 p1 p2 R1 R2} : covers (n1 && n2) (p1 && p2) (R1 ++ R2) -> covers n1 p1 R1.
Proof.
  intros (N&R&P). apply andb_prop in N. split; [tauto|]. split.
  - intros x H. apply R, in_or_app. auto.
  - intros ->. auto.
Qed.

Lemma covers_r {n1 n2 p1 p2 R1 R2} : covers (n1 && n2) (p1 && p2) (R1 ++ R2) -> covers n2 p2 R2.
Proof.
  intros (N&R&P). apply andb_prop in N. split; [tauto|]. split.
  - intros x H. apply R, in_or_app. auto.
  - intros ->. apply P, andb_false_r.
Qed.

Lemma covers_impure {n p R} : covers n false R -> covers n p R.
Proof. intros (N&R'&P). split; auto. Qed.

Lemma Eval_agree_all :
  (forall e st v s1, Eval e st v s1 -> covers (nt e) (pure e) (reads e) ->
     forall st', agree st' st -> exists s1', eval oracle e st' = Done (v, s1') /\ agree s1' s1) /\
  (forall es st vs s1, EvalL es st vs s1 -> covers (nt_list es) (pure_list es) (reads_list es) ->
     forall st', agree st' st -> exists s1', eval_list oracle es st' = Done (vs, s1') /\ agree s1' s1) /\
  (forall vl t st v s1, EvalC vl t st v s1 -> covers (nt_ctail t) (pure_ctail t) (reads_ctail t) ->
     forall st', agree st' st -> exists s1', eval_ctail oracle vl t st' = Done (v, s1') /\ agree s1' s1).
Proof.
  apply Eval_mutind; simpl.
  - intros c st _ st' A. eauto.
  - intros [x|k] st v L (N&R&_) st' A; [|discriminate]. pose proof (proj1 A x (R x (or_introl eq_refl))) as Ux.
    unfold store in *. rewrite L in Ux. rewrite Ux. eauto.
  - intros op a st va s1 r _ IH U D st' A. destruct (IH D st' A) as (c1&E1&A1). rewrite E1. simpl. rewrite U. eauto.
  - intros op a b st va s1 vb s2 r _ IHa _ IHb U D st' A.
    destruct (IHa (covers_l D) st' A) as (c1&E1&A1). destruct (IHb (covers_r D) c1 A1) as (c2&E2&A2).
    rewrite E1. simpl. rewrite E2. simpl. rewrite U. eauto.
  - intros l rest st vl s1 v s2 _ IHl _ IHr D st' A.
    destruct (IHl (covers_l D) st' A) as (c1&E1&A1). rewrite E1. simpl. exact (IHr (covers_r D) c1 A1).
  - intros op a b st va s1 _ IHa Tr D st' A.
    destruct (IHa (covers_l D) st' A) as (c1&E1&A1). destruct op; rewrite E1; simpl; rewrite Tr; eauto.
  - intros op a b st va s1 v s2 _ IHa Tr _ IHb D st' A.
    destruct (IHa (covers_l D) st' A) as (c1&E1&A1). destruct op; rewrite E1; simpl; rewrite Tr; exact (IHb (covers_r D) c1 A1).
  - intros c a b st vc s1 v s2 _ IHc _ IHab D st' A. rewrite <- !andb_assoc in D.
    destruct (IHc (covers_l D) st' A) as (c1&E1&A1). rewrite E1. simpl. apply covers_r in D.
    destruct (truthy vc); [apply (IHab (covers_l D)) | apply (IHab (covers_r D))]; exact A1.
  - intros x a st v s1 _ IH D st' A. destruct (IH (covers_impure D) st' A) as (c1&E1&(U1&T1)). rewrite E1. simpl.
    eexists. split; [reflexivity|]. split; [|exact T1].
    intros y Xy. unfold upd. simpl. destruct (Nat.eqb x y); auto.
  - (* the one case that reads the trace: a call is not pure, so the traces are compared *)
    intros f args st vs s1 _ IH D st' A. destruct (IH (covers_impure D) st' A) as (c1&E1&(U1&T1)). rewrite E1. simpl.
    rewrite (T1 (proj2 (proj2 D) eq_refl)). eexists. split; [reflexivity|]. split; simpl; auto.
  - intros es st vs s1 _ IH D st' A. destruct (IH D st' A) as (c1&E1&A1). rewrite E1. simpl. eauto.
  - intros st _ st' A. eauto.
  - intros e r st v s1 vs s2 _ IHe _ IHr D st' A.
    destruct (IHe (covers_l D) st' A) as (c1&E1&A1). destruct (IHr (covers_r D) c1 A1) as (c2&E2&A2).
    rewrite E1. simpl. rewrite E2. simpl. eauto.
  - intros op r vl st vr s1 b _ IH U D st' A. destruct (IH D st' A) as (c1&E1&A1). rewrite E1. simpl. rewrite U. eauto.
  - intros op m rest vl st vm s1 _ IH U D st' A.
    destruct (IH (covers_l D) st' A) as (c1&E1&A1). rewrite E1. simpl. rewrite U. eauto.
  - intros op m rest vl st vm s1 v s2 _ IHm U _ IHr D st' A.
    destruct (IHm (covers_l D) st' A) as (c1&E1&A1). rewrite E1. simpl. rewrite U. exact (IHr (covers_r D) c1 A1).
Qed.
End Agree.

Lemma sim_agree : forall c p, sim c p <-> agree (fun _ => True) True c p.
Proof. intros c p. split; intros (A&B); split; auto. Qed.

Lemma eval_sim : forall e stc stp v stp1, nt e = true -> sim stc stp -> eval oracle e stp = Done (v, stp1) ->
  exists stc1, eval oracle e stc = Done (v, stc1) /\ sim stc1 stp1.
Proof.
  intros e stc stp v stp1 N S H.
  destruct (proj1 (Eval_agree_all (fun _ => True) True) e stp v stp1 (eval_Eval _ _ _ _ H)
              (conj N (conj (fun _ _ => I) (fun _ => I))) stc (proj1 (sim_agree _ _) S)) as (stc1&E&A).
  exists stc1. split; [exact E | exact (proj2 (sim_agree _ _) A)].
Qed.

Lemma eval_list_sim : forall es stc stp vs stp1, nt_list es = true -> sim stc stp ->
  eval_list oracle es stp = Done (vs, stp1) ->
  exists stc1, eval_list oracle es stc = Done (vs, stc1) /\ sim stc1 stp1.
Proof.
  intros es stc stp vs stp1 N S H.
  destruct (proj1 (proj2 (Eval_agree_all (fun _ => True) True)) es stp vs stp1 (proj1 (proj2 eval_Eval_all) _ _ _ _ H)
              (conj N (conj (fun _ _ => I) (fun _ => I))) stc (proj1 (sim_agree _ _) S)) as (stc1&E&A).
  exists stc1. split; [exact E | exact (proj2 (sim_agree _ _) A)].
Qed.

Lemma Eval_mods_all :
  (forall e st v st', Eval e st v st' -> forall lo, mods (wtargets e) lo lo st st') /\
  (forall es st vs st', EvalL es st vs st' -> forall lo, mods (wtargets_list es) lo lo st st') /\
  (forall vl t st v st', EvalC vl t st v st' -> forall lo, mods (wtargets_ctail t) lo lo st st').
Proof.
  assert (Seq: forall w1 w2 lo s s1 s2, mods w1 lo lo s s1 -> mods w2 lo lo s1 s2 -> mods (w1 ++ w2) lo lo s s2).
  { intros w1 w2 lo s s1 s2. apply mods_trans. auto. }
  assert (Fst: forall w1 w2 lo s s1, mods w1 lo lo s s1 -> mods (w1 ++ w2) lo lo s s1).
  { intros w1 w2 lo s s1 H. exact (Seq _ _ _ _ _ _ H (mods_refl _ _ _ _)). }
  assert (Snd: forall w1 w2 lo s s1, mods w2 lo lo s s1 -> mods (w1 ++ w2) lo lo s s1).
  { intros w1 w2 lo s s1 H. exact (Seq _ _ _ _ _ _ (mods_refl _ _ _ _) H). }
  apply Eval_mutind; simpl; auto using mods_refl.
  - intros op a b st va s1 vb s2 r _ IHa _ IHb _ lo. exact (Seq _ _ _ _ _ _ (IHa lo) (IHb lo)).
  - intros l rest st vl s1 v s2 _ IHl _ IHr lo. exact (Seq _ _ _ _ _ _ (IHl lo) (IHr lo)).
  - intros op a b st va s1 v s2 _ IHa _ _ IHb lo. exact (Seq _ _ _ _ _ _ (IHa lo) (IHb lo)).
  - intros c a b st vc s1 v s2 _ IHc _ IHab lo. apply (Seq _ _ _ _ _ _ (IHc lo)).
    destruct (truthy vc); [apply Fst | apply Snd]; apply IHab.
  - intros x a st v s1 _ IH lo. destruct (IH lo) as (U&T). split; [|exact T].
    intros y Ny. simpl in *. unfold upd. simpl. destruct (Nat.eqb_spec x y) as [->|_]; [tauto | apply U; tauto].
  - intros e r st v s1 vs s2 _ IHe _ IHr lo. exact (Seq _ _ _ _ _ _ (IHe lo) (IHr lo)).
  - intros op m rest vl st vm s1 v s2 _ IHm _ _ IHr lo. exact (Seq _ _ _ _ _ _ (IHm lo) (IHr lo)).
Qed.

Lemma eval_mods : forall e st v st' lo, eval oracle e st = Done (v, st') -> mods (wtargets e) lo lo st st'.
Proof. intros e st v st' lo H. exact (proj1 Eval_mods_all e st v st' (eval_Eval _ _ _ _ H) lo). Qed.

Lemma eval_tmp : forall e st v st' k, eval oracle e st = Done (v, st') -> fst st' (VT k) = fst st (VT k).
Proof. intros e st v st' k H. apply (proj2 (eval_mods e st v st' 0 H)). lia. Qed.

Lemma eval_truth_tframe : forall e st b st' lo hi, eval_truth oracle e st = Done (b, st') -> tframe lo hi st st'.
Proof.
  unfold eval_truth. intros e st b st' lo hi H. destruct (eval oracle e st) as [[v s1]| |] eqn:E; simpl in H; try discriminate.
  inversion H; subst. intros k _. eapply eval_tmp; eauto.
Qed.

Lemma Eval_boolish_all :
  (forall e st v st', Eval e st v st' -> boolish e = true -> exists b, v = VBool b) /\
  (forall es st vs st', EvalL es st vs st' -> True) /\
  (forall vl t st v st', EvalC vl t st v st' -> exists b, v = VBool b).
Proof.
  apply Eval_mutind; simpl; try discriminate; auto.
  - intros [z|b|] st; try discriminate. simpl. eauto.
  - intros [| | |] a st va s1 r _ _ U; try discriminate. inversion U. eauto.
  - intros op a b st va s1 _ IHa _ B. apply andb_prop in B. tauto.
  - intros op a b st va s1 v s2 _ _ _ _ IHb B. apply andb_prop in B. tauto.
  - intros c a b st vc s1 v s2 _ _ _ IHab B. apply andb_prop in B. destruct (truthy vc); tauto.
  - eauto.
  - eauto.
Qed.

Lemma boolish_val : forall e, boolish e = true -> forall st v st', eval oracle e st = Done (v, st') ->
  exists b, v = VBool b.
Proof. intros e B st v st' H. exact (proj1 Eval_boolish_all e st v st' (eval_Eval e st v st' H) B). Qed.

Lemma eval_truth_inv : forall e st b st', eval_truth oracle e st = Done (b, st') ->
  exists v, eval oracle e st = Done (v, st') /\ b = truthy v.
Proof.
  unfold eval_truth. intros e st b st' H. destruct (eval oracle e st) as [[v s1]| |]; simpl in H; try discriminate.
  inversion H; subst. eauto.
Qed.

Lemma eval_truth_not : forall a st b st', eval_truth oracle (EUnary UNot a) st = Done (b, st') ->
  eval_truth oracle a st = Done (negb b, st').
Proof.
  unfold eval_truth. simpl. intros a st b st'. destruct (eval oracle a st) as [[v s1]| |]; simpl; try discriminate.
  intros H. inversion H. rewrite negb_involutive. auto.
Qed.

Lemma eval_truth_bool : forall op a b st r st', eval_truth oracle (EBool op a b) st = Done (r, st') ->
  exists ra st1, eval_truth oracle a st = Done (ra, st1) /\
    match op with
    | BoAnd => if ra then eval_truth oracle b st1 = Done (r, st') else (r = false /\ st' = st1)
    | BoOr => if ra then (r = true /\ st' = st1) else eval_truth oracle b st1 = Done (r, st')
    end.
Proof.
  unfold eval_truth. intros op a b st r st'. simpl.
  destruct op; destruct (eval oracle a st) as [[v s1]| |]; simpl; try discriminate;
    destruct (truthy v) eqn:T; simpl; intros H; exists (truthy v), s1; rewrite T; split; auto.
  - inversion H. rewrite T in *. auto.
  - inversion H. rewrite T in *. auto.
Qed.

Lemma eval_truth_if : forall c a b st r st', eval_truth oracle (EIf c a b) st = Done (r, st') ->
  exists rc st1, eval_truth oracle c st = Done (rc, st1) /\
    eval_truth oracle (if rc then a else b) st1 = Done (r, st').
Proof.
  unfold eval_truth. intros c a b st r st'. simpl.
  destruct (eval oracle c st) as [[v s1]| |]; simpl; try discriminate.
  intros H. exists (truthy v), s1. split; auto. destruct (truthy v); auto.
Qed.

Lemma eval_truth_cmp_inv : forall e rest st b st',
  eval_truth oracle (ECmp e rest) st = Done (b, st') ->
  exists vl st1 v, eval oracle e st = Done (vl, st1) /\
    eval_ctail oracle vl rest st1 = Done (v, st') /\ b = truthy v.
Proof.
  unfold eval_truth. intros e rest st b st' H. simpl in H.
  destruct (eval oracle e st) as [[vl st1]| |] eqn:El; simpl in H; try discriminate.
  destruct (eval_ctail oracle vl rest st1) as [[v st2]| |] eqn:Ec; simpl in H; try discriminate.
  inversion H; subst. exists vl, st1, v. repeat split; auto.
Qed.

(* [ev] has the value [v], and no effect, in [s] and in every state that later blocks reach from it if they
   re-bind none of the variables [R] and use temporaries from [lo] on *)
Definition stays {V : Type} (ev : state -> res (V * state)) (v : V) (R : list nat) (lo : nat) (s : state) : Prop :=
  forall w hi s', lo <= hi -> mods w lo hi s s' -> (forall x, In x R -> ~ In x w) -> ev s' = Done (v, s').

Lemma stays_here : forall V (ev : state -> res (V * state)) v R lo s, stays ev v R lo s -> ev s = Done (v, s).
Proof. intros V ev v R lo s H. apply (H [] lo s (le_n lo) (mods_refl _ _ _ _)). auto. Qed.

Lemma pure_stays : forall e stc stp v stp1 lo, pure e = true -> nt e = true -> sim stc stp ->
  eval oracle e stp = Done (v, stp1) -> stays (eval oracle e) v (reads e) lo stc.
Proof.
  intros e stc stp v stp1 lo P N S X w hi stx _ (MU&_) D.
  (* [stx] has the variables that [e] reads as [stp] has them; a pure [e] does not look at the trace *)
  destruct (proj1 (Eval_agree_all (fun x => In x (reads e)) False) e stp v stp1 (eval_Eval _ _ _ _ X))
    with (st' := stx) as (s1&E&_).
  - split; [exact N|]. split; [auto | rewrite P; discriminate].
  - split; [|intros []]. intros x Hx. exact (eq_trans (MU x (D x Hx)) (proj2 S x)).
  - rewrite E, (pure_eval e P _ _ _ E). reflexivity.
Qed.

Corollary pure_eval_sim : forall e stc stp v stp1, pure e = true -> nt e = true -> sim stc stp ->
  eval oracle e stp = Done (v, stp1) -> eval oracle e stc = Done (v, stc).
Proof.
  intros e stc stp v stp1 P N S X. exact (stays_here _ _ _ _ 0 _ (pure_stays e stc stp v stp1 0 P N S X)).
Qed.

Lemma mods_from_sim : forall e stc stp v stp' stc' n n',
  sim stc stp -> sim stc' stp' -> eval oracle e stp = Done (v, stp') -> tframe n n' stc stc' ->
  mods (wtargets e) n n' stc stc'.
Proof.
  intros e stc stp v stp' stc' n n' (_&U) (_&U') X Tm. split; [|exact Tm].
  intros x Nx. rewrite U', (proj1 (eval_mods e stp v stp' 0 X) x Nx). auto.
Qed.

End Sim.
