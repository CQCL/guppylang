(** C03 — statement level: on a finished graph that carries the layout of a statement (ProofsLayout.v)
    the CFG run follows Python's execution of the statement ([lay_sem_at]), for any relation [Rel]
    between the two runs' states.  With [visit_lay] this gives [visit_spec], the simulation for
    CFGBuilder.visit_stmt / visit_stmts. *)
From Coq Require Import List.
From V.C03 Require Import PyAst PySem Cfg CfgSem Builder Frag ProofsBase ProofsLayout ProofsSemE.

Section Sem.
Variable oracle : trace -> nat -> list val -> val.
(* state of the CFG run vs state of Python's run: equal, or equal up to temporaries *)
Variable Rel : state -> state -> Prop.

(* what the statement level asks of the layout of a condition ([cruns]: from c0 the run reaches block t or f as
   Python finds [e] truthy or not) and of a value expression ([vruns]: it reaches c1, having re-bound no user variable
   but walrus targets of [e], and there the residual [e1] has Python's value) *)
Definition cruns (G : cfg) (e : expr) (c0 : nat * nat) (t f : nat) : Prop :=
  forall stc stp b stp' ret, Rel stc stp -> eval_truth oracle e stp = Done (b, stp') ->
  exists stc', steps oracle G (at_ c0 stc ret) (mkConfig (if b then t else f) 0 stc' ret) /\ Rel stc' stp'.

Definition vruns (G : cfg) (e : expr) (c0 c1 : nat * nat) (e1 : expr) : Prop :=
  forall stc stp v sp1 ret, Rel stc stp -> eval oracle e stp = Done (v, sp1) ->
  exists stm stc1, steps oracle G (at_ c0 stc ret) (at_ c1 stm ret) /\
    (forall x, ~ In x (wtargets e) -> fst stm (VU x) = fst stc (VU x)) /\
    eval oracle e1 stm = Done (v, stc1) /\ Rel stc1 sp1.

Variable layc : list block -> expr -> nat * nat -> nat -> nat -> Prop.
Variable layv : list block -> expr -> nat * nat -> nat * nat -> expr -> Prop.
Variable Tmp : nat -> nat -> Prop.
Hypothesis Tmp_refl : forall n, Tmp n n.
Hypothesis Tmp_trans : forall a b c, Tmp a b -> Tmp b c -> Tmp a c.
Notation lay_val := (lay_val layv).
Notation lay_s := (lay_s layc layv).
Notation lay_l := (lay_l layc layv).

Definition cond_spec (c : expr) : Prop :=
  cond_lay layc Tmp (fun _ => True) c /\
  forall G c0 t f, layc G c c0 t f -> cruns G c c0 t f.
Definition val_spec (e : expr) : Prop :=
  val_lay layv Tmp (fun _ => True) e /\
  forall G c0 c1 e1, layv G e c0 c1 e1 -> vruns G e c0 c1 e1.

Hypothesis Rel_read : forall c p x, Rel c p -> fst c (VU x) = fst p (VU x).
Hypothesis Rel_assign : forall t v c p p', Rel c p -> assign_target t v (fst p) = Some p' ->
  exists c', assign_target t v (fst c) = Some c' /\ Rel (c', snd c) (p', snd p).

(* a fragment of statements (lists), closed under sub-statements, whose conditions and value expressions meet the
   two specifications: [frag_stmt] and [lsafe_stmt] are the instances (ProofsBuild.v) *)
Variables (P : stmt -> bool) (Ps : stmts -> bool).
Hypothesis P_if : forall c b o, P (SIf c b o) = true -> cond_spec c /\ Ps b = true /\ Ps o = true.
Hypothesis P_while : forall c b o, P (SWhile c b o) = true -> cond_spec c /\ Ps b = true.
Hypothesis Ps_cons : forall s r, Ps (SCons s r) = true -> P s = true /\ Ps r = true.
Hypothesis P_value : forall s, P s = true ->
  match s with
  | SAug x _ e => val_spec e /\ ~ In x (wtargets e)
  | SAssign _ e | SExpr e | SReturn (Some e) => val_spec e
  | _ => True
  end.

Section Run.
Variable G : cfg.

(* where Python's outcome of a statement (list) leaves the CFG run *)
Definition osteps (c : config) (j : jumps) (e : option (nat * nat)) (o : outcome) (stp' : state) : Prop :=
  match o with
  | ONormal => exists c1 stc', e = Some c1 /\ steps oracle G c (at_ c1 stc' (c_ret c)) /\ Rel stc' stp'
  | OBreak => exists b stc', j_brk j = Some b /\ steps oracle G c (mkConfig b 0 stc' (c_ret c)) /\ Rel stc' stp'
  | OContinue => exists b stc', j_cont j = Some b /\ steps oracle G c (mkConfig b 0 stc' (c_ret c)) /\ Rel stc' stp'
  | OReturn v => exists stc', steps oracle G c (mkConfig (j_ret j) 0 stc' (Some v)) /\ Rel stc' stp'
  end.

Lemma osteps_prefix : forall c0 c j e o st',
  steps oracle G c0 c -> c_ret c = c_ret c0 -> osteps c j e o st' -> osteps c0 j e o st'.
Proof.
  intros c0 c j e o st' S R O. destruct o; simpl in *.
  - destruct O as (b'&sc&E&T&Sm). exists b', sc. split; auto. split; auto. rewrite <- R. eapply steps_trans; eauto.
  - destruct O as (b&sc&E&T&Sm). exists b, sc. split; auto. split; auto. rewrite <- R. eapply steps_trans; eauto.
  - destruct O as (b&sc&E&T&Sm). exists b, sc. split; auto. split; auto. rewrite <- R. eapply steps_trans; eauto.
  - destruct O as (sc&T&Sm). exists sc. split; auto. eapply steps_trans; eauto.
Qed.

Lemma osteps_joined : forall c j e1 e2 e o st', joined G e1 e2 e ->
  osteps c j e1 o st' \/ osteps c j e2 o st' -> osteps c j e o st'.
Proof.
  intros c j e1 e2 e o st' Jn. destruct o; try tauto. simpl. intros H.
  assert (K : exists a sc, (e1 = Some a \/ e2 = Some a) /\ steps oracle G c (at_ a sc (c_ret c)) /\ Rel sc st').
  { destruct H as [(a&sc&Ea&T&S)|(a&sc&Ea&T&S)]; exists a, sc; auto. }
  destruct K as (a&sc&Ea&T&S). destruct (joined_exit G e1 e2 e a Jn Ea) as [->|(m&Jm&->)].
  - exists a, sc. auto.
  - exists (m, 0), sc. split; [reflexivity|]. split; [|exact S].
    eapply steps_trans; [exact T | apply jump_steps; exact Jm].
Qed.

Definition stmt_sem_at (s : stmt) : Prop := forall c j e, lay_s G s c j e ->
  forall fuel stc stp o stp' ret, Rel stc stp -> exec oracle fuel s stp = Done (o, stp') ->
  osteps (at_ c stc ret) j e o stp'.
Definition stmts_sem_at (ss : stmts) : Prop := forall c j e, lay_l G ss c j e ->
  forall fuel stc stp o stp' ret, Rel stc stp -> exec_list oracle fuel ss stp = Done (o, stp') ->
  osteps (at_ c stc ret) j e o stp'.

Lemma sem_nil : stmts_sem_at SNil.
Proof.
  intros c j e -> fuel stc stp o stp' ret S X. destruct fuel; simpl in X; try discriminate.
  inversion X; subst. exists c, stc. split; auto. split; auto. constructor.
Qed.

Lemma sem_cons : forall s r, stmt_sem_at s -> stmts_sem_at r -> stmts_sem_at (SCons s r).
Proof.
  intros s r Hs Hr c j e (e1&L1&L2) fuel stc stp o stp' ret S X.
  destruct fuel; simpl in X; try discriminate.
  destruct (exec oracle fuel s stp) as [[o1 st1]| |] eqn:X1; simpl in X; try discriminate.
  pose proof (Hs c j e1 L1 fuel stc stp o1 st1 ret S X1) as T1.
  destruct o1; try (inversion X; subst; exact T1).
  destruct T1 as (c1&sc1&->&T1&S1).
  eapply osteps_prefix; [exact T1 | reflexivity |]. exact (Hr c1 j e L2 fuel sc1 st1 o stp' ret S1 X).
Qed.

Lemma sem_pass : stmt_sem_at SPass.
Proof.
  intros c j e -> fuel stc stp o stp' ret S X. destruct fuel; simpl in X; try discriminate.
  inversion X; subst. exists c, stc. split; auto. split; auto. constructor.
Qed.

Lemma sem_break : stmt_sem_at SBreak.
Proof.
  intros c j e (b&Eb&Jc&->) fuel stc stp o stp' ret S X. destruct fuel; simpl in X; try discriminate.
  inversion X; subst. exists b, stc. split; auto. split; auto. apply jump_steps. exact Jc.
Qed.

Lemma sem_continue : stmt_sem_at SContinue.
Proof.
  intros c j e (b&Eb&Jc&->) fuel stc stp o stp' ret S X. destruct fuel; simpl in X; try discriminate.
  inversion X; subst. exists b, stc. split; auto. split; auto. apply jump_steps. exact Jc.
Qed.

Lemma sem_return_none : stmt_sem_at (SReturn None).
Proof.
  intros c j e (A&Jc&->) fuel stc stp o stp' ret S X. destruct fuel; simpl in X; try discriminate.
  inversion X; subst; clear X. exists stc. split; auto.
  eapply steps_trans; [exact (stmt_step oracle G c _ stc stc (Some VNone) ret A eq_refl)|]. apply jump_steps. exact Jc.
Qed.

Lemma sem_if : forall x body orelse, cond_spec x -> stmts_sem_at body -> stmts_sem_at orelse ->
  stmt_sem_at (SIf x body orelse).
Proof.
  intros x body orelse (_&Hx) Hb Ho c j e (t&f&e1&e2&C&L1&L2&Jn) fuel stc stp o stp' ret S X.
  destruct fuel; simpl in X; try discriminate.
  destruct (eval_truth oracle x stp) as [[b st1]| |] eqn:Ec; simpl in X; try discriminate.
  destruct (Hx G c t f C stc stp b st1 ret S Ec) as (stc1&T&S1).
  eapply osteps_prefix; [exact T | reflexivity |]. apply (osteps_joined _ _ _ _ _ _ _ Jn).
  destruct b; [left; exact (Hb _ _ _ L1 fuel stc1 st1 o stp' ret S1 X)
              | right; exact (Ho _ _ _ L2 fuel stc1 st1 o stp' ret S1 X)].
Qed.

(* head block h, body from block b, continuing in block t *)
Lemma while_runs : forall c body h b t j eb,
  cruns G c (h, 0) b t ->
  (forall fuel stc stp o stp' ret, Rel stc stp -> exec_list oracle fuel body stp = Done (o, stp') ->
     osteps (mkConfig b 0 stc ret) (mkJ (j_ret j) (Some h) (Some t)) eb o stp') ->
  (forall a, eb = Some a -> forall st ret, steps oracle G (at_ a st ret) (mkConfig h 0 st ret)) ->
  forall fuel stc stp o stp' ret, Rel stc stp -> exec oracle fuel (SWhile c body SNil) stp = Done (o, stp') ->
  osteps (mkConfig h 0 stc ret) (mkJ (j_ret j) None None) (Some (t, 0)) o stp'.
Proof.
  intros c body h b t j eb Cond Body Back.
  induction fuel as [|fuel IH]; intros stc stp o stp' ret S X; simpl in X; try discriminate.
  destruct (eval_truth oracle c stp) as [[v st1]| |] eqn:Ec; simpl in X; try discriminate.
  destruct (Cond stc stp v st1 ret S Ec) as (stc1&T&S1).
  eapply osteps_prefix; [exact T | reflexivity |]. destruct v.
  - destruct (exec_list oracle fuel body st1) as [[o2 st2]| |] eqn:Xb; simpl in X; try discriminate.
    pose proof (Body fuel stc1 st1 o2 st2 ret S1 Xb) as OS.
    destruct o2; simpl in OS.
    + (* the body ends normally: over the back edge to the head, and again *)
      destruct OS as (a&stc2&Eq&T2&S2).
      eapply osteps_prefix; [exact (steps_trans oracle _ _ _ _ T2 (Back a Eq stc2 ret)) | reflexivity |].
      exact (IH stc2 st2 o stp' ret S2 X).
    + destruct OS as (x&stc2&Eq&T2&S2). inversion Eq; subst x. inversion X; subst. exists (t, 0), stc2. auto.
    + destruct OS as (x&stc2&Eq&T2&S2). inversion Eq; subst x.
      eapply osteps_prefix; [exact T2 | reflexivity |]. exact (IH stc2 st2 o stp' ret S2 X).
    + destruct OS as (stc2&T2&S2). inversion X; subst. exists stc2. auto.
  - destruct fuel; simpl in X; try discriminate. inversion X; subst. exists (t, 0), stc1. split; auto. split; auto. constructor.
Qed.

Lemma sem_while : forall x body orelse, cond_spec x -> stmts_sem_at body -> stmt_sem_at (SWhile x body orelse).
Proof.
  intros x body orelse (_&Hx) Hb c j e (->&h&b&t&eb&Jc&C&Lb&Bk&->) fuel stc stp o stp' ret S X.
  pose proof (while_runs x body h b t j eb (Hx G _ b t C) (Hb _ _ _ Lb)
                (fun a Ea st r => jump_steps oracle G a h st r (Bk a Ea)) fuel stc stp o stp' ret S X) as LP.
  eapply osteps_prefix; [exact (jump_steps oracle G c h stc ret Jc) | reflexivity |].
  destruct o; try exact LP; destruct LP as (x0&_&E&_); discriminate.
Qed.

Lemma sem_value : forall x c mk c2 stc stp v sp1 ret, val_spec x -> lay_val G x c mk c2 ->
  Rel stc stp -> eval oracle x stp = Done (v, sp1) ->
  exists x1 (stm stc1 : state),
    (forall x0, ~ In x0 (wtargets x) -> fst stm (VU x0) = fst stc (VU x0)) /\
    eval oracle x1 stm = Done (v, stc1) /\ Rel stc1 sp1 /\
    forall stf rv, exec_simple oracle (mk x1) stm = Done (stf, rv) ->
      steps oracle G (at_ c stc ret) (at_ c2 stf (match rv with Some w => Some w | None => ret end)).
Proof.
  intros x c mk c2 stc stp v sp1 ret (_&Hx) (c1&x1&V&A&->) S X.
  destruct (Hx G c c1 x1 V stc stp v sp1 ret S X) as (stm&stc1&T&K&R1&S1).
  exists x1, stm, stc1. split; auto. split; auto. split; auto.
  intros stf rv XS. eapply steps_trans; [exact T|]. exact (stmt_step oracle G c1 _ stm stf rv ret A XS).
Qed.

Lemma sem_assign : forall t x, val_spec x -> stmt_sem_at (SAssign t x).
Proof.
  intros t x Hx c j e (c2&V&->) fuel stc stp o stp' ret S X.
  destruct fuel; simpl in X; try discriminate.
  destruct (eval oracle x stp) as [[v sp1]| |] eqn:Ev; simpl in X; try discriminate.
  destruct (assign_target t v (fst sp1)) as [p'|] eqn:AT; simpl in X; try discriminate.
  inversion X; subst; clear X.
  destruct (sem_value x c _ c2 stc stp v sp1 ret Hx V S Ev) as (x1&stm&stc1&K&R1&S1&Push).
  destruct (Rel_assign t v stc1 sp1 p' S1 AT) as (c'&AT'&S').
  exists c2, (c', snd stc1). split; auto. split; auto.
  apply (Push (c', snd stc1) None). simpl. rewrite R1. simpl. rewrite AT'. reflexivity.
Qed.

(* x op= e reads x before e is evaluated: the lifted parts of e must not re-bind x *)
Lemma sem_aug : forall x op y, val_spec y -> ~ In x (wtargets y) -> stmt_sem_at (SAug x op y).
Proof.
  intros x op y Hy NW c j e (c2&V&->) fuel stc stp o stp' ret S X.
  destruct fuel; simpl in X; try discriminate.
  destruct (fst stp (VU x)) as [vx|] eqn:Lx; simpl in X; try discriminate.
  destruct (eval oracle y stp) as [[v sp1]| |] eqn:Ev; simpl in X; try discriminate.
  destruct (eval_binop op vx v) as [rr|] eqn:Bo; simpl in X; try discriminate.
  inversion X; subst; clear X.
  destruct (sem_value y c _ c2 stc stp v sp1 ret Hy V S Ev) as (y1&stm&stc1&K&R1&S1&Push).
  assert (Lm: fst stm (VU x) = Some vx) by (rewrite (K x NW), (Rel_read _ _ x S); exact Lx).
  destruct (Rel_assign (TName (VU x)) rr stc1 sp1 _ S1 eq_refl) as (c'&AT'&S'). inversion AT'; subst c'.
  exists c2, (upd (fst stc1) (VU x) rr, snd stc1). split; auto. split; auto.
  apply (Push _ None). simpl. rewrite Lm, R1. simpl. rewrite Bo. reflexivity.
Qed.

Lemma sem_expr : forall x, val_spec x -> stmt_sem_at (SExpr x).
Proof.
  intros x (_&Hx) c j e (c1&x1&V&H) fuel stc stp o stp' ret S X.
  destruct fuel; simpl in X; try discriminate.
  destruct (eval oracle x stp) as [[v sp1]| |] eqn:Ev; simpl in X; try discriminate. inversion X; subst; clear X.
  destruct (Hx G c c1 x1 V stc stp v stp' ret S Ev) as (stm&stc1&T&K&R1&S1).
  destruct (is_tmp_name x1) eqn:TN.
  - (* a bare temporary is not in the block; evaluating a name has no effect *)
    subst e. destruct x1; simpl in TN; try discriminate.
    simpl in R1. destruct (fst stm x0); inversion R1; subst. exists c1, stc1. auto.
  - destruct H as (A&->). exists (next c1), stc1. split; auto. split; auto.
    eapply steps_trans; [exact T|]. apply (stmt_step oracle G c1 _ stm stc1 None ret A). simpl. rewrite R1. reflexivity.
Qed.

Lemma sem_return : forall x, val_spec x -> stmt_sem_at (SReturn (Some x)).
Proof.
  intros x Hx c j e (c2&V&Jc&->) fuel stc stp o stp' ret S X.
  destruct fuel; simpl in X; try discriminate.
  destruct (eval oracle x stp) as [[v sp1]| |] eqn:Ev; simpl in X; try discriminate. inversion X; subst; clear X.
  destruct (sem_value x c _ c2 stc stp v stp' ret Hx V S Ev) as (x1&stm&stc1&K&R1&S1&Push).
  exists stc1. split; auto.
  eapply steps_trans; [apply (Push stc1 (Some v)); simpl; rewrite R1; reflexivity|]. apply jump_steps. exact Jc.
Qed.

Theorem lay_sem_at : (forall s, P s = true -> stmt_sem_at s) /\ (forall ss, Ps ss = true -> stmts_sem_at ss).
Proof.
  apply stmt_mutind; intros.
  - apply sem_assign. exact (P_value _ H).
  - destruct (P_value _ H). apply sem_aug; auto.
  - apply sem_expr. exact (P_value _ H).
  - destruct (P_if _ _ _ H1) as (Hc&Hb&Ho). apply sem_if; auto.
  - destruct (P_while _ _ _ H1) as (Hc&Hb). apply sem_while; auto.
  - apply sem_break.
  - apply sem_continue.
  - apply sem_pass.
  - destruct e; [apply sem_return; exact (P_value _ H) | apply sem_return_none].
  - apply sem_nil.
  - destruct (Ps_cons _ _ H1). apply sem_cons; auto.
Qed.
End Run.

Definition stmt_sem (s : stmt) : Prop := forall G, stmt_sem_at G s.
Definition stmts_sem (ss : stmts) : Prop := forall G, stmts_sem_at G ss.
Definition stmt_spec (s : stmt) : Prop := stmt_lay layc layv Tmp (fun _ => True) s /\ stmt_sem s.
Definition stmts_spec (ss : stmts) : Prop := stmts_lay layc layv Tmp (fun _ => True) ss /\ stmts_sem ss.

Theorem visit_spec : (forall s, P s = true -> stmt_spec s) /\ (forall ss, Ps ss = true -> stmts_spec ss).
Proof.
  assert (L : (forall s, P s = true -> stmt_lay layc layv Tmp (fun _ => True) s) /\
              (forall ss, Ps ss = true -> stmts_lay layc layv Tmp (fun _ => True) ss)).
  { apply (visit_lay layc layv Tmp Tmp_refl Tmp_trans (fun _ => True)
             (fun _ _ => I) (fun _ _ _ _ _ => I) (fun _ _ _ _ _ => I) (fun _ _ _ _ => I) P Ps).
    - intros c b o H. destruct (P_if c b o H) as ((Hc&_)&K). auto.
    - intros c b o H. destruct (P_while c b o H) as ((Hc&_)&K). auto.
    - exact Ps_cons.
    - intros s H. specialize (P_value s H). unfold val_spec in P_value. destruct s; try tauto. destruct e; tauto. }
  split; intros; (split; [apply L | intros G; apply (lay_sem_at G)]); auto.
Qed.
End Sem.
