(** C03 — the shape of the graph ExprBuilder and BranchBuilder build for an expression, as predicates
    on the finished graph ([lay_e] in value position, [lay_b] in branch position), one combinator per
    way the builder composes its parts.  [build_lay]: every successful run of the builder leaves the
    layout of its argument in its result graph and in all that extend it. *)
From Coq Require Import List.
From V.C03 Require Import PyAst Cfg Builder ProofsBase ProofsExpr ProofsBranch ProofsLayout.
Import ListNotations.

(* [v c0 n a c1 n1]: from position c0 blocks lead to position c1, where [a] stands for the value;
   the temporaries n .. n1-1 are used on the way.
   [b c0 n t f n1]: from position c0 blocks lead to block t or block f. *)
Definition vlay (A : Type) : Type := nat * nat -> nat -> A -> nat * nat -> nat -> Prop.
Definition blay : Type := nat * nat -> nat -> nat -> nat -> nat -> Prop.

Section On.
Variable G : list block.

Definition lay_leaf {A} (a : A) : vlay A := fun c0 n a1 c1 n1 => a1 = a /\ c1 = c0 /\ n1 = n.

Definition lay_map {A B} (f : A -> B) (v : vlay A) : vlay B :=
  fun c0 n b c1 n1 => exists a, v c0 n a c1 n1 /\ b = f a.

Definition lay_seq {A B C} (f : A -> B -> C) (va : vlay A) (vb : vlay B) : vlay C :=
  fun c0 n x c1 n1 => exists a cm nm b, va c0 n a cm nm /\ vb cm nm b c1 n1 /\ x = f a b.

Definition lay_unary (op : unop) (a : expr) (va : vlay expr) : vlay expr :=
  match op, a with
  | UNeg, EConst c => match neg_const c with Some c' => lay_leaf (EConst c') | None => lay_map (EUnary op) va end
  | _, _ => lay_map (EUnary op) va
  end.

Definition lay_walrus (x : nat) (va : vlay expr) : vlay expr :=
  fun c0 n e1 c1 n1 => exists a1 ca, va c0 n a1 ca n1 /\ at_stmt G ca (SAssign (TName (VU x)) a1) /\
    e1 = EName (VU x) /\ c1 = next ca.

(* [F] is the identity in BranchBuilder.generic_visit, a comparison in a chain *)
Definition lay_gen {A} (F : A -> expr) (v : vlay A) : blay :=
  fun c0 n t f n1 => exists a c1, v c0 n a c1 n1 /\ branch G c1 (F a) t f.

Definition lay_ifv (b : blay) (va vb : vlay expr) : vlay expr :=
  fun c0 n e1 c1 n1 => exists t f nc a1 ca na b1 cb nb m,
    b c0 n t f nc /\ va (t, 0) nc a1 ca na /\ vb (f, 0) na b1 cb nb /\
    at_stmt G ca (tmp_assign nb a1) /\ jump G (next ca) m /\
    at_stmt G cb (tmp_assign nb b1) /\ jump G (next cb) m /\
    e1 = EName (VT nb) /\ c1 = (m, 0) /\ n1 = S nb.

(* ExprBuilder.generic_visit on and / or / chains: True or False merged through a temporary *)
Definition lay_lift (b : blay) : vlay expr :=
  lay_ifv b (lay_leaf (EConst (CBool true))) (lay_leaf (EConst (CBool false))).

Definition lay_bool (op : boolop) (ba bb : blay) : blay :=
  fun c0 n t f n1 => exists x na,
    match op with BoAnd => ba c0 n x f na | BoOr => ba c0 n t x na end /\ bb (x, 0) na t f n1.

Definition lay_ifb (bc ba bb : blay) : blay :=
  fun c0 n t f n1 => exists tb eb nc na,
    bc c0 n tb eb nc /\ ba (tb, 0) nc t f na /\ bb (eb, 0) na t f n1.

Definition lay_chain (vl : vlay expr) (ct : expr -> blay) : blay :=
  fun c0 n t f n1 => exists l1 c1 nl, vl c0 n l1 c1 nl /\ ct l1 c1 nl t f n1.

Fixpoint lay_e (e : expr) {struct e} : vlay expr :=
  match e with
  | EConst _ | EName _ => lay_leaf e
  | EUnary op a => lay_unary op a (lay_e a)
  | EBin op a b => lay_seq (EBin op) (lay_e a) (lay_e b)
  | ECmp l rest =>
      match rest with
      | CLast op r => lay_seq (fun l1 r1 => ECmp l1 (CLast op r1)) (lay_e l) (lay_e r)
      | CMore _ _ _ => lay_lift (lay_chain (lay_e l) (lay_ct rest))
      end
  | EBool op a b => lay_lift (lay_bool op (lay_b a) (lay_b b))
  | EIf c a b => lay_ifv (lay_b c) (lay_e a) (lay_e b)
  | EWalrus x a => lay_walrus x (lay_e a)
  | ECall f args => lay_map (ECall f) (lay_es args)
  | ETuple es => lay_map ETuple (lay_es es)
  end
with lay_es (es : exprs) {struct es} : vlay exprs :=
  match es with
  | ENil => lay_leaf ENil
  | ECons e r => lay_seq ECons (lay_e e) (lay_es r)
  end
(* the new block x evaluates the operand m again; m is lift-free, [fold_neg m] stands for it *)
with lay_ct (rest : ctail) (l' : expr) {struct rest} : blay :=
  match rest with
  | CLast op r => lay_gen (fun r1 => ECmp l' (CLast op r1)) (lay_e r)
  | CMore op m rest' =>
      fun c0 n t f n1 => exists x,
        branch G c0 (ECmp l' (CLast op (fold_neg m))) x f /\
        lay_ct rest' (fold_neg (residue m)) (x, 0) n t f n1
  end
with lay_b (e : expr) {struct e} : blay :=
  match e with
  | EConst (CBool b) => fun c0 n t f n1 => jump G c0 (if b then t else f) /\ n1 = n
  | EConst _ | EName _ => lay_gen (fun x => x) (lay_leaf e)
  | EUnary UNot a => fun c0 n t f n1 => lay_b a c0 n f t n1
  | EUnary op a => lay_gen (fun x => x) (lay_unary op a (lay_e a))
  | EBin op a b => lay_gen (fun x => x) (lay_seq (EBin op) (lay_e a) (lay_e b))
  | ECmp l rest =>
      match rest with
      | CLast op r => lay_gen (fun x => x) (lay_seq (fun l1 r1 => ECmp l1 (CLast op r1)) (lay_e l) (lay_e r))
      | CMore _ _ _ => lay_chain (lay_e l) (lay_ct rest)
      end
  | EBool op a b => lay_bool op (lay_b a) (lay_b b)
  | EIf c a b => lay_ifb (lay_b c) (lay_b a) (lay_b b)
  | EWalrus x a => lay_gen (fun x => x) (lay_walrus x (lay_e a))
  | ECall fn args => lay_gen (fun x => x) (lay_map (ECall fn) (lay_es args))
  | ETuple es => lay_gen (fun x => x) (lay_map ETuple (lay_es es))
  end.

End On.

(* [L] takes no block and no temporary and leaves [a] for the value: the layout of a lift-free expression
   ([lay_lift_free]) *)
Definition still {A} (L : vlay A) (a : A) : Prop :=
  forall c0 n a1 c1 n1, L c0 n a1 c1 n1 -> a1 = a /\ c1 = c0 /\ n1 = n.

Lemma leaf_still : forall A (a : A), still (lay_leaf a) a.
Proof. intros A a c0 n a1 c1 n1 H. exact H. Qed.

Lemma map_still : forall A B (f : A -> B) L a, still L a -> still (lay_map f L) (f a).
Proof. intros A B f L a H c0 n b c1 n1 (a1&V&->). destruct (H _ _ _ _ _ V) as (->&E). split; [reflexivity | exact E]. Qed.

Lemma seq_still : forall A B C (f : A -> B -> C) La Lb a b, still La a -> still Lb b -> still (lay_seq f La Lb) (f a b).
Proof.
  intros A B C f La Lb a b Ha Hb c0 n x c1 n1 (a1&cm&nm&b1&Va&Vb&->).
  destruct (Ha _ _ _ _ _ Va) as (->&->&->). destruct (Hb _ _ _ _ _ Vb) as (->&E). split; [reflexivity | exact E].
Qed.

Lemma unary_still : forall op a L, still L (fold_neg a) -> still (lay_unary op a L) (fold_neg (EUnary op a)).
Proof.
  intros op a L H. pose proof (map_still _ _ (EUnary op) L _ H) as HM. unfold lay_unary.
  destruct op; auto. destruct a; auto. simpl. destruct (neg_const c); [apply leaf_still | exact HM].
Qed.

Lemma lay_lift_free : forall G,
  (forall e, lift_free e = true -> still (lay_e G e) (fold_neg e)) /\
  (forall es, lift_free_list es = true -> still (lay_es G es) (fold_neg_list es)) /\
  (forall t, match t with CLast _ r => lift_free r = true -> still (lay_e G r) (fold_neg r) | CMore _ _ _ => True end).
Proof.
  intros G. apply expr_mutind; simpl; try discriminate; auto.
  - intros c _. apply leaf_still.
  - intros x _. apply leaf_still.
  - intros op a Ha LF. exact (unary_still op a _ (Ha LF)).
  - intros op a Ha b Hb LF. apply andb_prop in LF. exact (seq_still _ _ _ (EBin op) _ _ _ _ (Ha (proj1 LF)) (Hb (proj2 LF))).
  - intros l Hl [op r | op m rest] Hr LF; [|discriminate]. apply andb_prop in LF.
    exact (seq_still _ _ _ (fun l1 r1 => ECmp l1 (CLast op r1)) _ _ _ _ (Hl (proj1 LF)) (Hr (proj2 LF))).
  - intros f args Hs LF. exact (map_still _ _ (ECall f) _ _ (Hs LF)).
  - intros es Hs LF. exact (map_still _ _ ETuple _ _ (Hs LF)).
  - intros _. apply leaf_still.
  - intros e He es Hs LF. apply andb_prop in LF. exact (seq_still _ _ _ ECons _ _ _ _ (He (proj1 LF)) (Hs (proj2 LF))).
Qed.

(* every successful run of the value builder [m] (branch builder, for [bbuilds]) from the cursor (bb, k) leaves the
   layout [L] from there, in its result graph and in all that extend it *)
Definition vbuilds {A} (m : nat -> M (A * nat)) (L : list block -> vlay A) : Prop :=
  forall bb g n a bb1 s1, m bb (mkB g n) = BOk (a, bb1) s1 -> forall k, here g bb k ->
  exists g1 n1, s1 = mkB g1 n1 /\ grows g bb g1 /\ rok g bb g1 (Some bb1) /\
    forall G, ext g1 G -> L G (bb, k) n a (bb1, slen g1 bb1) n1.
Definition bbuilds (m : nat -> nat -> nat -> M unit) (L : list block -> blay) : Prop :=
  forall bb t f g n s', m bb t f (mkB g n) = BOk tt s' -> forall k, here g bb k ->
  exists g' n', s' = mkB g' n' /\ grows g bb g' /\ forall G, ext g' G -> L G (bb, k) n t f n'.

Lemma ret_builds : forall A (a : A), vbuilds (fun bb => ret (a, bb)) (fun _ => lay_leaf a).
Proof.
  intros A a bb g n a' bb1 s1 V k ((O&<-)&Nb&_). inversion V; subst. exists g, n.
  split; [reflexivity|]. split; [apply grows_refl|].
  split; [split; [exact O | split; [exact Nb | left; reflexivity]]|]. intros G _. repeat split.
Qed.

Lemma map_builds : forall A B (f : A -> B) m L, vbuilds m L ->
  vbuilds (fun bb => LET r <- m bb IN ret (f (fst r), snd r)) (fun G => lay_map f (L G)).
Proof.
  intros A B f m L H bb g n b bb1 s1 V k O. apply bind_inv in V. destruct V as ([a x]&s&V&R). inversion R; subst.
  destruct (H _ _ _ _ _ _ V k O) as (g1&n1&->&Gr&R1&Lay). exists g1, n1.
  repeat (split; [assumption || reflexivity|]). intros G E. exists a. split; [exact (Lay G E) | reflexivity].
Qed.

Lemma seq_builds : forall A B C (f : A -> B -> C) ma mb La Lb, vbuilds ma La -> vbuilds mb Lb ->
  vbuilds (fun bb => LET r1 <- ma bb IN LET r2 <- mb (snd r1) IN ret (f (fst r1) (fst r2), snd r2))
          (fun G => lay_seq f (La G) (Lb G)).
Proof.
  intros A B C f ma mb La Lb Ha Hb bb g n x bb2 s2 V k O.
  apply bind_inv in V. destruct V as ([a bb1]&s1&Va&V). apply bind_inv in V. destruct V as ([b bbx]&sx&Vb&R).
  inversion R; subst. simpl in Vb.
  destruct (Ha _ _ _ _ _ _ Va k O) as (g1&n1&->&Gr1&R1&L1).
  destruct (Hb _ _ _ _ _ _ Vb _ (rok_here _ _ _ _ (proj2 (proj2 O)) Gr1 R1)) as (g2&n2&->&Gr2&R2&L2).
  exists g2, n2. split; [reflexivity|]. destruct (rok_then _ _ _ (Some bb1) _ _ Gr1 R1 Gr2 R2) as (Gr&Rk).
  split; [exact Gr|]. split; [exact Rk|]. intros G E. exists a, (bb1, slen g1 bb1), n1, b.
  split; [exact (L1 G (ext_trans _ _ _ (grows_ext _ _ _ Gr2) E)) | split; [exact (L2 G E) | reflexivity]].
Qed.

Lemma unary_builds : forall op a ra L, vbuilds ra L -> vbuilds (bx_unary op a ra) (fun G => lay_unary op a (L G)).
Proof.
  intros op a ra L H. pose proof (map_builds _ _ (EUnary op) ra L H) as HM. unfold bx_unary, lay_unary.
  destruct op; auto. destruct a; auto. destruct (neg_const c); auto. apply ret_builds.
Qed.

Lemma walrus_builds : forall x ra L, vbuilds ra L -> vbuilds (bx_walrus x ra) (fun G => lay_walrus G x (L G)).
Proof.
  intros x ra L H bb g n e1 bb1 s1 V k O. unfold bx_walrus in V.
  apply bind_inv in V. destruct V as ([a1 xa]&s&V&R).
  destruct (H _ _ _ _ _ _ V k O) as (g1&n1&->&Gr&R1&Lay). inversion R; subst. simpl.
  destruct (push_at g bb g1 bb1 (SAssign (TName (VU x)) a1) Gr R1) as (Gr2&R2&E12&A&SL).
  eexists _, n1. split; [reflexivity|]. split; [exact Gr2|]. split; [exact R2|].
  intros G E. exists a1, (bb1, slen g1 bb1). split; [exact (Lay G (ext_trans _ _ _ E12 E))|].
  split; [exact (at_stmt_ext _ _ _ _ E A)|]. split; [reflexivity|]. unfold next. simpl. rewrite SL. reflexivity.
Qed.

Lemma gen_builds : forall A (F : A -> expr) v L, vbuilds v L ->
  bbuilds (fun bb t f => LET r <- v bb IN close_branch (snd r) (F (fst r)) f t) (fun G => lay_gen G F (L G)).
Proof.
  intros A F v L H bb t f g n s' V k O. apply bind_inv in V. destruct V as ([a bb1]&s&V&C).
  destruct (H _ _ _ _ _ _ V k O) as (g1&n1&->&Gr&(O1&N1&D)&Lay). simpl in C. rewrite close_branch_eq in C. inversion C; subst.
  pose proof (grows_close g1 bb1 (F a) f t O1) as Gc.
  eexists _, n1. split; [reflexivity|]. split; [exact (grows_trans _ _ _ _ _ Gr Gc D)|].
  intros G E. exists a, (bb1, slen g1 bb1). split; [exact (Lay G (ext_trans _ _ _ (grows_ext _ _ _ Gc) E))|].
  exact (branch_ext _ _ _ _ _ _ E (branch_close _ _ _ _ _ _ (opn_at_slen _ _ O1) N1)).
Qed.

(* [ext] says nothing of dummy successors: the dummy edge to the target not taken is not part of
   the position *)
Lemma jump_link_dummy : forall g bb k t d, opn_at g bb k -> bb <> exit_idx ->
  jump (upd_nth bb (add_dummy d) (upd_nth bb (add_succ t) g)) (bb, k) t.
Proof.
  intros g bb k t d A N. eapply jump_ext; [eapply grows_ext, (grows_dummy _ bb) | exact (jump_link _ _ _ _ A N)].
Qed.

Lemma const_builds : forall b : bool,
  bbuilds (fun bb t f => DO link bb (if b then t else f) THEN dummy_link bb (if b then f else t))
          (fun G c0 n t f n1 => jump G c0 (if b then t else f) /\ n1 = n).
Proof.
  intros b bb t f g n s' V k (O&Nb&_). inversion V; subst. eexists _, n. split; [reflexivity|]. split.
  - exact (grows_trans _ _ _ _ _ (grows_link _ _ _ (proj1 O)) (grows_dummy _ bb _ _) (or_introl eq_refl)).
  - intros G E. split; [exact (jump_ext _ _ _ _ E (jump_link_dummy _ _ _ _ _ O Nb)) | reflexivity].
Qed.

Lemma bool_builds : forall op ba bb_ La Lb, bbuilds ba La -> bbuilds bb_ Lb ->
  bbuilds (br_bool op ba bb_) (fun G => lay_bool op (La G) (Lb G)).
Proof.
  intros op ba bb_ La Lb Ha Hb bb t f g n s' V k O. unfold br_bool in V. apply new_bind in V.
  apply bind_inv in V. destruct V as ([]&s2&Va&Vb). destruct (one_new g bb k O) as (O1&_&_&_&K). set (x := length g) in *.
  assert (exists g2 n2, s2 = mkB g2 n2 /\ grows (g ++ [empty_block]) bb g2 /\ forall G, ext g2 G ->
            match op with BoAnd => La G (bb, k) n x f n2 | BoOr => La G (bb, k) n t x n2 end) as (g2&n2&->&Gr2&L2).
  { destruct op; exact (Ha _ _ _ _ _ _ Va k O1). }
  destruct (K g2 Gr2) as (Ox&K2). destruct (Hb _ _ _ _ _ _ Vb 0 Ox) as (g3&n3&->&Gr3&L3).
  exists g3, n3. split; [reflexivity|]. split; [exact (K2 g3 Gr3)|].
  intros G E. exists x, n2. split; [exact (L2 G (ext_trans _ _ _ (grows_ext _ _ _ Gr3) E)) | exact (L3 G E)].
Qed.

Lemma ifb_builds : forall bc ba bb_ Lc La Lb, bbuilds bc Lc -> bbuilds ba La -> bbuilds bb_ Lb ->
  bbuilds (fun bb t f => LET tb <- new_bb IN LET eb <- new_bb IN DO bc bb tb eb THEN DO ba tb t f THEN bb_ eb t f)
          (fun G => lay_ifb (Lc G) (La G) (Lb G)).
Proof.
  intros bc ba bb_ Lc La Lb Hc Ha Hb bb t f g n s' V k O. apply two_new_bind in V.
  apply bind_inv in V. destruct V as ([]&s3&Vc&V). apply bind_inv in V. destruct V as ([]&s4&Va&Vb).
  destruct (diamond g bb k O) as (O2&_&_&K).
  destruct (Hc _ _ _ _ _ _ Vc k O2) as (g3&n3&->&Gr3&L3). destruct (K g3 Gr3) as (OT&K3).
  destruct (Ha _ _ _ _ _ _ Va 0 OT) as (g4&n4&->&Gr4&L4). destruct (K3 g4 None Gr4 I) as (OE&K4).
  destruct (Hb _ _ _ _ _ _ Vb 0 OE) as (g5&n5&->&Gr5&L5). destruct (K4 g5 None Gr5 I) as (G05&E35&E45&_).
  exists g5, n5. split; [reflexivity|]. split; [exact G05|].
  intros G E. exists (length g), (S (length g)), n3, n4.
  split; [exact (L3 G (ext_trans _ _ _ E35 E))|]. split; [exact (L4 G (ext_trans _ _ _ E45 E)) | exact (L5 G E)].
Qed.

(* ExprBuilder.visit_IfExp; with constants as the two values, ExprBuilder.generic_visit ([lift_bool]) *)
Definition bx_ifv (br : nat -> nat -> nat -> M unit) (va vb : nat -> M (expr * nat)) (bb : nat) : M (expr * nat) :=
  LET ib <- new_bb IN LET eb <- new_bb IN
  DO br bb ib eb THEN
  LET ra <- va ib IN
  LET rb <- vb eb IN
  LET tmp <- fresh_tmp IN
  DO add_stmt (snd ra) (tmp_assign tmp (fst ra)) THEN
  DO add_stmt (snd rb) (tmp_assign tmp (fst rb)) THEN
  LET m <- new_bb IN DO link (snd ra) m THEN DO link (snd rb) m THEN
  ret (EName (VT tmp), m).

Lemma two_push : forall g bb g5 a b sa sb, grows g bb g5 -> rok g bb g5 (Some a) -> rok g bb g5 (Some b) -> a <> b ->
  let g7 := upd_nth b (push_stmt sb) (upd_nth a (push_stmt sa) g5) in
  grows g bb g7 /\ rok g bb g7 (Some a) /\ rok g bb g7 (Some b) /\ ext g5 g7 /\ length g7 = length g5 /\
  at_stmt g7 (a, slen g5 a) sa /\ slen g7 a = S (slen g5 a) /\ at_stmt g7 (b, slen g5 b) sb /\ slen g7 b = S (slen g5 b).
Proof.
  intros g bb g5 a b sa sb Gr Ra Rb Nab g7. set (g6 := upd_nth a (push_stmt sa) g5) in *.
  destruct (push_at g bb g5 a sa Gr Ra) as (Gr6&Ra6&E56&Aa&Sa6). fold g6 in Gr6, Ra6, E56, Aa, Sa6.
  destruct (rok_upd g bb g5 b a (push_stmt sa) Rb (not_eq_sym Nab)) as (Rb6&Sb6). fold g6 in Rb6, Sb6.
  destruct (push_at g bb g6 b sb Gr6 Rb6) as (Gr7&Rb7&E67&Ab&Sb7). fold g7 in Gr7, Rb7, E67, Ab, Sb7.
  destruct (rok_upd g bb g6 a b (push_stmt sb) Ra6 Nab) as (Ra7&Sa7). fold g7 in Ra7, Sa7.
  split; [exact Gr7|]. split; [exact Ra7|]. split; [exact Rb7|]. split; [exact (ext_trans _ _ _ E56 E67)|].
  split; [unfold g7, g6; rewrite !upd_nth_length; reflexivity|].
  split; [exact (at_stmt_ext _ _ _ _ E67 Aa)|]. split; [rewrite Sa7; exact Sa6|].
  split; [rewrite <- Sb6; exact Ab | rewrite Sb7, Sb6; reflexivity].
Qed.

Lemma ifv_builds : forall br va vb B La Lb, bbuilds br B -> vbuilds va La -> vbuilds vb Lb ->
  vbuilds (bx_ifv br va vb) (fun G => lay_ifv G (B G) (La G) (Lb G)).
Proof.
  intros br va vb B La Lb Hc Ha Hb bb g n e1 bb1 s1 V k O. unfold bx_ifv in V. apply two_new_bind in V.
  apply bind_inv in V. destruct V as ([]&s3&Vc&V). apply bind_inv in V. destruct V as ([a1 xa]&s4&Va&V).
  apply bind_inv in V. destruct V as ([b1 xb]&s5&Vb&V). cbn [fst snd] in V.
  destruct (diamond g bb k O) as (O2&_&_&K).
  destruct (Hc _ _ _ _ _ _ Vc k O2) as (g3&n3&->&Gr3&L3). destruct (K g3 Gr3) as (OT&K3).
  destruct (Ha _ _ _ _ _ _ Va 0 OT) as (g4&n4&->&Gr4&Ra4&L4). destruct (K3 g4 _ Gr4 Ra4) as (OE&K4).
  destruct (Hb _ _ _ _ _ _ Vb 0 OE) as (g5&n5&->&Gr5&Rb5&L5). destruct (K4 g5 _ Gr5 Rb5) as (G05&E35&E45&Rb&Keep).
  destruct (Keep xa eq_refl) as (Ra&SLa&Nab). specialize (Nab xb eq_refl).
  unfold bind, fresh_tmp, add_stmt, new_bb, link, modify, ret in V. simpl in V. inversion V; subst; clear V.
  destruct (two_push g bb g5 xa xb (tmp_assign n5 a1) (tmp_assign n5 b1) G05 Ra Rb Nab) as (G07&Ra7&Rb7&E57&Len7&Aa&Sa&Ab&Sb).
  destruct (join_lay (fun _ => True) (fun _ _ => I) (fun _ _ _ _ _ => I) g bb _ xa xb G07 Ra7 Rb7 Nab)
    as (GrM&Rm&Sm&ExtM&_&Ja&Jb).
  rewrite Len7 in *. eexists _, (S n5). split; [reflexivity|]. split; [exact GrM|]. split; [exact Rm|].
  intros G E. rewrite Sm. pose proof (ext_trans _ _ _ ExtM E) as E7. pose proof (ext_trans _ _ _ E57 E7) as E5.
  exists (length g), (S (length g)), n3, a1, (xa, slen g4 xa), n4, b1, (xb, slen g5 xb), n5, (length g5).
  split; [exact (L3 G (ext_trans _ _ _ E35 E5))|]. split; [exact (L4 G (ext_trans _ _ _ E45 E5))|]. split; [exact (L5 G E5)|].
  rewrite <- SLa. unfold next. simpl. rewrite <- Sa, <- Sb.
  split; [exact (at_stmt_ext _ _ _ _ E7 Aa)|]. split; [exact (jump_ext _ _ _ _ E Ja)|].
  split; [exact (at_stmt_ext _ _ _ _ E7 Ab)|]. split; [exact (jump_ext _ _ _ _ E Jb)|]. repeat split.
Qed.

(* [extra] is a block the caller allocated earlier for the first comparison: the graph then grows in
   two stages, from bb up to the branch into that block, and from that block on *)
Definition ctbuilds (rest : ctail) : Prop :=
  forall l' bb extra t f g n s', build_ctail l' rest bb extra t f (mkB g n) = BOk tt s' ->
  forall k, here g bb k -> match extra with Some x => here g x 0 /\ x <> bb | None => True end ->
  exists g' n', s' = mkB g' n' /\
    match extra with Some x => exists gm, grows g bb gm /\ grows gm x g' | None => grows g bb g' end /\
    forall G, ext g' G -> lay_ct G rest l' (bb, k) n t f n'.

Lemma last_builds : forall op r, vbuilds (build_expr r) (fun G => lay_e G r) -> ctbuilds (CLast op r).
Proof.
  intros op r Hr l' bb extra t f g n s' V k O _.
  destruct (gen_builds _ (fun r1 => ECmp l' (CLast op r1)) _ _ Hr _ _ _ _ _ _ V k O) as (g'&n'&->&Gr&Lay).
  exists g', n'. split; [reflexivity|]. split; [|exact Lay].
  destruct extra; [exists g'; split; [exact Gr | apply grows_refl] | exact Gr].
Qed.

Lemma more_builds : forall op m rest, ctbuilds rest -> ctbuilds (CMore op m rest).
Proof.
  intros op m rest IH l' bb extra t f g n s' V k O P. simpl in V. destruct (lift_free m) eqn:LF; [|discriminate].
  (* the block x of the next comparison: [extra], or a new one *)
  assert (exists x g1, match extra with Some x => ret x | None => new_bb end (mkB g n) = BOk x (mkB g1 n) /\
            here g1 bb k /\ forall g2, grows g1 bb g2 -> here g2 x 0 /\ forall g', grows g2 x g' ->
              match extra with Some x => exists gm, grows g bb gm /\ grows gm x g' | None => grows g bb g' end)
    as (x&g1&Eq&O1&K).
  { destruct extra as [x|].
    - destruct P as (Ox&Nx). exists x, g. split; [reflexivity|]. split; [exact O|]. intros g2 Gr2.
      split; [exact (here_after _ _ _ _ _ Gr2 Ox Nx)|]. intros g' Gr. exists g2. exact (conj Gr2 Gr).
    - destruct (one_new g bb k O) as (O1&_&_&_&K). exists (length g), (g ++ [empty_block]).
      split; [reflexivity | exact (conj O1 K)]. }
  unfold bind in V. rewrite Eq, build_lift_free in V by exact LF. cbn [fst snd] in V. rewrite close_branch_eq in V.
  set (p := ECmp l' (CLast op (fold_neg m))) in *.
  destruct (K _ (grows_close g1 bb p f x (proj1 (proj1 O1)))) as (Ox&K2).
  destruct (IH _ _ None _ _ _ _ _ V 0 Ox I) as (g'&n'&->&Gr&Lay).
  exists g', n'. split; [reflexivity|]. split; [exact (K2 g' Gr)|].
  intros G E. exists x. split; [|exact (Lay G E)].
  apply (branch_ext g'); [exact E|]. apply (branch_ext _ _ _ _ _ _ (grows_ext _ _ _ Gr)).
  exact (branch_close _ _ _ _ _ _ (proj1 O1) (proj1 (proj2 O1))).
Qed.

(* BranchBuilder.visit_Compare on a chain: the block of the second comparison is allocated before
   the first operand is built *)
Lemma chain_builds : forall vl L rest, vbuilds vl L -> ctbuilds rest ->
  bbuilds (fun bb t f => LET extra <- new_bb IN LET r <- vl bb IN build_ctail (fst r) rest (snd r) (Some extra) t f)
          (fun G => lay_chain (L G) (lay_ct G rest)).
Proof.
  intros vl L rest Hl Hr bb t f g n s' V k O. apply new_bind in V. apply bind_inv in V. destruct V as ([l1 bb1]&s2&Vl&V).
  destruct (one_new g bb k O) as (O1&L1&Nx&_&K). set (x := length g) in *.
  destruct (Hl _ _ _ _ _ _ Vl k O1) as (g2&n2&->&Gr2&R2&L2). destruct (K g2 Gr2) as (Ox&_). cbn [fst snd] in V.
  pose proof (proj2 (proj2 R2)) as D.
  destruct (Hr _ _ _ _ _ _ _ _ V _ (rok_here _ _ _ _ (proj2 (proj2 O1)) Gr2 R2)) as (g'&n'&->&(gm&Gm&Gx)&Lay).
  { split; [exact Ox | destruct D as [->|D]; [exact Nx | rewrite L1 in D; lia_by D]]. }
  exists g', n'. split; [reflexivity|]. split; [exact (proj2 (K gm (grows_trans _ _ _ _ _ Gr2 Gm D)) g' Gx)|].
  intros G E. exists l1, (bb1, slen g2 bb1), n2. split; [|exact (Lay G E)].
  exact (L2 G (ext_trans _ _ _ (grows_ext _ _ _ Gm) (ext_trans _ _ _ (grows_ext _ _ _ Gx) E))).
Qed.

Theorem build_lay :
  (forall e, vbuilds (build_expr e) (fun G => lay_e G e) /\ bbuilds (build_branch e) (fun G => lay_b G e)) /\
  (forall es, vbuilds (build_exprs es) (fun G => lay_es G es)) /\
  (forall rest, match rest with CLast _ r => vbuilds (build_expr r) (fun G => lay_e G r) | CMore _ _ _ => True end /\
                ctbuilds rest).
Proof.
  assert (Gen : forall e, vbuilds (build_expr e) (fun G => lay_e G e) ->
            bbuilds (gen_branch (build_expr e)) (fun G => lay_gen G (fun x => x) (lay_e G e))).
  { intros e H. exact (gen_builds _ (fun x => x) _ _ H). }
  assert (Lift : forall br B, bbuilds br B -> vbuilds (lift_bool br) (fun G => lay_lift G (B G))).
  { intros br B H. exact (ifv_builds br _ _ B _ _ H (ret_builds _ _) (ret_builds _ _)). }
  apply expr_mutind.
  - intros c. pose proof (ret_builds _ (EConst c)) as V. split; [exact V|].
    destruct c; try exact (Gen (EConst _) V). apply const_builds.
  - intros x. pose proof (ret_builds _ (EName x)) as V. split; [exact V | exact (Gen (EName x) V)].
  - intros op a (Va&Ba). pose proof (unary_builds op a _ _ Va) as V. split; [exact V|].
    destruct op; try exact (Gen (EUnary _ a) V). intros bb t f. exact (Ba bb f t).
  - intros op a (Va&_) b (Vb&_). pose proof (seq_builds _ _ _ (EBin op) _ _ _ _ Va Vb) as V.
    split; [exact V | exact (Gen (EBin op a b) V)].
  - intros l (Vl&_) rest (Vr&Hr). destruct rest as [op r | op m rest].
    + pose proof (seq_builds _ _ _ (fun l1 r1 => ECmp l1 (CLast op r1)) _ _ _ _ Vl Vr) as V.
      split; [exact V | exact (Gen (ECmp l (CLast op r)) V)].
    + pose proof (chain_builds _ _ _ Vl Hr) as B. split; [exact (Lift _ _ B) | exact B].
  - intros op a (_&Ba) b (_&Bb). pose proof (bool_builds op _ _ _ _ Ba Bb) as B. split; [exact (Lift _ _ B) | exact B].
  - intros c (_&Bc) a (Va&Ba) b (Vb&Bb).
    split; [exact (ifv_builds _ _ _ _ _ _ Bc Va Vb) | exact (ifb_builds _ _ _ _ _ _ Bc Ba Bb)].
  - intros x a (Va&_). pose proof (walrus_builds x _ _ Va) as V. split; [exact V | exact (Gen (EWalrus x a) V)].
  - intros f args Vs. pose proof (map_builds _ _ (ECall f) _ _ Vs) as V. split; [exact V | exact (Gen (ECall f args) V)].
  - intros es Vs. pose proof (map_builds _ _ ETuple _ _ Vs) as V. split; [exact V | exact (Gen (ETuple es) V)].
  - apply ret_builds.
  - intros e (Ve&_) es Vs. exact (seq_builds _ _ _ ECons _ _ _ _ Ve Vs).
  - intros op r (Vr&_). split; [exact Vr | exact (last_builds op r Vr)].
  - intros op m _ rest (_&Hr). split; [exact I | exact (more_builds op m rest Hr)].
Qed.

(* the layouts as the statement level (ProofsLayout.v) takes them: the temporaries hidden *)
Definition layc (G : list block) (c : expr) (c0 : nat * nat) (t f : nat) : Prop :=
  exists n n1, lay_b G c c0 n t f n1.
Definition layv (G : list block) (x : expr) (c0 c1 : nat * nat) (x1 : expr) : Prop :=
  exists n n1, lay_e G x c0 n x1 c1 n1.

Lemma cond_lays : forall (Tmp : nat -> nat -> Prop) c,
  (forall G c0 n t f n1, lay_b G c c0 n t f n1 -> Tmp n n1) -> cond_lay layc Tmp (fun _ => True) c.
Proof.
  intros Tmp c HT bb t f g n s' V k O.
  destruct (proj2 (proj1 build_lay c) _ _ _ _ _ _ V k O) as (g'&n'&->&Gr&Lay).
  exists g', n'. split; [reflexivity|]. split; [exact (HT g' _ _ _ _ _ (Lay g' (ext_refl _)))|].
  split; [exact Gr|]. split; [auto|]. intros G E. exists n, n'. exact (Lay G E).
Qed.

Lemma val_lays : forall (Tmp : nat -> nat -> Prop) e,
  (forall G c0 n e1 c1 n1, lay_e G e c0 n e1 c1 n1 -> Tmp n n1) -> val_lay layv Tmp (fun _ => True) e.
Proof.
  intros Tmp e HT bb g n e1 bb1 s1 V k O.
  destruct (proj1 (proj1 build_lay e) _ _ _ _ _ _ V k O) as (g1&n1&->&Gr&R&Lay).
  exists g1, n1. split; [reflexivity|]. split; [exact (HT g1 _ _ _ _ _ (Lay g1 (ext_refl _)))|].
  split; [exact Gr|]. split; [exact R|]. split; [auto|]. intros G E. exists n, n1. exact (Lay G E).
Qed.
