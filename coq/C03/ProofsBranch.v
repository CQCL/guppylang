(** C03 — facts about the builder's primitives that the layout proofs share. *)
From Coq Require Import Arith List Lia.
From V.C03 Require Import PyAst Cfg Builder ProofsBase.
Import ListNotations.

Lemma opn_at_app : forall g x k b, opn_at g x k -> opn_at (g ++ [b]) x k.
Proof.
  unfold opn_at, opn, slen. intros g x k b ((L&S&P)&<-). rewrite blk_app_old by auto. rewrite app_length. simpl.
  repeat split; auto; lia.
Qed.

Lemma opn_at_new : forall g, opn_at (g ++ [empty_block]) (length g) 0.
Proof. unfold opn_at, opn, slen. intros. rewrite blk_app_new, app_length. simpl. repeat split; auto; lia. Qed.

Lemma opn_at_after : forall g1 bb g2 x k, grows g1 bb g2 -> opn_at g1 x k -> x <> bb -> opn_at g2 x k.
Proof.
  intros g1 bb g2 x k Gr (O&<-) N. pose proof (grows_other g1 bb g2 x Gr (proj1 O) N) as S.
  split; [exact (opn_sem_same g1 g2 x O (grows_length g1 bb g2 Gr) S) | unfold slen; rewrite (proj1 S); reflexivity].
Qed.

Lemma opn_at_upd : forall g a (F : block -> block) x k, opn_at g x k -> x <> a -> opn_at (upd_nth a F g) x k.
Proof.
  unfold opn_at, opn, slen. intros g a F x k ((L&S&P)&<-) N. rewrite upd_nth_length, blk_upd_other by auto. auto.
Qed.

Lemma opn_at_push : forall g bb k s, opn_at g bb k -> opn_at (upd_nth bb (push_stmt s) g) bb (S k).
Proof.
  unfold opn_at, opn, slen. intros g bb k s ((L&S&P)&<-). rewrite upd_nth_length, blk_upd_same by auto. simpl.
  rewrite app_length. simpl. repeat split; auto. lia.
Qed.

Lemma opn_at_dummy : forall g p n x k, opn_at g x k -> opn_at (upd_nth p (add_dummy n) g) x k.
Proof.
  unfold opn_at, opn, slen. intros g p n x k ((L&S&P)&<-). rewrite upd_nth_length.
  destruct (Nat.eq_dec p x).
  - subst. rewrite blk_upd_same by auto. simpl. auto.
  - rewrite blk_upd_other by auto. auto.
Qed.

Lemma closed_ext : forall g G b, ext g G -> b_succs (blk g b) <> [] -> sem_same (blk g b) (blk G b).
Proof.
  intros g G b (_&H) N. destruct (Nat.lt_ge_cases b (length g)) as [Hb|Hb].
  - exact (proj2 (H b Hb) N).
  - rewrite blk_overflow in N by auto. destruct N. reflexivity.
Qed.

Lemma upd_nth_twice : forall A i (f h : A -> A) l, upd_nth i f (upd_nth i h l) = upd_nth i (fun x => f (h x)) l.
Proof. induction i; destruct l; simpl; auto. rewrite IHi. auto. Qed.

Definition closeF (p : expr) (f t : nat) (b : block) : block := add_succ t (add_succ f (put_pred p b)).

Lemma close_branch_eq : forall bb p f t g n,
  close_branch bb p f t (mkB g n) = BOk tt (mkB (upd_nth bb (closeF p f t) g) n).
Proof. intros. unfold close_branch, bind, modify, link, modify. simpl. rewrite !upd_nth_twice. reflexivity. Qed.

Lemma grows_push : forall g bb s, opn g bb -> grows g bb (upd_nth bb (push_stmt s) g).
Proof. intros. apply grows_upd; auto. intros b _. exists [s]. auto. Qed.

Lemma grows_link : forall g bb t, opn g bb -> grows g bb (upd_nth bb (add_succ t) g).
Proof. intros. apply grows_upd; auto. intros b _. exists []. simpl. rewrite app_nil_r. auto. Qed.

Lemma grows_close : forall g bb p f t, opn g bb -> grows g bb (upd_nth bb (closeF p f t) g).
Proof. intros. apply grows_upd; auto. intros b _. exists []. simpl. rewrite app_nil_r. auto. Qed.

(* the conditions BranchBuilder leaves to generic_visit; C08's bridge (ProofsBridgeA.v) reads them through
   [build_branch_generic] *)
Definition is_generic (e : expr) : bool :=
  match e with
  | EConst (CBool _) => false
  | EUnary UNot _ => false
  | EBool _ _ _ | EIf _ _ _ => false
  | ECmp _ (CMore _ _ _) => false
  | _ => true
  end.

Lemma build_branch_generic : forall e bb t f, is_generic e = true ->
  build_branch e bb t f = gen_branch (build_expr e) bb t f.
Proof.
  destruct e; intros; simpl in H; try discriminate; try reflexivity.
  - destruct c; try discriminate; reflexivity.
  - destruct op; try discriminate; reflexivity.
  - destruct rest; try discriminate; reflexivity.
Qed.

Lemma new_bind : forall A (k : nat -> M A) g n r s',
  (LET x <- new_bb IN k x) (mkB g n) = BOk r s' -> k (length g) (mkB (g ++ [empty_block]) n) = BOk r s'.
Proof. intros A k g n r s' H. exact H. Qed.

Lemma two_new_bind : forall A (k : nat -> nat -> M A) g n r s',
  (LET x <- new_bb IN LET y <- new_bb IN k x y) (mkB g n) = BOk r s' ->
  k (length g) (S (length g)) (mkB ((g ++ [empty_block]) ++ [empty_block]) n) = BOk r s'.
Proof.
  intros A k g n r s' H. apply new_bind, new_bind in H. rewrite app_length, Nat.add_1_r in H. exact H.
Qed.
