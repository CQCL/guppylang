(** C03 — the shape of the graph CFGBuilder builds for a statement, as a predicate [lay_s] on the
    finished graph.  [visit_lay]: the model of the builder produces it, in its result graph and in every
    graph that extends it.  What a run or a walk does in a laid-out statement is then proved on the
    finished graph alone (ProofsStmt.v; C08). *)
From Coq Require Import Arith List Lia.
From V.C03 Require Import PyAst Cfg Builder ProofsBase ProofsBranch.
Import ListNotations.

(* a position is (block, index of the next statement); none lies in the exit block, where a run halts *)
Definition next (c : nat * nat) : nat * nat := (fst c, S (snd c)).

Section Positions.
Variable G : list block.

Definition at_stmt (c : nat * nat) (s : stmt) : Prop :=
  fst c <> exit_idx /\ nth_error (b_stmts (blk G (fst c))) (snd c) = Some s.
Definition at_end (c : nat * nat) : Prop := snd c = length (b_stmts (blk G (fst c))).
Definition jump (c : nat * nat) (t : nat) : Prop :=
  fst c <> exit_idx /\ at_end c /\ b_pred (blk G (fst c)) = None /\ b_succs (blk G (fst c)) = [t].

Definition branch (c : nat * nat) (p : expr) (t f : nat) : Prop :=
  fst c <> exit_idx /\ at_end c /\ b_pred (blk G (fst c)) = Some p /\ b_succs (blk G (fst c)) = [f; t].

(* where control is after an [if] whose branches end at e1 and e2 (None: jumped away) *)
Definition joined (e1 e2 e : option (nat * nat)) : Prop :=
  match e1, e2 with
  | None, _ => e = e2
  | _, None => e = e1
  | Some a, Some b => exists m, jump a m /\ jump b m /\ e = Some (m, 0)
  end.
End Positions.

Lemma at_stmt_ext : forall g G c s, ext g G -> at_stmt g c s -> at_stmt G c s.
Proof.
  intros g G [b k] s (L&E) (N&A). split; [exact N|]. simpl in *.
  assert (Hb : b < length g).
  { destruct (Nat.lt_ge_cases b (length g)); auto. rewrite blk_overflow in A by auto. destruct k; discriminate. }
  destruct (E b Hb) as ((rest&R)&_). rewrite R, nth_error_app1; auto. apply nth_error_Some. congruence.
Qed.

Lemma jump_ext : forall g G c t, ext g G -> jump g c t -> jump G c t.
Proof.
  intros g G c t E (N&A&P&S). destruct (closed_ext g G (fst c) E) as (E1&E2&E3); [rewrite S; discriminate|].
  unfold jump, at_end in *. rewrite E1, E2, E3. auto.
Qed.

Lemma branch_ext : forall g G c p t f, ext g G -> branch g c p t f -> branch G c p t f.
Proof.
  intros g G c p t f E (N&A&P&S). destruct (closed_ext g G (fst c) E) as (E1&E2&E3); [rewrite S; discriminate|].
  unfold branch, at_end in *. rewrite E1, E2, E3. auto.
Qed.

Lemma joined_exit : forall G e1 e2 e a, joined G e1 e2 e -> e1 = Some a \/ e2 = Some a ->
  e = Some a \/ exists m, jump G a m /\ e = Some (m, 0).
Proof.
  intros G [a1|] [a2|] e a Jn [Q|Q]; inversion Q; subst; simpl in Jn; subst; auto;
    destruct Jn as (m&Ja&Jb&->); eauto.
Qed.

Lemma at_push : forall g bb k s, opn_at g bb k -> bb <> exit_idx -> at_stmt (upd_nth bb (push_stmt s) g) (bb, k) s.
Proof.
  intros g bb k s ((L&_)&<-) N. split; [exact N|]. unfold slen. simpl. rewrite blk_upd_same by auto. simpl.
  rewrite nth_error_app2, Nat.sub_diag; auto.
Qed.

Lemma jump_link : forall g bb k t, opn_at g bb k -> bb <> exit_idx -> jump (upd_nth bb (add_succ t) g) (bb, k) t.
Proof.
  intros g bb k t ((L&S&P)&<-) N. split; [exact N|]. unfold at_end, slen. simpl. rewrite blk_upd_same by auto. simpl.
  rewrite S, P. auto.
Qed.

Lemma branch_close : forall g bb k p f t, opn_at g bb k -> bb <> exit_idx ->
  branch (upd_nth bb (closeF p f t) g) (bb, k) p t f.
Proof.
  intros g bb k p f t ((L&S&_)&<-) N. split; [exact N|]. unfold at_end, slen. simpl. rewrite blk_upd_same by auto. simpl.
  rewrite S. auto.
Qed.

(* [r] is where a visit that began in block [bb] of [g] ends in [g'] (None: it jumped away): an open block, not the
   exit block, and [bb] itself or a block created since [g].  [exit_of g' r] is the position at its end. *)
Definition rok (g : list block) (bb : nat) (g' : list block) (r : option nat) : Prop :=
  match r with
  | Some b' => opn g' b' /\ b' <> exit_idx /\ (b' = bb \/ length g <= b')
  | None => True
  end.
Definition exit_of (g : list block) (r : option nat) : option (nat * nat) :=
  match r with Some b => Some (b, slen g b) | None => None end.

(* [visit_stmts] has no current block after a statement that jumps away; the next statement then
   opens a new block, of index [length g] *)
Definition cur_ok (g : list block) (cur : option nat) : Prop :=
  match cur with Some bb => opn g bb /\ bb <> exit_idx | None => True end.
Definition cb (g : list block) (cur : option nat) : nat :=
  match cur with Some b => b | None => length g end.

(* [exit_idx < length g]: every new block then has a larger index than the exit block *)
Definition here (g : list block) (bb k : nat) : Prop := opn_at g bb k /\ bb <> exit_idx /\ exit_idx < length g.

Lemma rok_here : forall g bb g1 b, exit_idx < length g -> grows g bb g1 -> rok g bb g1 (Some b) -> here g1 b (slen g1 b).
Proof.
  intros g bb g1 b Ne Gr (O&N&_). exact (conj (opn_at_slen _ _ O) (conj N (Nat.lt_le_trans _ _ _ Ne (grows_length _ _ _ Gr)))).
Qed.

Lemma here_after : forall g1 bb g2 x k, grows g1 bb g2 -> here g1 x k -> x <> bb -> here g2 x k.
Proof.
  intros g1 bb g2 x k Gr (A&N&Ne) Nx.
  exact (conj (opn_at_after g1 bb g2 x k Gr A Nx) (conj N (Nat.lt_le_trans _ _ _ Ne (grows_length _ _ _ Gr)))).
Qed.

Lemma rok_then : forall g bb g1 r1 g2 r2, grows g bb g1 -> rok g bb g1 r1 ->
  grows g1 (cb g1 r1) g2 -> rok g1 (cb g1 r1) g2 r2 -> grows g bb g2 /\ rok g bb g2 r2.
Proof.
  intros g bb g1 r1 g2 r2 Gr1 R1 Gr2 R2. pose proof (grows_length _ _ _ Gr1) as L1.
  assert (D1 : cb g1 r1 = bb \/ length g <= cb g1 r1).
  { destruct r1 as [b|]; [destruct R1 as (_&_&C); exact C | right; exact L1]. }
  split; [exact (grows_trans _ _ _ _ _ Gr1 Gr2 D1)|].
  destruct r2 as [b'|]; simpl in *; auto. destruct R2 as (A&B&C). split; [exact A|]. split; [exact B|].
  destruct C as [C|C]; [rewrite C; exact D1 | right; lia].
Qed.

Lemma push_at : forall g bb g1 b s, grows g bb g1 -> rok g bb g1 (Some b) ->
  let g2 := upd_nth b (push_stmt s) g1 in
  grows g bb g2 /\ rok g bb g2 (Some b) /\ ext g1 g2 /\ at_stmt g2 (b, slen g1 b) s /\ slen g2 b = S (slen g1 b).
Proof.
  intros g bb g1 b s Gr (O&N&D) g2. pose proof (grows_push g1 b s O) as G12.
  destruct (opn_at_push g1 b _ s (opn_at_slen _ _ O)) as (O2&SL).
  split; [exact (grows_trans _ _ _ _ _ Gr G12 D)|]. split; [exact (conj O2 (conj N D))|].
  split; [exact (grows_ext _ _ _ G12)|]. split; [exact (at_push _ _ _ s (opn_at_slen _ _ O) N) | exact SL].
Qed.

Lemma rok_upd : forall g bb g1 c a (F : block -> block), rok g bb g1 (Some c) -> c <> a ->
  rok g bb (upd_nth a F g1) (Some c) /\ slen (upd_nth a F g1) c = slen g1 c.
Proof.
  intros g bb g1 c a F (O&ND) N. destruct (opn_at_upd g1 a F c _ (opn_at_slen _ _ O) N) as (O'&SL).
  exact (conj (conj O' ND) SL).
Qed.

Definition linked (r : option nat) (t : nat) (g : list block) : list block :=
  match r with Some b => upd_nth b (add_succ t) g | None => g end.

Lemma link_at : forall g bb g1 r t, grows g bb g1 -> rok g bb g1 r ->
  let g2 := linked r t g1 in
  grows g bb g2 /\ ext g1 g2 /\ forall a, exit_of g1 r = Some a -> jump g2 a t.
Proof.
  intros g bb g1 [b|] t Gr R g2; simpl in *.
  - destruct R as (O&N&D). pose proof (grows_link g1 b t O) as G12.
    split; [exact (grows_trans _ _ _ _ _ Gr G12 D)|]. split; [exact (grows_ext _ _ _ G12)|].
    intros a Ea. inversion Ea. exact (jump_link _ _ _ t (opn_at_slen _ _ O) N).
  - split; [exact Gr|]. split; [apply ext_refl|]. intros a Ea. discriminate.
Qed.

(* [lia] first translates every arithmetic hypothesis in sight; in long contexts that is most of its
   cost, so the facts it needs are named *)
Tactic Notation "lia_by" hyp_list(Hs) := clear - Hs; lia.

(* a block x is created while bb is the cursor: bb stays the cursor; when the part built at bb is done (g2), x is a
   fresh cursor, and what is built from x (g3) still grows g at bb *)
Lemma one_new : forall g bb k, here g bb k ->
  let x := length g in let g1 := g ++ [empty_block] in
  here g1 bb k /\ length g1 = S x /\ x <> bb /\ grows g bb g1 /\
  forall g2, grows g1 bb g2 -> here g2 x 0 /\ forall g3, grows g2 x g3 -> grows g bb g3.
Proof.
  intros g bb k (A&Nb&Ne) x g1. pose proof A as ((Lb&_)&_). fold x in Lb. unfold exit_idx in Ne. fold x in Ne.
  assert (L1 : length g1 = S x) by (unfold g1; rewrite app_length; apply Nat.add_1_r).
  split; [split; [apply opn_at_app, A | split; [exact Nb | unfold exit_idx; lia_by L1 Ne]]|]. split; [exact L1|].
  split; [lia_by Lb|]. split; [apply grows_new|].
  intros g2 Gr2.
  split; [apply (here_after g1 bb g2 x 0 Gr2); [split; [apply opn_at_new | unfold exit_idx; lia_by Ne L1] | lia_by Lb]|].
  intros g3 Gr3. eapply grows_trans; [| exact Gr3 | right; apply le_n].
  exact (grows_trans _ _ _ _ _ (grows_new g bb) Gr2 (or_introl eq_refl)).
Qed.

(* bb is closed by something that leads to the new blocks T and E (g3); then T is filled, ending in te
   (g4); then E, ending in ee (g5).  Each stage says which blocks are still open and untouched for the
   next. *)
Lemma diamond : forall g bb k, here g bb k ->
  let T := length g in let E := S T in
  let gg := (g ++ [empty_block]) ++ [empty_block] in
  here gg bb k /\ T < length gg /\ E < length gg /\
  forall g3, grows gg bb g3 ->
  here g3 T 0 /\
  forall g4 te, grows g3 T g4 -> rok g3 T g4 te ->
  here g4 E 0 /\
  forall g5 ee, grows g4 E g5 -> rok g4 E g5 ee ->
  grows g bb g5 /\ ext g3 g5 /\ ext g4 g5 /\ rok g bb g5 ee /\
  forall a, te = Some a -> rok g bb g5 (Some a) /\ slen g5 a = slen g4 a /\ forall b, ee = Some b -> a <> b.
Proof.
  intros g bb k O T E gg. destruct (one_new g bb k O) as (O1&L1&_&G01&K1). destruct (one_new _ bb k O1) as (O2&LG&_&G12&K2).
  pose proof O as (((Lb&_)&_)&_). rewrite L1 in *. fold T in Lb, L1, K1, LG, K2. fold gg in O2, LG, G12, K2. fold E in LG, K2.
  split; [exact O2|]. split; [unfold E in LG; lia_by LG|]. split; [lia_by LG|].
  intros g3 Gr3. pose proof (grows_length _ _ _ Gr3) as L3.
  destruct (K1 g3 (grows_trans _ _ _ _ _ G12 Gr3 (or_introl eq_refl))) as (OT&KT). destruct (K2 g3 Gr3) as (OE&_).
  split; [exact OT|].
  intros g4 te Gr4 R4. pose proof (grows_length _ _ _ Gr4) as L4.
  split; [exact (here_after g3 T g4 E 0 Gr4 OE ltac:(unfold E; lia_by))|].
  intros g5 ee Gr5 R5.
  split; [exact (grows_trans _ _ _ _ _ (KT g4 Gr4) Gr5 ltac:(right; unfold E; lia_by))|].
  split; [exact (ext_trans _ _ _ (grows_ext _ _ _ Gr4) (grows_ext _ _ _ Gr5))|]. split; [exact (grows_ext _ _ _ Gr5)|].
  split.
  { destruct ee as [b|]; simpl in *; auto. destruct R5 as (Ob&Nb5&Db). split; [exact Ob|]. split; [exact Nb5|].
    right. destruct Db as [Db|Db]; unfold E in Db; lia_by Db L3 LG L4. }
  intros a ->. simpl in R4. destruct R4 as (Oa4&Na&Da). pose proof Oa4 as (La4&_).
  assert (NaE : a <> E) by (destruct Da as [Da|Da]; unfold E; lia_by Da L3 LG).
  destruct (opn_at_after g4 E g5 a _ Gr5 (opn_at_slen _ _ Oa4) NaE) as (Oa5&SLa).
  split; [split; [exact Oa5|split; [exact Na|right; destruct Da as [Da|Da]; lia_by Da L3 LG]]|]. split; [exact SLa|].
  intros b ->. simpl in R5. destruct R5 as (_&_&Db). destruct Db as [Db|Db]; [unfold E in NaE; lia_by Db NaE | lia_by Db La4].
Qed.

Section Layout.
(* [layc G c c0 t f]: from position c0 the condition c leads to block t or to block f;
   [layv G x c0 c1 x1]: from c0 the lifted parts of x lead to c1, where x1 stands for x *)
Variable layc : list block -> expr -> nat * nat -> nat -> nat -> Prop.
Variable layv : list block -> expr -> nat * nat -> nat * nat -> expr -> Prop.
(* the builder's counter of temporaries before and after ([eq] on input without lifted parts) *)
Variable Tmp : nat -> nat -> Prop.
Hypothesis Tmp_refl : forall n, Tmp n n.
Hypothesis Tmp_trans : forall a b c, Tmp a b -> Tmp b c -> Tmp a c.

Section On.
Variable G : list block.

Definition lay_val (x : expr) (c : nat * nat) (mk : expr -> stmt) (c2 : nat * nat) : Prop :=
  exists c1 x1, layv G x c c1 x1 /\ at_stmt G c1 (mk x1) /\ c2 = next c1.

Fixpoint lay_s (s : stmt) (c : nat * nat) (j : jumps) (e : option (nat * nat)) {struct s} : Prop :=
  match s with
  | SAssign t x => exists c2, lay_val x c (SAssign t) c2 /\ e = Some c2
  | SAug x op y => exists c2, lay_val y c (SAug x op) c2 /\ e = Some c2
  | SExpr x =>
      exists c1 x1, layv G x c c1 x1 /\
        if is_tmp_name x1 then e = Some c1 else at_stmt G c1 (SExpr x1) /\ e = Some (next c1)
  | SIf x body orelse =>
      exists t f e1 e2, layc G x c t f /\
        lay_l body (t, 0) j e1 /\ lay_l orelse (f, 0) j e2 /\ joined G e1 e2 e
  | SWhile x body orelse =>
      orelse = SNil /\ exists h t f eb, jump G c h /\ layc G x (h, 0) t f /\
        lay_l body (t, 0) (mkJ (j_ret j) (Some h) (Some f)) eb /\
        (forall a, eb = Some a -> jump G a h) /\ e = Some (f, 0)
  | SBreak => exists b, j_brk j = Some b /\ jump G c b /\ e = None
  | SContinue => exists b, j_cont j = Some b /\ jump G c b /\ e = None
  | SPass => e = Some c
  | SReturn None => at_stmt G c (SReturn None) /\ jump G (next c) (j_ret j) /\ e = None
  | SReturn (Some x) => exists c2, lay_val x c (fun x1 => SReturn (Some x1)) c2 /\ jump G c2 (j_ret j) /\ e = None
  end
(* after a jump the rest is dead code: it lies somewhere, unconstrained *)
with lay_l (ss : stmts) (c : nat * nat) (j : jumps) (e : option (nat * nat)) {struct ss} : Prop :=
  match ss with
  | SNil => e = Some c
  | SCons s r => exists e1, lay_s s c j e1 /\ match e1 with Some c1 => lay_l r c1 j e | None => True end
  end.
End On.

Definition okid (g : list block) (t : nat) : Prop := 0 < t < length g.
Definition targets_ok (g : list block) (j : jumps) : Prop :=
  okid g (j_ret j) /\ (forall c, j_cont j = Some c -> okid g c) /\ (forall c, j_brk j = Some c -> okid g c).
(* an invariant of graphs that the builder keeps when the blocks it links to exist and are not the
   entry (C08: every edge leads to such a block) *)
Variable Inv : list block -> Prop.
Hypothesis Inv_new : forall g, Inv g -> Inv (g ++ [empty_block]).
Hypothesis Inv_link : forall g a t, Inv g -> okid g t -> Inv (upd_nth a (add_succ t) g).
Hypothesis Inv_dummy : forall g a t, Inv g -> okid g t -> Inv (upd_nth a (add_dummy t) g).
Hypothesis Inv_push : forall g a s, Inv g -> Inv (upd_nth a (push_stmt s) g).

Lemma okid_mono : forall g g' t, okid g t -> length g <= length g' -> okid g' t.
Proof. unfold okid. intros. lia. Qed.
Lemma targets_mono : forall g g' j, targets_ok g j -> length g <= length g' -> targets_ok g' j.
Proof. intros g g' j (A&B&C) L. split; [|split]; intros; eapply okid_mono; eauto. Qed.

(* [cond_lay], [val_lay], [stmt_lay], [stmts_lay]: the builder, run on the node from the cursor, leaves the layout
   [layc] / [layv] / [lay_s] / [lay_l] of the node in its result graph and in all that extend it; with [grows], [rok],
   [Tmp] and [Inv] for the frame *)
Definition cond_lay (c : expr) : Prop :=
  forall bb t f g n s', build_branch c bb t f (mkB g n) = BOk tt s' -> forall k, here g bb k ->
  exists g' n', s' = mkB g' n' /\ Tmp n n' /\ grows g bb g' /\ (Inv g -> okid g t -> okid g f -> Inv g') /\
    forall G, ext g' G -> layc G c (bb, k) t f.

Definition val_lay (e : expr) : Prop :=
  forall bb g n e1 bb1 s1, build_expr e bb (mkB g n) = BOk (e1, bb1) s1 -> forall k, here g bb k ->
  exists g1 n1, s1 = mkB g1 n1 /\ Tmp n n1 /\ grows g bb g1 /\ rok g bb g1 (Some bb1) /\ (Inv g -> Inv g1) /\
    forall G, ext g1 G -> layv G e (bb, k) (bb1, slen g1 bb1) e1.

Definition stmt_lay (s : stmt) : Prop :=
  forall bb j g n r s', visit_stmt s bb j (mkB g n) = BOk r s' -> forall k, here g bb k ->
  exists g' n', s' = mkB g' n' /\ Tmp n n' /\ grows g bb g' /\ rok g bb g' r /\
    (Inv g -> targets_ok g j -> Inv g') /\
    forall G, ext g' G -> lay_s G s (bb, k) j (exit_of g' r).

Definition stmts_lay (ss : stmts) : Prop :=
  forall prev cur j g n r s', visit_stmts ss prev cur j (mkB g n) = BOk r s' ->
  cur_ok g cur -> exit_idx < length g ->
  exists g' n', s' = mkB g' n' /\ Tmp n n' /\ grows g (cb g cur) g' /\ rok g (cb g cur) g' r /\
    (Inv g -> targets_ok g j -> Inv g') /\
    forall bb, cur = Some bb -> forall G, ext g' G -> lay_l G ss (bb, slen g bb) j (exit_of g' r).

Lemma lay_value : forall e (mk : expr -> stmt) bb g n e1 bb1 s1, val_lay e ->
  build_expr e bb (mkB g n) = BOk (e1, bb1) s1 -> forall k, here g bb k ->
  exists g1 n1, s1 = mkB g1 n1 /\ Tmp n n1 /\
    let g2 := upd_nth bb1 (push_stmt (mk e1)) g1 in
    grows g bb g2 /\ rok g bb g2 (Some bb1) /\ (Inv g -> Inv g2) /\
    exists c1, (bb1, slen g2 bb1) = next c1 /\
      forall G, ext g2 G -> layv G e (bb, k) c1 e1 /\ at_stmt G c1 (mk e1).
Proof.
  intros e mk bb g n e1 bb1 s1 He B k O.
  destruct (He bb g n e1 bb1 s1 B k O) as (g1&n1&->&Tn&Gr&R&I&V).
  exists g1, n1. split; auto. split; [exact Tn|]. intros g2.
  destruct (push_at g bb g1 bb1 (mk e1) Gr R) as (Gr2&R2&E12&A&SL). fold g2 in Gr2, R2, E12, A, SL.
  split; [exact Gr2|]. split; [exact R2|]. split; [intros Ig; apply Inv_push, I, Ig|].
  exists (bb1, slen g1 bb1). split; [unfold next; simpl; rewrite SL; reflexivity|].
  intros G E. split; [exact (V G (ext_trans _ _ _ E12 E)) | exact (at_stmt_ext _ _ _ _ E A)].
Qed.

Lemma lay_value_stmt : forall (mk : expr -> stmt) e, val_lay e -> forall bb j g n r s',
  (LET q <- build_expr e bb IN DO add_stmt (snd q) (mk (fst q)) THEN ret (Some (snd q))) (mkB g n) = BOk r s' ->
  forall k, here g bb k ->
  exists g' n', s' = mkB g' n' /\ Tmp n n' /\ grows g bb g' /\ rok g bb g' r /\
    (Inv g -> targets_ok g j -> Inv g') /\
    forall G, ext g' G -> exists c2, lay_val G e (bb, k) mk c2 /\ exit_of g' r = Some c2.
Proof.
  intros mk e He bb j g n r s' V k O. apply bind_inv in V. destruct V as ([e1 bb1]&s1&B&V).
  destruct (lay_value e mk bb g n e1 bb1 s1 He B k O) as (g1&n1&->&Tn&Gr&R&I&(c1&Eq&L)).
  inversion V; subst. eexists _, n1. split; [reflexivity|]. split; [exact Tn|]. split; [exact Gr|]. split; [exact R|].
  split; [auto|]. intros G E. destruct (L G E) as (Lv&A). exists (next c1).
  split; [exists c1, e1; auto | exact (f_equal Some Eq)].
Qed.

Lemma lay_expr : forall e, val_lay e -> stmt_lay (SExpr e).
Proof.
  intros e He bb j g n r s' V k O. simpl in V. apply bind_inv in V. destruct V as ([e1 bb1]&s1&B&V).
  cbn [fst snd] in V. destruct (is_tmp_name e1) eqn:TN.
  - (* a bare temporary is not added to the block *)
    destruct (He bb g n e1 bb1 s1 B k O) as (g1&n1&->&Tn&Gr&R&I&L).
    inversion V; subst. exists g1, n1. split; auto. split; [exact Tn|]. split; [exact Gr|]. split; [exact R|]. split; [auto|].
    intros G E. exists (bb1, slen g1 bb1), e1. rewrite TN. auto.
  - destruct (lay_value e SExpr bb g n e1 bb1 s1 He B k O) as (g1&n1&->&Tn&Gr&R&I&(c1&Eq&L)).
    inversion V; subst. eexists _, n1. split; [reflexivity|]. split; [exact Tn|]. split; [exact Gr|]. split; [exact R|].
    split; [auto|]. intros G E. destruct (L G E) as (Lv&A). exists c1, e1. rewrite TN. simpl. rewrite Eq. auto.
Qed.

Lemma lay_pass : stmt_lay SPass.
Proof.
  intros bb j g n r s' V k ((O&<-)&Nb&Ne). simpl in V. inversion V; subst; clear V.
  exists g, n. split; auto. split; [apply Tmp_refl|]. split; [apply grows_refl|]. split; [simpl; auto|].
  split; auto. intros G _. reflexivity.
Qed.

Lemma ret_link : forall g bb j g2 bb1, grows g bb g2 -> rok g bb g2 (Some bb1) ->
  let g3 := upd_nth bb1 (add_succ (j_ret j)) g2 in
  grows g bb g3 /\ ext g2 g3 /\ (Inv g2 -> targets_ok g j -> Inv g3) /\ jump g3 (bb1, slen g2 bb1) (j_ret j).
Proof.
  intros g bb j g2 bb1 Gr R g3. destruct (link_at g bb g2 (Some bb1) (j_ret j) Gr R) as (Gr3&E23&J).
  split; [exact Gr3|]. split; [exact E23|]. split; [|exact (J _ eq_refl)].
  intros I2 (T&_). apply Inv_link; [exact I2|]. exact (okid_mono _ _ _ T (grows_length _ _ _ Gr)).
Qed.

Lemma lay_return : forall e, val_lay e -> stmt_lay (SReturn (Some e)).
Proof.
  intros e He bb j g n r s' V k O. simpl in V. apply bind_inv in V. destruct V as ([e1 bb1]&s1&B&V).
  destruct (lay_value e (fun x => SReturn (Some x)) bb g n e1 bb1 s1 He B k O) as (g1&n1&->&Tn&Gr&R&I&(c1&Eq&L)).
  inversion V; subst. destruct (ret_link g bb j _ bb1 Gr R) as (Gr3&E23&I3&J).
  eexists _, n1. split; [reflexivity|]. split; [exact Tn|]. split; [exact Gr3|]. split; [simpl; auto|]. split; [auto|].
  intros G E. destruct (L G (ext_trans _ _ _ E23 E)) as (Lv&A).
  exists (next c1). split; [exists c1, e1; auto|]. split; [rewrite <- Eq; exact (jump_ext _ _ _ _ E J) | reflexivity].
Qed.

Lemma lay_return_none : stmt_lay (SReturn None).
Proof.
  intros bb j g n r s' V k ((O&<-)&Nb&Ne). simpl in V. inversion V; subst; clear V.
  destruct (push_at g bb g bb (SReturn None) (grows_refl g bb) (conj O (conj Nb (or_introl eq_refl)))) as (G1&R1&_&A&SL1).
  destruct (ret_link g bb j _ bb G1 R1) as (Gr3&E23&I3&J).
  eexists _, n. split; [reflexivity|]. split; [apply Tmp_refl|]. split; [exact Gr3|]. split; [simpl; auto|].
  split; [auto|]. intros G E. split; [exact (at_stmt_ext _ _ _ _ (ext_trans _ _ _ E23 E) A)|]. split; [|reflexivity].
  unfold next. simpl. rewrite <- SL1. exact (jump_ext _ _ _ _ E J).
Qed.

Lemma lay_jump : forall s bb j g n b, opn g bb -> bb <> exit_idx -> (targets_ok g j -> okid g b) ->
  (forall G c, jump G c b -> lay_s G s c j None) ->
  exists g' n', mkB (upd_nth bb (add_succ b) g) n = mkB g' n' /\ Tmp n n' /\ grows g bb g' /\ rok g bb g' None /\
    (Inv g -> targets_ok g j -> Inv g') /\ forall G, ext g' G -> lay_s G s (bb, slen g bb) j None.
Proof.
  intros s bb j g n b O N T L.
  destruct (link_at g bb g (Some bb) b (grows_refl g bb) (conj O (conj N (or_introl eq_refl)))) as (Gr&_&J).
  eexists _, n. split; [reflexivity|]. split; [apply Tmp_refl|]. split; [exact Gr|]. split; [simpl; auto|].
  split; [auto|]. intros G E. exact (L G _ (jump_ext _ _ _ _ E (J _ eq_refl))).
Qed.

Lemma lay_break : stmt_lay SBreak.
Proof.
  intros bb j g n r s' V k ((O&<-)&Nb&Ne). simpl in V.
  destruct (j_brk j) as [b|] eqn:JB; [|discriminate]. inversion V; subst. apply lay_jump; auto.
  - intros (_&_&T). auto.
  - intros G c Jc. exists b. auto.
Qed.
Lemma lay_continue : stmt_lay SContinue.
Proof.
  intros bb j g n r s' V k ((O&<-)&Nb&Ne). simpl in V.
  destruct (j_cont j) as [b|] eqn:JB; [|discriminate]. inversion V; subst. apply lay_jump; auto.
  - intros (_&T&_). auto.
  - intros G c Jc. exists b. auto.
Qed.

Lemma lay_nil : stmts_lay SNil.
Proof.
  intros prev cur j g n r s' V CO Ne. simpl in V. inversion V; subst; clear V.
  exists g, n. split; auto. split; [apply Tmp_refl|]. split; [apply grows_refl|]. split.
  - destruct r; simpl in *; tauto.
  - split; auto. intros bb -> G _. reflexivity.
Qed.

Lemma lay_cons_some : forall s r, stmt_lay s -> stmts_lay r ->
  forall bb j g n rr s',
  (LET r1 <- visit_stmt s bb j IN visit_stmts r bb r1 j) (mkB g n) = BOk rr s' ->
  opn g bb -> bb <> exit_idx -> exit_idx < length g ->
  exists g' n', s' = mkB g' n' /\ Tmp n n' /\ grows g bb g' /\ rok g bb g' rr /\
    (Inv g -> targets_ok g j -> Inv g') /\
    forall G, ext g' G -> lay_l G (SCons s r) (bb, slen g bb) j (exit_of g' rr).
Proof.
  intros s r Hs Hr bb j g n rr s' V O Nb Ne.
  apply bind_inv in V. destruct V as (r1&s1&V1&V2).
  destruct (Hs bb j g n r1 s1 V1 _ (conj (opn_at_slen g bb O) (conj Nb Ne))) as (g1&n1&->&T1&Gr1&R1&I1&L1).
  pose proof (grows_length _ _ _ Gr1) as Len1.
  destruct (Hr bb r1 j g1 n1 rr s' V2) as (g2&n2&->&T2&Gr2&R2&I2&L2); [destruct r1; simpl in *; tauto | lia |].
  destruct (rok_then g bb g1 r1 g2 rr Gr1 R1 Gr2 R2) as (Gr&R).
  exists g2, n2. split; auto. split; [exact (Tmp_trans _ _ _ T1 T2)|]. split; [exact Gr|]. split; [exact R|]. split.
  - intros I T. apply I2; [auto|eapply targets_mono; eauto].
  - intros G E. exists (exit_of g1 r1). split; [exact (L1 G (ext_trans _ _ _ (grows_ext _ _ _ Gr2) E))|].
    destruct r1 as [b1|]; simpl; auto.
Qed.

Lemma lay_cons : forall s r, stmt_lay s -> stmts_lay r -> stmts_lay (SCons s r).
Proof.
  intros s r Hs Hr prev cur j g n rr s' V CO Ne.
  destruct cur as [bb|].
  - destruct CO as (O&Nb).
    destruct (lay_cons_some s r Hs Hr bb j g n rr s' V O Nb Ne) as (g'&n'&->&Tn&A&B&C&D).
    exists g', n'. split; auto. split; auto. split; auto. split; auto. split; auto.
    intros bb0 Eq. inversion Eq; subst. exact D.
  - (* dead code: a new block, hung on [prev] by a dummy edge *)
    simpl in V.
    set (b := length g) in *. set (g1 := upd_nth prev (add_dummy b) (g ++ [empty_block])).
    assert (V' : (LET r1 <- visit_stmt s b j IN visit_stmts r b r1 j) (mkB g1 n) = BOk rr s') by exact V.
    pose proof (opn_at_dummy _ prev b _ _ (opn_at_new g)) as (O1&_). fold b g1 in O1.
    assert (LA: length g1 = S (length g)) by (unfold g1; rewrite upd_nth_length, app_length; simpl; lia).
    assert (Nb : b <> exit_idx) by (unfold b, exit_idx in *; lia).
    assert (G01: grows g b g1).
    { eapply grows_trans; [apply grows_new | apply grows_dummy | left; reflexivity]. }
    destruct (lay_cons_some s r Hs Hr b j g1 n rr s' V') as (g'&n'&->&Tn&A&B&C&_); auto; [lia|].
    destruct (rok_then g b g1 (Some b) g' rr G01 (conj O1 (conj Nb (or_introl eq_refl))) A B) as (Gr&R).
    exists g', n'. split; auto. split; [exact Tn|]. split; [exact Gr|]. split; [exact R|]. split.
    + intros I T. apply C; [|eapply targets_mono; [exact T|lia]].
      apply Inv_dummy; [apply Inv_new, I|]. unfold okid. rewrite app_length. unfold b, exit_idx in *. simpl. lia.
    + intros bb Eq. discriminate.
Qed.

Lemma lay_in_fresh : forall ss, stmts_lay ss -> forall T j g n r s',
  visit_stmts ss T (Some T) j (mkB g n) = BOk r s' -> here g T 0 ->
  exists g' n', s' = mkB g' n' /\ Tmp n n' /\ grows g T g' /\ rok g T g' r /\
    (Inv g -> targets_ok g j -> Inv g') /\ forall G, ext g' G -> lay_l G ss (T, 0) j (exit_of g' r).
Proof.
  intros ss H T j g n r s' V ((O&SL)&N&Ne).
  destruct (H T (Some T) j g n r s' V (conj O N) Ne) as (g'&n'&->&Tn&Gr&R&I&L).
  exists g', n'. split; auto. split; [exact Tn|]. specialize (L T eq_refl). rewrite SL in L. auto.
Qed.

Lemma visit_if_inv : forall c body orelse bb j g n r s',
  visit_stmt (SIf c body orelse) bb j (mkB g n) = BOk r s' ->
  exists s3 te s4 ee g5 n5,
    build_branch c bb (length g) (S (length g)) (mkB ((g ++ [empty_block]) ++ [empty_block]) n) = BOk tt s3 /\
    visit_stmts body (length g) (Some (length g)) j s3 = BOk te s4 /\
    visit_stmts orelse (S (length g)) (Some (S (length g))) j s4 = BOk ee (mkB g5 n5) /\
    match te, ee with
    | Some a, Some b =>
        r = Some (length g5) /\
        s' = mkB (upd_nth b (add_succ (length g5)) (upd_nth a (add_succ (length g5)) (g5 ++ [empty_block]))) n5
    | Some _, None => r = te /\ s' = mkB g5 n5
    | None, _ => r = ee /\ s' = mkB g5 n5
    end.
Proof.
  intros c body orelse bb j g n r s' V. simpl in V. apply two_new_bind in V.
  apply bind_inv in V. destruct V as ([]&s3&B3&V).
  apply bind_inv in V. destruct V as (te&s4&B4&V).
  apply bind_inv in V. destruct V as (ee&[g5 n5]&B5&V).
  exists s3, te, s4, ee, g5, n5. split; [exact B3|]. split; [exact B4|]. split; [exact B5|].
  destruct te as [a|]; [destruct ee as [b|]|]; inversion V; auto.
Qed.

(* both branches of an [if] end open, at a and b: a new block m and an edge to it from each *)
Lemma join_lay : forall g bb g5 a b, grows g bb g5 -> rok g bb g5 (Some a) -> rok g bb g5 (Some b) -> a <> b ->
  let m := length g5 in
  let g' := upd_nth b (add_succ m) (upd_nth a (add_succ m) (g5 ++ [empty_block])) in
  grows g bb g' /\ rok g bb g' (Some m) /\ slen g' m = 0 /\ ext g5 g' /\ (Inv g5 -> Inv g') /\
  jump g' (a, slen g5 a) m /\ jump g' (b, slen g5 b) m.
Proof.
  intros g bb g5 a b Gr (Oa&Na&Da) (Ob&Nb&Db) Nab m g'. pose proof (grows_length _ _ _ Gr) as L5.
  pose proof Oa as (La&_). pose proof Ob as (Lb&_).
  set (g1 := g5 ++ [empty_block]). set (g2 := upd_nth a (add_succ m) g1).
  assert (Aa1 : opn_at g1 a (slen g5 a)) by apply opn_at_app, opn_at_slen, Oa.
  assert (Ab2 : opn_at g2 b (slen g5 b)) by (apply opn_at_upd; [apply opn_at_app, opn_at_slen, Ob | auto]).
  pose proof (grows_link g1 a m (proj1 Aa1)) as G12. pose proof (jump_link g1 a _ m Aa1 Na) as Ja.
  pose proof (grows_link g2 b m (proj1 Ab2)) as G23. pose proof (jump_link g2 b _ m Ab2 Nb) as Jb.
  fold g2 in G12, Ja. fold g' in G23, Jb.
  assert (Om : forall h, length g1 <= length h -> okid h m).
  { unfold okid, m, g1, exit_idx in *. intros h. rewrite app_length. simpl. lia. }
  assert (Fm : opn_at g' m 0) by (apply opn_at_upd; [apply opn_at_upd; [apply opn_at_new|] |]; unfold m; lia).
  split.
  { eapply grows_trans; [| exact G23 | exact Db]. eapply grows_trans; [| exact G12 | exact Da].
    eapply grows_trans; [exact Gr | apply grows_new | left; reflexivity]. }
  split; [split; [apply Fm | unfold m, exit_idx in *; split; [lia | right; lia]]|]. split; [apply Fm|].
  split.
  { eapply ext_trans; [eapply grows_ext; apply (grows_new g5 0)|]. eapply ext_trans; eapply grows_ext; eauto. }
  split; [intros I; apply Inv_link; [apply Inv_link; [apply Inv_new, I|] |]; apply Om; [|apply (grows_length _ _ _ G12)]; auto|].
  split; [exact (jump_ext g2 g' _ _ (grows_ext _ _ _ G23) Ja) | exact Jb].
Qed.

Lemma lay_if : forall c body orelse, cond_lay c -> stmts_lay body -> stmts_lay orelse -> stmt_lay (SIf c body orelse).
Proof.
  intros c body orelse Hc Hb Ho bb j g n r s' V k O. pose proof O as (_&_&Ne).
  destruct (visit_if_inv _ _ _ _ _ _ _ _ _ V) as (s3&te&s4&ee&g5&n5&B3&B4&B5&Fin). clear V.
  destruct (diamond g bb k O) as (A2&X2&X3&K).
  set (T := length g) in *. set (gg := (g ++ [empty_block]) ++ [empty_block]) in *.
  destruct (Hc bb T (S T) gg n s3 B3 _ A2) as (g3&n3&->&T3&Gr3&I3&Br3).
  destruct (K g3 Gr3) as (FT3&K3).
  destruct (lay_in_fresh body Hb T j g3 n3 te s4 B4 FT3) as (g4&n4&->&T4&Gr4&R4&I4&Lay4).
  destruct (K3 g4 te Gr4 R4) as (FE4&K4).
  destruct (lay_in_fresh orelse Ho (S T) j g4 n4 ee (mkB g5 n5) B5 FE4) as (g5'&n5'&Eq&T5&Gr5&R5&I5&Lay5).
  inversion Eq; subst g5' n5'; clear Eq.
  destruct (K4 g5 ee Gr5 R5) as (G05&E35&E45&R05&Keep).
  pose proof (Tmp_trans _ _ _ (Tmp_trans _ _ _ T3 T4) T5) as T05.
  assert (I05: Inv g -> targets_ok g j -> Inv g5).
  { intros I Tj. pose proof (grows_length _ _ _ Gr3) as L3. pose proof (grows_length _ _ _ Gr4) as L4.
    apply I5; [apply I4; [apply I3; [apply Inv_new, Inv_new, I | |]; unfold okid, exit_idx in *; lia_by X2 X3 Ne|]|];
      (eapply targets_mono; [exact Tj|lia_by L3 X2 L4]). }
  (* the part of the layout common to all merge shapes, stated in any extension of g5 *)
  assert (Lay: forall G e, ext g5 G -> joined G (exit_of g4 te) (exit_of g5 ee) e ->
            lay_s G (SIf c body orelse) (bb, k) j e).
  { intros G e E Jn. exists T, (S T), (exit_of g4 te), (exit_of g5 ee).
    split; [exact (Br3 G (ext_trans _ _ _ E35 E))|]. split; [exact (Lay4 G (ext_trans _ _ _ E45 E))|].
    split; [exact (Lay5 G E) | exact Jn]. }
  destruct te as [a|]; [destruct (Keep a eq_refl) as (Ra&SLa&Nab); destruct ee as [b|]|]; destruct Fin as (->&->).
  - destruct (join_lay g bb g5 a b G05 Ra R05 (Nab b eq_refl)) as (GrM&Rm&Sm&ExtM&IM&Ja&Jb).
    eexists _, n5. split; [reflexivity|]. split; [exact T05|]. split; [exact GrM|]. split; [exact Rm|]. split; [auto|].
    intros G E. apply (Lay _ _ (ext_trans _ _ _ ExtM E)). simpl. exists (length g5). rewrite <- SLa, Sm.
    split; [exact (jump_ext _ _ _ _ E Ja)|]. split; [exact (jump_ext _ _ _ _ E Jb) | reflexivity].
  - (* the else branch jumps away *)
    exists g5, n5. split; auto. split; [exact T05|]. split; [exact G05|]. split; [exact Ra|]. split; [exact I05|].
    intros G E. apply (Lay _ _ E). simpl. rewrite SLa. reflexivity.
  - (* the then branch jumps away *)
    exists g5, n5. split; auto. split; [exact T05|]. split; [exact G05|]. split; [exact R05|]. split; [exact I05|].
    intros G E. apply (Lay _ _ E). reflexivity.
Qed.

Lemma visit_while_inv : forall c body bb j g n r s',
  visit_stmt (SWhile c body SNil) bb j (mkB g n) = BOk r s' ->
  exists s5 rb g6 n6,
    build_branch c (length g) (S (length g)) (S (S (length g)))
      (mkB ((upd_nth bb (add_succ (length g)) (g ++ [empty_block]) ++ [empty_block]) ++ [empty_block]) n) = BOk tt s5 /\
    visit_stmts body (S (length g)) (Some (S (length g)))
      (mkJ (j_ret j) (Some (length g)) (Some (S (S (length g))))) s5 = BOk rb (mkB g6 n6) /\
    r = Some (S (S (length g))) /\
    s' = mkB (linked rb (length g) g6) n6.
Proof.
  intros c body bb j g n r s' V. simpl in V. apply new_bind in V.
  apply bind_inv in V. destruct V as ([]&s1&B1&V). inversion B1; subst s1; clear B1. simpl in V.
  apply two_new_bind in V. rewrite upd_nth_length, app_length, Nat.add_1_r in V.
  apply bind_inv in V. destruct V as ([]&s5&B5&V).
  apply bind_inv in V. destruct V as (rb&[g6 n6]&B6&V).
  exists s5, rb, g6, n6. split; [exact B5|]. split; [exact B6|].
  destruct rb; inversion V; auto.
Qed.

Lemma loop_head : forall g bb k, here g bb k ->
  let H := length g in
  let g2 := upd_nth bb (add_succ H) (g ++ [empty_block]) in
  length g2 = S H /\ grows g bb g2 /\ jump g2 (bb, k) H /\ here g2 H 0 /\ (Inv g -> Inv g2).
Proof.
  intros g bb k O H g2. destruct (one_new g bb k O) as ((A1&N1&_)&L1&_&_&K).
  pose proof (grows_link _ bb H (proj1 A1)) as G12. fold g2 in G12. destruct (K g2 G12) as (OH&K2).
  split; [unfold g2; rewrite upd_nth_length; exact L1|]. split; [exact (K2 g2 (grows_refl _ _))|].
  split; [exact (jump_link _ bb k H A1 N1)|]. split; [exact OH|].
  intros I. apply Inv_link; [apply Inv_new, I|]. unfold okid. rewrite L1. destruct O as (_&_&Ne). unfold exit_idx, H in *. lia.
Qed.

(* A loop is its head block H and a diamond at H: the body, with its back edge to H, fills one of
   the two new blocks; the other is left open for what follows the loop. *)
Lemma lay_while : forall c body orelse, cond_lay c -> stmts_lay body -> stmt_lay (SWhile c body orelse).
Proof.
  intros c body orelse Hc Hb bb j g n r s' V k O. pose proof O as (_&_&Ne).
  destruct orelse; [|discriminate].
  destruct (visit_while_inv _ _ _ _ _ _ _ _ V) as (s5&rb&g6&n6&B5&B6&->&->). clear V.
  destruct (loop_head g bb k O) as (L2&G02&Jin&FH2&I02).
  set (H := length g) in *. set (g2 := upd_nth bb (add_succ H) (g ++ [empty_block])) in *.
  destruct (diamond g2 H 0 FH2) as (FH4&X2&X3&K). rewrite L2 in *.
  set (B := S H) in *. set (T := S B) in *. set (g4 := (g2 ++ [empty_block]) ++ [empty_block]) in *.
  destruct (Hc H B T g4 n s5 B5 0 FH4) as (g5&n5&->&T5&Gr5&I5&Br5).
  destruct (K g5 Gr5) as (FB5&K5).
  set (j' := mkJ (j_ret j) (Some H) (Some T)) in *.
  destruct (lay_in_fresh body Hb B j' g5 n5 rb (mkB g6 n6) B6 FB5) as (g6'&n6'&Eq&T6&Gr6&R6&I6&Lay6).
  inversion Eq; subst g6' n6'; clear Eq.
  (* the back edge, if the body falls through *)
  set (g7 := linked rb H g6). destruct (link_at g5 B g6 rb H Gr6 R6) as (Gr57&E67&Back). fold g7 in Gr57, E67, Back.
  assert (I7 : Inv g6 -> okid g6 H -> Inv g7) by (unfold g7; destruct rb; simpl; auto).
  destruct (K5 g7 None Gr57 I) as (((OT&ST)&NT&_)&K7). destruct (K7 g7 None (grows_refl g7 T) I) as (G27&E57&_).
  pose proof (grows_length _ _ _ Gr5) as L5. pose proof (grows_length _ _ _ Gr6) as L6. pose proof (grows_ext _ _ _ G27) as E27.
  exists g7, n6. split; auto. split; [exact (Tmp_trans _ _ _ T5 T6)|].
  split; [exact (grows_trans _ _ _ _ _ G02 G27 (or_intror (le_n H)))|].
  split; [split; [exact OT | split; [exact NT | right; unfold T, B; lia_by]]|].
  split.
  { intros Ig (A&_&_). apply I7; [|unfold okid, exit_idx in *; lia_by Ne L5 X2 L6].
    apply I6; [apply I5; [apply Inv_new, Inv_new, I02, Ig | |]; unfold okid; lia_by X2 X3|].
    split; [eapply okid_mono; [exact A|lia_by L5 X2]|].
    split; intros c0 E; inversion E; subst; unfold okid, exit_idx in *; lia_by Ne L5 X2 X3. }
  intros G E. split; [reflexivity|]. exists H, B, T, (exit_of g6 rb).
  split; [exact (jump_ext g2 G _ _ (ext_trans _ _ _ E27 E) Jin)|]. split; [exact (Br5 G (ext_trans _ _ _ E57 E))|].
  split; [exact (Lay6 G (ext_trans _ _ _ E67 E))|]. split; [intros a Ea; exact (jump_ext _ _ _ _ E (Back a Ea))|].
  unfold exit_of. rewrite ST. reflexivity.
Qed.

Definition exit_clean (G : list block) : Prop :=
  b_stmts (blk G exit_idx) = [] /\ b_succs (blk G exit_idx) = [].

Definition rawG (final : option nat) (g' : list block) : list block := linked final exit_idx g'.
Definition j0 : jumps := mkJ exit_idx None None.

Lemma body_lay : forall p final g' n', stmts_lay p ->
  visit_stmts p entry_idx (Some entry_idx) j0 init_state = BOk final (mkB g' n') ->
  let A := rawG final g' in
  grows (bs_blocks init_state) entry_idx g' /\ rok (bs_blocks init_state) entry_idx g' final /\
  (Inv (bs_blocks init_state) -> Inv A) /\ exit_clean A /\
  lay_l A p (0, 0) j0 (exit_of g' final) /\ forall a, exit_of g' final = Some a -> jump A a exit_idx.
Proof.
  intros p final g' n' H V A.
  destruct (H entry_idx (Some entry_idx) j0 (bs_blocks init_state) 0 final (mkB g' n') V) as (g''&n''&Eq&_&Gr&R&I&L).
  { simpl. split; [unfold opn; simpl; auto | discriminate]. }
  { simpl. unfold exit_idx. lia. }
  inversion Eq; subst g'' n''; clear Eq. simpl in Gr, R. specialize (L entry_idx eq_refl).
  assert (T0 : targets_ok (bs_blocks init_state) j0).
  { split; [unfold okid, j0, exit_idx; simpl; lia|]. split; intros; discriminate. }
  destruct (link_at _ _ g' final exit_idx Gr R) as (_&E&Out). fold A in E, Out.
  assert (IA : Inv g' -> Inv A).
  { intros Ig. pose proof (okid_mono _ _ _ (proj1 T0) (grows_length _ _ _ Gr)). unfold A. destruct final; simpl; auto. }
  split; [exact Gr|]. split; [exact R|]. split; [auto|]. split; [|split; [exact (L A E) | exact Out]].
  (* the exit block is not the current one: it is as in the initial state *)
  destruct Gr as (_&Fo&_). destruct (Fo exit_idx) as (S1&_&S3); [simpl; unfold exit_idx; lia | discriminate |].
  unfold exit_clean, A. destruct final as [fb|]; simpl; [destruct R as (_&Nfb&_); rewrite blk_upd_other by auto|];
    rewrite S1, S3; split; reflexivity.
Qed.

Variables (P : stmt -> bool) (Ps : stmts -> bool).
Hypothesis P_if : forall c b o, P (SIf c b o) = true -> cond_lay c /\ Ps b = true /\ Ps o = true.
Hypothesis P_while : forall c b o, P (SWhile c b o) = true -> cond_lay c /\ Ps b = true.
Hypothesis Ps_cons : forall s r, Ps (SCons s r) = true -> P s = true /\ Ps r = true.
Hypothesis P_value : forall s, P s = true ->
  match s with SAssign _ e | SAug _ _ e | SExpr e | SReturn (Some e) => val_lay e | _ => True end.

Theorem visit_lay : (forall s, P s = true -> stmt_lay s) /\ (forall ss, Ps ss = true -> stmts_lay ss).
Proof.
  apply stmt_mutind; intros.
  - exact (lay_value_stmt (SAssign t) e (P_value _ H)).
  - exact (lay_value_stmt (SAug x op) e (P_value _ H)).
  - apply lay_expr. exact (P_value _ H).
  - destruct (P_if _ _ _ H1) as (Hc&Hb&Ho). apply lay_if; auto.
  - destruct (P_while _ _ _ H1) as (Hc&Hb). apply lay_while; auto.
  - apply lay_break.
  - apply lay_continue.
  - apply lay_pass.
  - destruct e; [apply lay_return; exact (P_value _ H) | apply lay_return_none].
  - apply lay_nil.
  - destruct (Ps_cons _ _ H1). apply lay_cons; auto.
Qed.
End Layout.
