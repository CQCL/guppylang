(** C03 — the reachability pass and the pruning loop at the end of CFGBuilder.build do not
    change any run that starts at the entry block. *)
From Coq Require Import ZArith List Lia.
From V.C03 Require Import PySem Cfg CfgSem Builder ProofsBase ProofsLayout.
Import ListNotations.

Definition closed (A : list block) (fl : nat -> bool) : Prop :=
  forall i, i < length A -> fl i = true -> forall s, In s (b_succs (blk A i)) -> s < length A -> fl s = true.

Section RunAgree.
Variable oracle : trace -> nat -> list val -> val.

Lemma step_agree : forall (A B : cfg) (fl : nat -> bool),
  length A = length B -> (forall i, i < length A -> fl i = true -> sem_same (blk A i) (blk B i)) -> closed A fl ->
  forall c, (c_bb c < length A -> fl (c_bb c) = true) ->
  step oracle A c = step oracle B c /\
  forall c', step oracle A c = SNext c' -> (c_bb c' < length A -> fl (c_bb c') = true).
Proof.
  intros A B fl L H C c Hc. unfold step.
  destruct (Nat.eqb (c_bb c) exit_idx); [split; [auto | discriminate]|].
  destruct (Nat.lt_ge_cases (c_bb c) (length A)) as [Lt|Ge].
  - rewrite (nth_error_blk A) by auto. rewrite (nth_error_blk B) by lia.
    destruct (H _ Lt (Hc Lt)) as (S1&S2&S3). pose proof (C _ Lt (Hc Lt)) as Cl. rewrite S1, S2, S3.
    destruct (nth_error (b_stmts (blk A (c_bb c))) (c_pos c)) as [s|].
    + destruct (exec_simple oracle s (c_st c)) as [[st' r]| |]; split; auto; try discriminate.
      intros c' E. inversion E; subst. simpl. auto.
    + destruct (b_pred (blk A (c_bb c))) as [p|].
      * destruct (eval_truth oracle p (c_st c)) as [[t st']| |]; split; auto; try discriminate.
        destruct (nth_error (b_succs (blk A (c_bb c))) (if t then 1 else 0)) as [n|] eqn:N; try discriminate.
        intros c' E. inversion E; subst. simpl. apply Cl. eapply nth_error_In; eauto.
      * destruct (b_succs (blk A (c_bb c))) as [|n r] eqn:N; split; auto; try discriminate.
        intros c' E. inversion E; subst. simpl. apply Cl. left; auto.
  - replace (nth_error A (c_bb c)) with (@None block) by (symmetry; apply nth_error_None; lia).
    replace (nth_error B (c_bb c)) with (@None block) by (symmetry; apply nth_error_None; lia).
    split; [auto | discriminate].
Qed.

Lemma run_agree : forall (A B : cfg) (fl : nat -> bool),
  length A = length B -> (forall i, i < length A -> fl i = true -> sem_same (blk A i) (blk B i)) -> closed A fl ->
  forall fuel c, (c_bb c < length A -> fl (c_bb c) = true) ->
  run oracle A fuel c = run oracle B fuel c.
Proof.
  intros A B fl L H C. induction fuel; intros c Hc; simpl; auto.
  destruct (step_agree A B fl L H C c Hc) as (E&N). rewrite <- E.
  destruct (step oracle A c) eqn:S; auto.
Qed.
End RunAgree.

Lemma nth_reach_upd : forall seen i j, i < length seen ->
  nth_reach (upd_nth i (fun _ => true) seen) j = if Nat.eqb j i then true else nth_reach seen j.
Proof.
  unfold nth_reach. induction seen; intros; simpl in *; [lia|].
  destruct i; destruct j; simpl; auto. rewrite IHseen by lia. auto.
Qed.

Definition closedP (g : list block) (seen : list bool) (work : list nat) : Prop :=
  forall i, i < length g -> nth_reach seen i = true ->
  forall s, In s (b_succs (blk g i)) -> s < length g -> nth_reach seen s = true \/ In s work.

Lemma reach_wl_inv : forall fuel g work seen res,
  length seen = length g -> closedP g seen work ->
  reach_wl fuel g work seen = Some res ->
  length res = length g /\ closed g (nth_reach res) /\
  (forall i, nth_reach seen i = true -> nth_reach res i = true) /\
  (forall i, In i work -> i < length g -> nth_reach res i = true).
Proof.
  induction fuel; intros g work seen res L C H; destruct work as [|i rest]; simpl in H; try discriminate.
  1, 2: inversion H; subst; split; [exact L|]; split; [|split; [auto | intros i []]];
    intros i Hi Si s Hs Ls; destruct (C i Hi Si s Hs Ls) as [X|[]]; exact X.
  - destruct (nth_reach seen i) eqn:Si.
    + destruct (IHfuel g rest seen res L) as (A&B&M&W); auto.
      { intros i0 Hi0 S0 s Hs Ls. destruct (C i0 Hi0 S0 s Hs Ls) as [X|[X|X]]; auto. subst. auto. }
      repeat split; auto. intros i0 [X|X] Hi0; [subst; auto | auto].
    + destruct (nth_error g i) as [b|] eqn:Ni.
      * assert (Li: i < length g) by (apply nth_error_Some; congruence).
        assert (Bi: b = blk g i) by (rewrite nth_error_blk in Ni by auto; inversion Ni; auto).
        destruct (IHfuel g (b_succs b ++ rest) (upd_nth i (fun _ => true) seen) res) as (A&B&M&W); auto.
        { rewrite upd_nth_length; auto. }
        { intros i0 Hi0 S0 s Hs Ls. rewrite nth_reach_upd in * by lia.
          destruct (Nat.eqb_spec i0 i).
          - subst i0. right. apply in_or_app. left. rewrite Bi. auto.
          - destruct (C i0 Hi0 S0 s Hs Ls) as [X|[X|X]].
            + left. destruct (Nat.eqb s i); auto.
            + subst. left. rewrite Nat.eqb_refl. auto.
            + right. apply in_or_app. auto. }
        repeat split; auto.
        { intros i0 S0. apply M. rewrite nth_reach_upd by lia. destruct (Nat.eqb i0 i); auto. }
        { intros i0 [X|X] Hi0.
          - subst. apply M. rewrite nth_reach_upd by lia. rewrite Nat.eqb_refl. auto.
          - apply W; auto. apply in_or_app. auto. }
      * assert (Gi: length g <= i) by (apply nth_error_None; auto).
        destruct (IHfuel g rest seen res L) as (A&B&M&W); auto.
        { intros i0 Hi0 S0 s Hs Ls. destruct (C i0 Hi0 S0 s Hs Ls) as [X|[X|X]]; auto. subst. lia. }
        repeat split; auto. intros i0 [X|X] Hi0; [subst; lia | auto].
Qed.

Lemma nth_reach_false : forall (g : list block) i, nth_reach (map (fun _ => false) g) i = false.
Proof. unfold nth_reach. induction g; destruct i; simpl; auto. Qed.

Definition flagged (A : list block) (fl : nat -> bool) (X : list block) : Prop :=
  length X = length A /\ forall i, blk X i = put_reach (fl i) (blk A i).

Definition markF (p : block * bool) : block := let '(b, r) := p in put_reach r b.

Lemma mark_spec : forall g g1, exit_idx < length g -> mark_reachable g = Some g1 ->
  exists fl, flagged g fl g1 /\ closed g fl /\ fl entry_idx = true.
Proof.
  unfold mark_reachable. intros g g1 Ne H.
  destruct (reach_wl _ g [entry_idx] (map (fun _ => false) g)) as [res|] eqn:R; [|discriminate].
  inversion H; subst; clear H.
  destruct (reach_wl_inv _ _ _ _ _ (map_length _ _) (fun i Hi S0 => ltac:(rewrite nth_reach_false in S0; discriminate)) R)
    as (A&B&M&W).
  exists (nth_reach res). split; [split|split; [exact B|]].
  - rewrite map_length, combine_length, A. lia.
  - intros i. unfold blk.
    change (fun '(b, r) => put_reach r b) with markF.
    change empty_block with (markF (empty_block, false)) at 1.
    rewrite map_nth. rewrite combine_nth by auto. reflexivity.
  - apply W; [left; auto | unfold entry_idx, exit_idx in *; lia].
Qed.

Definition pruneF (g : list block) (b : block) : block :=
  mkBlock (b_stmts b) (b_pred b)
          (if b_reach b then b_succs b else filter (fun s => negb (blk_reach g s)) (b_succs b))
          (filter (fun s => negb (blk_reach g s)) (b_dummy b))
          (b_reach b).

Lemma blk_prune : forall g i, blk (prune g) i = pruneF g (blk g i).
Proof.
  intros. unfold blk, prune. change empty_block with (pruneF g empty_block) at 1.
  apply (map_nth (pruneF g)).
Qed.

Lemma prune_length : forall g, length (prune g) = length g.
Proof. intros. unfold prune. apply map_length. Qed.

Lemma prune_same : forall A fl X i, flagged A fl X -> fl i = true -> sem_same (blk A i) (blk (prune X) i).
Proof. intros A fl X i (_&B) Fi. rewrite blk_prune, B. unfold sem_same, pruneF. simpl. rewrite Fi. auto. Qed.

Lemma prune_run : forall oracle A fl X, flagged A fl X -> closed A fl -> fl entry_idx = true ->
  forall fuel st, run_cfg oracle A fuel st = run_cfg oracle (prune X) fuel st.
Proof.
  intros oracle A fl X F C E fuel st. apply run_agree with (fl := fl); auto.
  - rewrite prune_length. symmetry. apply F.
  - intros i Hi Fi. exact (prune_same A fl X i F Fi).
Qed.

(* [build]: its result is [rawG] of what the visit of the body leaves, with flags [fl] that hold of the entry
   block and are closed under successors, pruned *)
Lemma build_flagged : forall p rn g s, build p rn = BOk g s ->
  exists final g' n', visit_stmts p entry_idx (Some entry_idx) j0 init_state = BOk final (mkB g' n') /\
  (grows (bs_blocks init_state) entry_idx g' -> rok (bs_blocks init_state) entry_idx g' final ->
   let A := rawG final g' in
   exists X fl, g = prune X /\ flagged A fl X /\ closed A fl /\ fl entry_idx = true).
Proof.
  intros p rn g s B. unfold build in B. fold j0 in B.
  destruct (visit_stmts p entry_idx (Some entry_idx) j0 init_state) as [final [g' n']|] eqn:V; [|discriminate].
  exists final, g', n'. split; auto. cbn [bs_blocks] in B. intros Gr R.
  pose proof (grows_length _ _ _ Gr) as Lg. simpl in Lg.
  assert (XS : b_succs (blk g' exit_idx) = []).
  { destruct Gr as (_&Fo&_). destruct (Fo exit_idx) as (_&_&S0); [simpl; unfold exit_idx; lia | discriminate |].
    rewrite S0. reflexivity. }
  destruct (mark_reachable g') as [g1|] eqn:M; [|discriminate].
  destruct (mark_spec g' g1) as (fl&(L1&B1)&Cl&Ent); [unfold exit_idx; lia | auto |].
  destruct final as [fb|]; simpl in *.
  - (* the last block gets its edge to the exit after the flags; the exit block is flagged by hand *)
    destruct R as ((Lfb&Sfb&_)&_).
    set (A := upd_nth fb (add_succ exit_idx) g') in *.
    set (g2 := upd_nth fb (add_succ exit_idx) g1) in *.
    assert (LA: length A = length g') by (unfold A; apply upd_nth_length).
    assert (L2: length g2 = length g') by (unfold g2; rewrite upd_nth_length; auto).
    assert (B2: forall i, blk g2 i = put_reach (fl i) (blk A i)).
    { intros i. unfold g2, A. destruct (Nat.eq_dec fb i).
      - subst i. rewrite !blk_upd_same by lia. rewrite B1. reflexivity.
      - rewrite !blk_upd_other by auto. apply B1. }
    assert (SA: forall i, b_succs (blk A i) = if Nat.eqb i fb then [exit_idx] else b_succs (blk g' i)).
    { intros i. unfold A. destruct (Nat.eqb_spec i fb).
      - subst. rewrite blk_upd_same by auto. simpl. rewrite Sfb. auto.
      - rewrite blk_upd_other by auto. auto. }
    assert (BR : blk_reach g2 fb = fl fb).
    { unfold blk_reach. rewrite nth_error_blk by lia. rewrite B2. reflexivity. }
    rewrite BR in B. unfold flagged, closed. rewrite LA.
    destruct (fl fb) eqn:Rfb.
    + destruct rn; [|discriminate]. inversion B; subst; clear B.
      exists (upd_nth exit_idx (put_reach true) g2), (fun i => if Nat.eqb i exit_idx then true else fl i).
      split; [reflexivity|]. split; [split; [rewrite upd_nth_length; exact L2|]|split; [|exact Ent]].
      * intros i. destruct (Nat.eqb_spec i exit_idx).
        -- subst. rewrite blk_upd_same by (unfold exit_idx; lia). rewrite B2. reflexivity.
        -- rewrite blk_upd_other by auto. apply B2.
      * intros i Hi Fi s0 Hs Ls. rewrite SA in Hs.
        destruct (Nat.eqb_spec s0 exit_idx); auto.
        destruct (Nat.eqb_spec i fb); [destruct Hs as [Hs|[]]; congruence|].
        destruct (Nat.eqb_spec i exit_idx); [subst; rewrite XS in Hs; destruct Hs|].
        exact (Cl i Hi Fi s0 Hs Ls).
    + inversion B; subst; clear B. exists g2, fl.
      split; [reflexivity|]. split; [exact (conj L2 B2)|]. split; [|exact Ent].
      intros i Hi Fi s0 Hs Ls. rewrite SA in Hs.
      destruct (Nat.eqb_spec i fb); [subst; congruence|]. exact (Cl i Hi Fi s0 Hs Ls).
  - inversion B; subst; clear B. exists g1, fl. split; [reflexivity|]. split; [exact (conj L1 B1)|]. auto.
Qed.
