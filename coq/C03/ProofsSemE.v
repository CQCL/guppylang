(** C03 — what a run does in a graph that carries the layout of an expression (ProofsLayoutE.v): from
    the layout of a condition it reaches the true target exactly when Python finds the condition truthy
    ([bsound]); through that of a value expression, the position where the residual expression has
    Python's value ([vsound]).  [fcond_sound]: the conditions of [frag_cond], the two states equal;
    [lsafe_sound]: the expressions of Lift.v, the two states equal up to temporaries ([sim]). *)
From Coq Require Import ZArith List Lia.
From V.C03 Require Import PyAst PySem Cfg CfgSem Builder Frag Lift ProofsBase ProofsExpr ProofsSim
  ProofsLayout ProofsLayoutE.
Import ListNotations.

Definition at_ (c : nat * nat) (st : state) (ret : option val) : config := mkConfig (fst c) (snd c) st ret.

Section Run.
Variable oracle : trace -> nat -> list val -> val.
Variable G : cfg.

Lemma stmt_step : forall c s st st' rv ret, at_stmt G c s -> exec_simple oracle s st = Done (st', rv) ->
  steps oracle G (at_ c st ret) (at_ (next c) st' (match rv with Some v => Some v | None => ret end)).
Proof.
  intros [b k] s st st' rv ret (Nx&A) X. apply steps_one. unfold step, at_, next. simpl in *.
  rewrite (proj2 (Nat.eqb_neq _ _) Nx), nth_error_in, A, X; [reflexivity|].
  intros N. rewrite N in A. destruct k; discriminate.
Qed.

Lemma jump_steps : forall c t st ret, jump G c t -> steps oracle G (at_ c st ret) (mkConfig t 0 st ret).
Proof.
  intros [b k] t st ret (Nx&E&Pr&S). apply steps_one. unfold at_end in E. unfold step, at_. simpl in *. subst k.
  rewrite (proj2 (Nat.eqb_neq _ _) Nx), nth_error_in, nth_error_end, Pr, S; [reflexivity|].
  intros N. rewrite N in S. discriminate.
Qed.

Lemma branch_steps : forall c p t f st b st' ret, branch G c p t f -> eval_truth oracle p st = Done (b, st') ->
  steps oracle G (at_ c st ret) (mkConfig (if b then t else f) 0 st' ret).
Proof.
  intros [x k] p t f st b st' ret (Nx&E&Pr&S) X. apply steps_one. unfold at_end in E. unfold step, at_. simpl in *. subst k.
  rewrite (proj2 (Nat.eqb_neq _ _) Nx), nth_error_in, nth_error_end, Pr, X, S; [destruct b; reflexivity|].
  intros N. rewrite N in S. discriminate.
Qed.

Section Cond.
Variable Rel : state -> state -> Prop.
Variable Tmp : nat -> nat -> Prop.       (* the temporaries counter before and after: equal, or grown *)
Hypothesis Tmp_refl : forall n, Tmp n n.
Hypothesis Tmp_trans : forall a b c, Tmp a b -> Tmp b c -> Tmp a c.
Hypothesis Tmp_le : forall a b, Tmp a b -> a <= b.

Definition bsem (e : expr) (c0 : nat * nat) (n n1 t f : nat) : Prop :=
  forall stc stp b stp' ret, Rel stc stp -> eval_truth oracle e stp = Done (b, stp') ->
  exists stc', steps oracle G (at_ c0 stc ret) (mkConfig (if b then t else f) 0 stc' ret) /\
    Rel stc' stp' /\ tframe n n1 stc stc'.

(* [Tmp n n1] is a fact about the layout alone; it is proved along with [bsem] because the frames of the parts
   compose only when their counters are in order ([Tmp_le]), and the statement level asks it of every condition
   ([cond_lay]) *)
Definition bsound (L : blay) (e : expr) : Prop :=
  forall c0 n t f n1, L c0 n t f n1 -> Tmp n n1 /\ bsem e c0 n n1 t f.

Lemma const_sound : forall c, bsound (lay_b G (EConst (CBool c))) (EConst (CBool c)).
Proof.
  intros c c0 n t f n1 (J&->). split; [apply Tmp_refl|]. intros stc stp b stp' ret S X.
  inversion X; subst. exists stc. split; [exact (jump_steps c0 _ stc ret J)|]. split; [exact S | apply tframe_refl].
Qed.

Lemma not_sound : forall L a, bsound L a -> bsound (fun c0 n t f n1 => L c0 n f t n1) (EUnary UNot a).
Proof.
  intros L a Ha c0 n t f n1 V. destruct (Ha _ _ _ _ _ V) as (T&Sem). split; [exact T|].
  intros stc stp b stp' ret S X. apply eval_truth_not in X.
  destruct (Sem stc stp (negb b) stp' ret S X) as (stc'&St&S'). exists stc'. split; [destruct b; exact St | exact S'].
Qed.

Lemma bool_sound : forall op a b La Lb, bsound La a -> bsound Lb b -> bsound (lay_bool op La Lb) (EBool op a b).
Proof.
  intros op a b La Lb Ha Hb c0 n t f n1 (x&na&Va&Vb).
  set (ta := match op with BoAnd => x | BoOr => t end). set (fa := match op with BoAnd => f | BoOr => x end).
  destruct (Ha c0 n ta fa na) as (Ta&Sa); [destruct op; exact Va|]. destruct (Hb _ _ _ _ _ Vb) as (Tb&Sb).
  pose proof (Tmp_le _ _ Ta). pose proof (Tmp_le _ _ Tb). split; [exact (Tmp_trans _ _ _ Ta Tb)|].
  intros stc stp r stp' ret S X. apply eval_truth_bool in X. destruct X as (ra&st1&Ea&Eb).
  destruct (Sa stc stp ra st1 ret S Ea) as (stc1&T1&S1&F1).
  (* Python stops after [a], and so does the run, at the final target ... *)
  assert (Short: forall tgt, (if ra then ta else fa) = tgt -> stp' = st1 ->
            exists stc', steps oracle G (at_ c0 stc ret) (mkConfig tgt 0 stc' ret) /\ Rel stc' stp' /\ tframe n n1 stc stc').
  { intros tgt <- ->. exists stc1. split; auto. split; auto. eapply tframe_weaken; eauto. }
  (* ... or goes on with [b], the run in block x *)
  assert (Long: (if ra then ta else fa) = x -> eval_truth oracle b st1 = Done (r, stp') ->
            exists stc', steps oracle G (at_ c0 stc ret) (mkConfig (if r then t else f) 0 stc' ret) /\
              Rel stc' stp' /\ tframe n n1 stc stc').
  { intros Tg Xb. rewrite Tg in T1. destruct (Sb stc1 st1 r stp' ret S1 Xb) as (stc2&T2&S2&F2).
    exists stc2. split; [eapply steps_trans; eauto|]. split; auto. eapply tframe_trans with (mid := na); eauto. }
  destruct op; destruct ra.
  - apply Long; auto.
  - destruct Eb as (->&->). apply (Short f); auto.
  - destruct Eb as (->&->). apply (Short t); auto.
  - apply Long; auto.
Qed.

Lemma ifb_sound : forall c a b Lc La Lb, bsound Lc c -> bsound La a -> bsound Lb b ->
  bsound (lay_ifb Lc La Lb) (EIf c a b).
Proof.
  intros c a b Lc La Lb Hc Ha Hb c0 n t f n1 (tb&eb&nc&na&Vc&Va&Vb).
  destruct (Hc _ _ _ _ _ Vc) as (Tc&Sc). destruct (Ha _ _ _ _ _ Va) as (Ta&Sa). destruct (Hb _ _ _ _ _ Vb) as (Tb&Sb).
  pose proof (Tmp_le _ _ Tc). pose proof (Tmp_le _ _ Ta). pose proof (Tmp_le _ _ Tb).
  split; [exact (Tmp_trans _ _ _ (Tmp_trans _ _ _ Tc Ta) Tb)|].
  intros stc stp r stp' ret S X. apply eval_truth_if in X. destruct X as (rc&st1&Ec&Eab).
  destruct (Sc stc stp rc st1 ret S Ec) as (stc1&T1&S1&F1).
  destruct rc.
  - destruct (Sa stc1 st1 r stp' ret S1 Eab) as (stc2&T2&S2&F2).
    exists stc2. split; [eapply steps_trans; eauto|]. split; auto.
    eapply tframe_weaken with (lo := n) (hi := na); [eapply tframe_trans with (mid := nc); eauto | |]; lia.
  - destruct (Sb stc1 st1 r stp' ret S1 Eab) as (stc2&T2&S2&F2).
    exists stc2. split; [eapply steps_trans; eauto|]. split; auto.
    eapply tframe_trans with (mid := na); [lia | eapply tframe_weaken; eauto | exact F2].
Qed.
End Cond.

Lemma fleaf_sound : forall e, lift_free e = true -> bsound eq eq (lay_gen G (fun x => x) (lay_e G e)) e.
Proof.
  intros e LF c0 n t f n1 (e1&c1&V&Br). destruct (proj1 (lay_lift_free G) e LF _ _ _ _ _ V) as (->&->&->).
  split; [reflexivity|]. intros stc stp b stp' ret -> X.
  exists stp'. split; [|split; [reflexivity | eapply eval_truth_tframe; eauto]].
  apply (branch_steps _ _ _ _ _ _ _ _ Br). rewrite fold_neg_eval_truth. exact X.
Qed.

Lemma fct_sound : forall rest, frag_ctail rest = true -> forall l' c0 n t f n1, lay_ct G rest l' c0 n t f n1 ->
  n = n1 /\ forall st vl st_l v st' ret,
  eval oracle l' st = Done (vl, st_l) -> eval_ctail oracle vl rest st_l = Done (v, st') ->
  steps oracle G (at_ c0 st ret) (mkConfig (if truthy v then t else f) 0 st' ret).
Proof.
  induction rest as [op r | op m rest IH]; simpl; intros FC l' c0 n t f n1 H.
  - destruct H as (r1&c1&V&Br). destruct (proj1 (lay_lift_free G) r FC _ _ _ _ _ V) as (->&->&->).
    split; [reflexivity|]. intros st vl st_l v st' ret Hl Hc.
    apply (branch_steps _ _ _ _ _ _ _ _ Br). eapply eval_truth_cmp1; eauto.
  - destruct H as (x&Br&Tl). apply andb_prop in FC. destruct FC as [FC F3]. apply andb_prop in FC. destruct FC as [LF PU].
    destruct (IH F3 _ _ _ _ _ _ Tl) as (En&Sem). split; [exact En|]. intros st vl st_l v st' ret Hl Hc.
    destruct (eval oracle m st_l) as [[vm s1]| |] eqn:Em; simpl in Hc; try discriminate.
    assert (s1 = st_l) by (eapply (pure_eval oracle); eauto). subst s1.
    destruct (eval_cmpop op vl vm) as [c|] eqn:Cm; try discriminate.
    assert (EvP: eval_truth oracle (ECmp l' (CLast op (fold_neg m))) st = Done (c, st_l)).
    { replace c with (truthy (VBool c)) by reflexivity.
      eapply eval_truth_cmp1; eauto. simpl. rewrite Em. simpl. rewrite Cm. reflexivity. }
    pose proof (branch_steps _ _ _ _ _ _ _ ret Br EvP) as T1.
    destruct c.
    + eapply steps_trans; [exact T1|]. eapply Sem; eauto. rewrite residue_eval. exact Em.
    + inversion Hc; subst. exact T1.
Qed.

Theorem fcond_sound : forall e, frag_cond e = true -> bsound eq eq (lay_b G e) e.
Proof.
  induction e; intros FC; try exact (fleaf_sound _ FC).
  - destruct c; try exact (fleaf_sound (EConst _) FC). exact (const_sound eq eq (@eq_refl nat) _).
  - destruct op; try exact (fleaf_sound (EUnary _ e) FC). exact (not_sound eq eq _ _ (IHe FC)).
  - simpl in FC. apply andb_prop in FC. destruct rest as [op r | op m rest].
    + exact (fleaf_sound (ECmp e (CLast op r)) (andb_true_intro FC)).
    + intros c0 n t f n1 (l1&c1&nl&V&T). destruct (proj1 (lay_lift_free G) e (proj1 FC) _ _ _ _ _ V) as (->&->&->).
      destruct (fct_sound _ (proj2 FC) _ _ _ _ _ _ T) as (En&Sem). split; [exact En|].
      intros stc stp b stp' ret -> X. exists stp'. split; [|split; [reflexivity | eapply eval_truth_tframe; eauto]].
      apply eval_truth_cmp_inv in X. destruct X as (vl&st1&v&El&Ec&->).
      eapply Sem; eauto. rewrite fold_neg_eval. exact El.
  - simpl in FC. apply andb_prop in FC. exact (bool_sound eq eq (@eq_trans nat) Nat.eq_le_incl op _ _ _ _ (IHe1 (proj1 FC)) (IHe2 (proj2 FC))).
  - simpl in FC. apply andb_prop in FC. destruct FC as (FC&F3). apply andb_prop in FC.
    exact (ifb_sound eq eq (@eq_trans nat) Nat.eq_le_incl _ _ _ _ _ _ (IHe1 (proj1 FC)) (IHe2 (proj2 FC)) (IHe3 F3)).
Qed.

(* The run first goes through the lifted parts (c0 to c1, changing only the walrus targets [w] and the
   temporaries n..n1); evaluating the residual [ev'] there gives Python's value.  If the source is pure
   ([p]) the residual, which reads the variables [R], may as well be evaluated later. *)
Definition vsem {V : Type} (c0 c1 : nat * nat) (n n1 : nat) (w R : list nat) (p : bool)
    (ev ev' : state -> res (V * state)) : Prop :=
  forall stc stp v stp1 ret, sim stc stp -> ev stp = Done (v, stp1) ->
  exists stm, steps oracle G (at_ c0 stc ret) (at_ c1 stm ret) /\ mods w n n1 stc stm /\
    (exists stc1, ev' stm = Done (v, stc1) /\ sim stc1 stp1) /\
    (p = true -> stays ev' v R n1 stm).

Definition vsound {A V : Type} (L : vlay A) (w R : list nat) (p : bool)
    (ev : state -> res (V * state)) (evr : A -> state -> res (V * state)) : Prop :=
  forall c0 n a c1 n1, L c0 n a c1 n1 -> n <= n1 /\ vsem c0 c1 n n1 w R p ev (evr a).

(* a node's evaluation is that of its operands followed by a partial operation [f] on their values; [vsem] passes
   through it ([vsem_map]) *)
Definition lift_res {A B} (f : A -> option B) (q : A * state) : res (B * state) :=
  match f (fst q) with Some r => Done (r, snd q) | None => Fail end.

Lemma vsem_map : forall (A B : Type) c0 c1 n n1 w R p
    (ev ev' : state -> res (A * state)) (evB evB' : state -> res (B * state)) (f : A -> option B),
  vsem c0 c1 n n1 w R p ev ev' ->
  (forall st, evB st = rbind (ev st) (lift_res f)) -> (forall st, evB' st = rbind (ev' st) (lift_res f)) ->
  vsem c0 c1 n n1 w R p evB evB'.
Proof.
  intros A B c0 c1 n n1 w R p ev ev' evB evB' f H EB EB' stc stp v stp1 ret S X.
  rewrite EB in X. destruct (ev stp) as [[x s1]| |] eqn:E; simpl in X; try discriminate.
  unfold lift_res in X. simpl in X. destruct (f x) as [r|] eqn:F; inversion X; subst; clear X.
  destruct (H stc stp x stp1 ret S E) as (stm&T&M&(stc1&R1&S1)&P).
  exists stm. split; auto. split; auto. split.
  - exists stc1. split; auto. rewrite EB', R1. unfold lift_res. simpl. rewrite F. auto.
  - intros Pp w' hi stx Lh Mx Dx. rewrite EB', (P Pp w' hi stx Lh Mx Dx). unfold lift_res. simpl. rewrite F. auto.
Qed.

Lemma map_vsound : forall (A B V W : Type) (g : A -> B) (f : V -> option W) L w R p ev evr evB evrB,
  vsound L w R p ev evr ->
  (forall st, evB st = rbind (ev st) (lift_res f)) -> (forall a st, evrB (g a) st = rbind (evr a st) (lift_res f)) ->
  vsound (lay_map g L) w R p evB evrB.
Proof.
  intros A B V W g f L w R p ev evr evB evrB H EB EB' c0 n b c1 n1 (a&Va&->).
  destruct (H _ _ _ _ _ Va) as (Ln&Sem). split; [exact Ln|].
  exact (vsem_map _ _ _ _ _ _ _ _ _ _ _ _ _ f Sem EB (EB' a)).
Qed.

(* a layout without blocks or temporaries: the residual is evaluated where the run stands *)
Lemma vsem_here : forall (V : Type) c n w R p (ev ev' : state -> res (V * state)),
  (forall stc stp v stp1, sim stc stp -> ev stp = Done (v, stp1) -> exists stc1, ev' stc = Done (v, stc1) /\ sim stc1 stp1) ->
  (p = true -> forall stc stp v stp1, sim stc stp -> ev stp = Done (v, stp1) -> stays ev' v R n stc) ->
  vsem c c n n w R p ev ev'.
Proof.
  intros V c n w R p ev ev' H HP stc stp v stp1 ret S X. exists stc. split; [constructor|]. split; [apply mods_refl|].
  split; [exact (H _ _ _ _ S X)|]. intros Pp. exact (HP Pp _ _ _ _ S X).
Qed.

Definition pair_ev {VA VB : Type} (ea : state -> res (VA * state)) (eb : state -> res (VB * state)) :
    state -> res ((VA * VB) * state) :=
  fun st => do (va, s1) <- ea st; do (vb, s2) <- eb s1; Done ((va, vb), s2).

(* the lifted parts of the second operand run BEFORE the residual of the first is evaluated: either
   the first is pure and reads nothing the second re-binds, or the second has no lifted parts *)
Definition after_ok {B VB : Type} (pa : bool) (Ra : list nat) (Lb : vlay B) (wb : list nat)
    (evb : state -> res (VB * state)) (evrb : B -> state -> res (VB * state)) : Prop :=
  if pa then forall x, In x Ra -> ~ In x wb
  else exists b0, still Lb b0 /\ forall stc stp v stp1, sim stc stp -> evb stp = Done (v, stp1) ->
         exists stc1, evrb b0 stc = Done (v, stc1) /\ sim stc1 stp1.

Lemma seq_vsound : forall (A B C VA VB W : Type) (f : A -> B -> C) (k : VA * VB -> option W) La Lb wa wb Ra Rb pa pb
    (eva : state -> res (VA * state)) evra (evb : state -> res (VB * state)) evrb ev evr,
  vsound La wa Ra pa eva evra -> vsound Lb wb Rb pb evb evrb -> after_ok pa Ra Lb wb evb evrb ->
  (forall st, ev st = rbind (pair_ev eva evb st) (lift_res k)) ->
  (forall a b st, evr (f a b) st = rbind (pair_ev (evra a) (evrb b) st) (lift_res k)) ->
  vsound (lay_seq f La Lb) (wa ++ wb) (Ra ++ Rb) (pa && pb) ev evr.
Proof.
  intros A B C VA VB W f k La Lb wa wb Ra Rb pa pb eva evra evb evrb ev evr Ha Hb AO EB EB'
         c0 n x c1 n1 (a&cm&nm&b&Va&Vb&->).
  destruct (Ha _ _ _ _ _ Va) as (La1&Sa). destruct (Hb _ _ _ _ _ Vb) as (Lb1&Sb).
  split; [exact (Nat.le_trans _ _ _ La1 Lb1)|].
  apply (vsem_map _ _ _ _ _ _ _ _ _ _ _ _ _ k) with (3 := EB' a b) (2 := EB).
  intros stc stp v stp2 ret S X. unfold pair_ev in X.
  destruct (eva stp) as [[va s1]| |] eqn:Ea; simpl in X; try discriminate.
  destruct (evb s1) as [[vb s2]| |] eqn:Eb; simpl in X; try discriminate. inversion X; subst; clear X.
  destruct (Sa stc stp va s1 ret S Ea) as (stm1&T1&M1&(stc1&R1&S1)&P1).
  unfold after_ok in AO. destruct pa.
  - (* the first operand is pure: its residual changes nothing where it stands and keeps its value over the
       lifted parts of the second *)
    pose proof (P1 eq_refl) as St1. rewrite (stays_here _ _ _ _ _ _ St1) in R1. inversion R1; subst stc1.
    destruct (Sb stm1 s1 vb stp2 ret S1 Eb) as (stm2&T2&M2&(stc2&R2&S2)&P2).
    exists stm2. split; [eapply steps_trans; eauto|].
    split; [exact (mods_trans wa wb n nm n1 _ _ _ (conj La1 Lb1) M1 M2)|].
    split.
    { exists stc2. unfold pair_ev. rewrite (St1 wb n1 stm2 Lb1 M2 AO). simpl. rewrite R2. simpl. auto. }
    intros PP w' hi stx Lh Mx Dx. unfold pair_ev.
    rewrite (St1 (wb ++ w') hi stx (Nat.le_trans _ _ _ Lb1 Lh) (mods_trans wb w' nm n1 hi _ _ _ (conj Lb1 Lh) M2 Mx)).
    + simpl. rewrite (P2 PP w' hi stx Lh Mx); [reflexivity|]. intros y Hy. apply Dx, in_or_app. auto.
    + intros y Hy I. apply in_app_or in I. destruct I as [I|I]; [exact (AO y Hy I) | apply (Dx y); auto using in_or_app].
  - (* the first operand has a call or a walrus: the second has no lifted parts and is evaluated after it *)
    destruct AO as (b0&SB&Sim). destruct (SB _ _ _ _ _ Vb) as (->&->&->).
    destruct (Sim stc1 s1 vb stp2 S1 Eb) as (stc2&R2&S2).
    exists stm1. split; auto.
    split; [exact (mods_trans wa wb n nm nm _ _ _ (conj La1 (le_n nm)) M1 (mods_refl _ _ _ _))|].
    split; [exists stc2; unfold pair_ev; rewrite R1; simpl; rewrite R2; simpl; auto|].
    simpl. discriminate.
Qed.

Lemma leaf_vsound : forall e, nt e = true ->
  vsound (lay_leaf e) (wtargets e) (reads e) (pure e) (eval oracle e) (eval oracle).
Proof.
  intros e N c0 n a c1 n1 (->&->&->). split; [apply le_n|]. apply vsem_here.
  - intros stc stp v stp1. exact (eval_sim oracle e stc stp v stp1 N).
  - intros P stc stp v stp1 S X. exact (pure_stays oracle e stc stp v stp1 n P N S X).
Qed.

Lemma walrus_vsound : forall x a L,
  vsound L (wtargets a) (reads a) (pure a) (eval oracle a) (eval oracle) ->
  vsound (lay_walrus G x L) (x :: wtargets a) (reads a) false (eval oracle (EWalrus x a)) (eval oracle).
Proof.
  intros x a L Ha c0 n e1 c1 n1 (a1&ca&Va&As&->&->). destruct (Ha _ _ _ _ _ Va) as (Ln&Sem). split; [exact Ln|].
  intros stc stp v stp1 ret S X.
  simpl in X. destruct (eval oracle a stp) as [[v1 sp1]| |] eqn:Ea; simpl in X; try discriminate.
  inversion X; subst; clear X.
  destruct (Sem stc stp v sp1 ret S Ea) as (stm&T&M&(stc1&R1&S1)&_).
  set (stf := (upd (fst stc1) (VU x) v, snd stc1)).
  assert (XS: exec_simple oracle (SAssign (TName (VU x)) a1) stm = Done (stf, None)) by (simpl; rewrite R1; reflexivity).
  assert (SF: sim stf (upd (fst sp1) (VU x) v, snd sp1)) by (apply sim_upd_user; exact S1).
  exists stf. split; [eapply steps_trans; [exact T | exact (stmt_step ca _ stm stf None ret As XS)]|].
  split.
  { (* user variables are framed on the Python side, temporaries on the CFG side *)
    apply (mods_from_sim oracle (EWalrus x a) stc stp v _ stf n n1 S SF); [simpl; rewrite Ea; reflexivity|].
    intros i Ni. unfold stf, upd. simpl.
    rewrite (eval_tmp oracle a1 stm v stc1 i R1). apply M. auto. }
  split; [|discriminate].
  exists stf. simpl. unfold upd at 1. simpl. rewrite Nat.eqb_refl. split; [reflexivity | exact SF].
Qed.

Lemma call_vsound : forall f args L,
  vsound L (wtargets_list args) (reads_list args) (pure_list args) (eval_list oracle args) (eval_list oracle) ->
  vsound (lay_map (ECall f) L) (wtargets_list args) (reads_list args) false (eval oracle (ECall f args)) (eval oracle).
Proof.
  intros f args L Hl c0 n e1 c1 n1 (es1&V&->). destruct (Hl _ _ _ _ _ V) as (Ln&Sem). split; [exact Ln|].
  intros stc stp v stp1 ret S X. simpl in X.
  destruct (eval_list oracle args stp) as [[vs s2]| |] eqn:El; simpl in X; try discriminate.
  inversion X; subst; clear X.
  destruct (Sem stc stp vs s2 ret S El) as (stm&T&M&(stc1&R1&(T1&U1))&_).
  exists stm. split; auto. split; auto. split; [|discriminate].
  eexists. simpl. rewrite R1. simpl. rewrite T1. split; [reflexivity|]. split; simpl; auto.
Qed.

Lemma gen_bsound : forall e L w R p, vsound L w R p (eval oracle e) (eval oracle) ->
  bsound sim le (lay_gen G (fun x => x) L) e.
Proof.
  intros e L w R p H c0 n t f n1 (e1&c1&V&Br). destruct (H _ _ _ _ _ V) as (Ln&Sem). split; [exact Ln|].
  intros stc stp b stp' ret S X. destruct (eval_truth_inv oracle _ _ _ _ X) as (v&Ev&->).
  destruct (Sem stc stp v stp' ret S Ev) as (stm&T&M&(stc1&R1&S1)&_).
  assert (EvT: eval_truth oracle e1 stm = Done (truthy v, stc1)) by (unfold eval_truth; rewrite R1; reflexivity).
  exists stc1. split; [eapply steps_trans; [exact T | exact (branch_steps _ _ _ _ _ _ _ ret Br EvT)]|].
  split; [exact S1|]. intros i Ni. destruct M as (_&MT).
  rewrite (eval_tmp oracle e1 stm v stc1 i R1). apply MT; auto.
Qed.

(* the end of a merged value: [%tmp k = e1] runs at [stm], where [e1] has Python's value [v] of [e]; from [stc] only
   walrus targets of [e] and temporaries n .. k have changed, and the name %tmp k has the value [v] and keeps it *)
Lemma tmp_result : forall e e1 k n stc stp v stp1 stm stc1,
  sim stc stp -> eval oracle e stp = Done (v, stp1) ->
  eval oracle e1 stm = Done (v, stc1) -> sim stc1 stp1 -> tframe n k stc stm -> n <= k ->
  let stf := (upd (fst stc1) (VT k) v, snd stc1) in
  exec_simple oracle (tmp_assign k e1) stm = Done (stf, None) /\
  mods (wtargets e) n (S k) stc stf /\
  (exists stc2, eval oracle (EName (VT k)) stf = Done (v, stc2) /\ sim stc2 stp1) /\
  forall R, stays (eval oracle (EName (VT k))) v R (S k) stf.
Proof.
  intros e e1 k n stc stp v stp1 stm stc1 Ss X R1 S1 F L stf.
  assert (Lk: fst stf (VT k) = Some v) by (unfold stf, upd; simpl; rewrite Nat.eqb_refl; reflexivity).
  split; [unfold tmp_assign; simpl; rewrite R1; reflexivity|]. split.
  { apply (mods_from_sim oracle e stc stp v stp1 stf n (S k) Ss (sim_upd_tmp _ _ k v S1) X).
    intros i Ni. unfold stf. simpl. unfold upd. simpl. destruct (Nat.eqb_spec k i); [lia|].
    rewrite (eval_tmp oracle e1 stm v stc1 i R1). apply F. lia. }
  assert (EN: forall st, eval oracle (EName (VT k)) st = match fst st (VT k) with Some w => Done (w, st) | None => Fail end)
    by reflexivity.
  split; [exists stf; split; [rewrite EN, Lk; reflexivity | apply sim_upd_tmp; exact S1]|].
  intros R w' hi stx _ (_&MT) _. rewrite EN, (MT k), Lk by lia. reflexivity.
Qed.

Lemma ifv_vsound : forall e c Lc La Lb wa wb Ra Rb pa pb eva evb,
  bsound sim le Lc c -> vsound La wa Ra pa eva (eval oracle) -> vsound Lb wb Rb pb evb (eval oracle) ->
  (forall st v st1, eval oracle e st = Done (v, st1) ->
     exists t sc, eval_truth oracle c st = Done (t, sc) /\ (if t then eva sc else evb sc) = Done (v, st1)) ->
  vsound (lay_ifv G Lc La Lb) (wtargets e) (reads e) (pure e) (eval oracle e) (eval oracle).
Proof.
  intros e c Lc La Lb wa wb Ra Rb pa pb eva evb Hc Ha Hb HE c0 n e1 c1 n1
    (t&f&nc&a1&ca&na&b1&cb&nb&m&Vc&Va&Vb&Aa&Ja&Ab&Jb&->&->&->).
  destruct (Hc _ _ _ _ _ Vc) as (Lc1&Sc). destruct (Ha _ _ _ _ _ Va) as (La1&Sa). destruct (Hb _ _ _ _ _ Vb) as (Lb1&Sb).
  split; [lia|].
  intros stc stp v stp1 ret Ssim X. destruct (HE _ _ _ X) as (tc&sc&EcT&Eab).
  destruct (Sc stc stp tc sc ret Ssim EcT) as (stcc&T1&S1&F1).
  (* the branch Python takes ([evx], laid out from block x to cx with temporaries nlo..nhi and residual
     [ex]) and its tail: the temporary nb is assigned, then a jump to block m *)
  assert (End : forall x cx ex nlo nhi wx Rx px evx,
    vsem (x, 0) cx nlo nhi wx Rx px evx (eval oracle ex) ->
    at_stmt G cx (tmp_assign nb ex) -> jump G (next cx) m -> nc <= nlo -> nlo <= nhi -> nhi <= nb ->
    evx sc = Done (v, stp1) ->
    steps oracle G (at_ c0 stc ret) (mkConfig x 0 stcc ret) ->
    exists stm0, steps oracle G (at_ c0 stc ret) (at_ (m, 0) stm0 ret) /\ mods (wtargets e) n (S nb) stc stm0 /\
      (exists stc2, eval oracle (EName (VT nb)) stm0 = Done (v, stc2) /\ sim stc2 stp1) /\
      (pure e = true -> stays (eval oracle (EName (VT nb))) v (reads e) (S nb) stm0)).
  { intros x cx ex nlo nhi wx Rx px evx Sx Ax Jx L1 L2 L3 Ex Tx.
    destruct (Sx stcc sc v stp1 ret S1 Ex) as (stm&T2&M2&(stc1&R2&S2)&_).
    assert (Fm: tframe n nb stc stm).
    { intros i Ni. destruct M2 as (_&MT). rewrite MT by lia. apply F1. lia. }
    destruct (tmp_result e ex nb n stc stp v stp1 stm stc1 Ssim X R2 S2 Fm) as (XA&MM&RR&Stx); [lia|].
    eexists. split.
    { eapply steps_trans; [exact Tx|]. eapply steps_trans; [exact T2|].
      eapply steps_trans; [exact (stmt_step cx _ _ _ None ret Ax XA) | exact (jump_steps (next cx) m _ ret Jx)]. }
    split; [exact MM|]. split; [exact RR|]. intros _. apply Stx. }
  destruct tc.
  - apply (End t ca a1 nc na wa Ra pa eva); auto.
  - apply (End f cb b1 na nb wb Rb pb evb); auto.
Qed.

Lemma lift_vsound : forall e L, bsound sim le L e -> boolish e = true ->
  vsound (lay_lift G L) (wtargets e) (reads e) (pure e) (eval oracle e) (eval oracle).
Proof.
  intros e L Hb BO.
  apply (ifv_vsound e e L _ _ [] [] [] [] true true _ _ Hb
           (leaf_vsound (EConst (CBool true)) eq_refl) (leaf_vsound (EConst (CBool false)) eq_refl)).
  intros st v st1 X. destruct (boolish_val oracle e BO st v st1 X) as (t0&->).
  exists t0, st1. split; [unfold eval_truth; rewrite X; reflexivity | destruct t0; reflexivity].
Qed.

(* the comparisons from a pure, lift-free middle operand [m] on, which the block at c0 evaluates again *)
Definition ctsound (rest : ctail) : Prop :=
  lsafe_ctail rest = true -> nt_ctail rest = true -> forall m, pure m = true -> nt m = true ->
  match rest with CLast _ r => disjoint (reads m) (wtargets r) = true | CMore _ _ _ => True end ->
  forall c0 n t f n1, lay_ct G rest (fold_neg (residue m)) c0 n t f n1 ->
  n <= n1 /\ forall stm stp vm v stp' ret,
    sim stm stp -> eval oracle m stp = Done (vm, stp) -> eval_ctail oracle vm rest stp = Done (v, stp') ->
    exists stc', steps oracle G (at_ c0 stm ret) (mkConfig (if truthy v then t else f) 0 stc' ret) /\
      sim stc' stp' /\ tframe n n1 stm stc'.

Definition esound (e : expr) : Prop :=
  lsafe_val e = true -> nt e = true ->
  vsound (lay_e G e) (wtargets e) (reads e) (pure e) (eval oracle e) (eval oracle).
Definition lsound (es : exprs) : Prop :=
  lsafe_list es = true -> nt_list es = true ->
  vsound (lay_es G es) (wtargets_list es) (reads_list es) (pure_list es) (eval_list oracle es) (eval_list oracle).

Lemma last_ctsound : forall op r, esound r -> ctsound (CLast op r).
Proof.
  intros op r Hr LS N m Pm Nm DJ c0 n t f n1 H. simpl in LS, N, H. destruct H as (r1&c1&V&Br).
  destruct (Hr LS N _ _ _ _ _ V) as (Ln&Sem). split; [exact Ln|].
  intros stm stp vm v stp' ret S Em Ec.
  simpl in Ec. destruct (eval oracle r stp) as [[vr sp2]| |] eqn:Er; simpl in Ec; try discriminate.
  destruct (eval_cmpop op vm vr) as [c|] eqn:Cm; inversion Ec; subst; clear Ec.
  destruct (Sem stm stp vr stp' ret S Er) as (stm2&T&M&(stc2&R2&S2)&P).
  (* the lifted parts of r re-bind nothing that m reads *)
  pose proof (pure_stays oracle m stm stp vm stp n Pm Nm S Em _ n1 stm2 Ln M (disjoint_spec _ _ DJ)) as Em2.
  assert (EvP: eval_truth oracle (ECmp (fold_neg (residue m)) (CLast op r1)) stm2 = Done (c, stc2)).
  { unfold eval_truth. simpl. rewrite residue_eval, Em2. simpl. rewrite R2. simpl. rewrite Cm. reflexivity. }
  exists stc2. split; [eapply steps_trans; [exact T | exact (branch_steps _ _ _ _ _ _ _ ret Br EvP)]|].
  split; auto. intros i Ni.
  rewrite (eval_tmp oracle r1 stm2 vr stc2 i R2). destruct M as (_&MT). apply MT; auto.
Qed.

(* one comparison [l' op m] of a chain, at the end of the block at c0: [l'] is the residual of the first operand or a
   middle operand evaluated again; false leads to f, true to the block of the next comparison, which [ctsound rest]
   takes on to t or f *)
Lemma more_step : forall op m rest, ctsound rest ->
  lsafe_ctail (CMore op m rest) = true -> nt_ctail (CMore op m rest) = true ->
  forall l' c0 n t f n1, lay_ct G (CMore op m rest) l' c0 n t f n1 ->
  n <= n1 /\ forall stm vl stc1 sp1 v stp' ret,
    eval oracle l' stm = Done (vl, stc1) -> sim stc1 sp1 -> eval_ctail oracle vl (CMore op m rest) sp1 = Done (v, stp') ->
    exists stc', steps oracle G (at_ c0 stm ret) (mkConfig (if truthy v then t else f) 0 stc' ret) /\
      sim stc' stp' /\ tframe n n1 stc1 stc'.
Proof.
  intros op m rest IH LS N l' c0 n t f n1 H. simpl in LS, N, H. destruct H as (x&Br&Tl).
  apply andb_prop in LS. destruct LS as [LS DJ]. apply andb_prop in LS. destruct LS as [LS LR].
  apply andb_prop in LS. destruct LS as [LF PU]. apply andb_prop in N. destruct N as [Nm NR].
  assert (Dm : match rest with CLast _ r => disjoint (reads m) (wtargets r) = true | CMore _ _ _ => True end)
    by (destruct rest; auto).
  destruct (IH LR NR m PU Nm Dm _ _ _ _ _ Tl) as (Ln&Sem).
  split; [exact Ln|].
  intros stm vl stc1 sp1 v stp' ret El S1 Ec.
  simpl in Ec. destruct (eval oracle m sp1) as [[vm sp2]| |] eqn:Em; simpl in Ec; try discriminate.
  assert (sp2 = sp1) by (exact (pure_eval oracle m PU sp1 vm sp2 Em)). subst sp2.
  destruct (eval_cmpop op vl vm) as [c|] eqn:Cm; try discriminate.
  pose proof (pure_eval_sim oracle m stc1 sp1 vm sp1 PU Nm S1 Em) as Em1.
  assert (EvP: eval_truth oracle (ECmp l' (CLast op (fold_neg m))) stm = Done (c, stc1)).
  { unfold eval_truth. simpl. rewrite El. simpl. rewrite fold_neg_eval, Em1. simpl. rewrite Cm. reflexivity. }
  pose proof (branch_steps _ _ _ _ _ _ _ ret Br EvP) as T1.
  destruct c.
  - destruct (Sem stc1 sp1 vm v stp' ret S1 Em Ec) as (stc'&T2&S2&F2).
    exists stc'. split; [eapply steps_trans; eauto|]. split; auto.
  - inversion Ec; subst. simpl. exists stc1. split; auto. split; auto. apply tframe_refl.
Qed.

Lemma more_ctsound : forall op m2 rest, ctsound rest -> ctsound (CMore op m2 rest).
Proof.
  intros op m2 rest IH LS N m Pm Nm _ c0 n t f n1 H.
  destruct (more_step op m2 rest IH LS N _ _ _ _ _ _ H) as (Ln&St). split; [exact Ln|].
  intros stm stp vm v stp' ret S Em Ec. apply (St stm vm stm stp v stp' ret); auto.
  rewrite residue_eval. exact (pure_eval_sim oracle m stm stp vm stp Pm Nm S Em).
Qed.

Lemma chain_bsound : forall l op m rest, esound l -> ctsound rest ->
  lsafe_cond (ECmp l (CMore op m rest)) = true -> nt (ECmp l (CMore op m rest)) = true ->
  bsound sim le (lay_b G (ECmp l (CMore op m rest))) (ECmp l (CMore op m rest)).
Proof.
  intros l op m rest Hl Hr LS N c0 n t f n1 (l1&c1&nl&V&T).
  simpl in LS, N. apply andb_prop in LS. destruct LS as [LSl LS]. apply andb_prop in N. destruct N as [Nl N].
  destruct (Hl LSl Nl _ _ _ _ _ V) as (Ln1&Sem1). destruct (more_step op m rest Hr LS N _ _ _ _ _ _ T) as (Ln2&St).
  split; [exact (Nat.le_trans _ _ _ Ln1 Ln2)|].
  intros stc stp b stp' ret S X. destruct (eval_truth_cmp_inv oracle _ _ _ _ _ X) as (vl&sp1&v&El&Ec&->).
  destruct (Sem1 stc stp vl sp1 ret S El) as (stm&T1&M&(stc1&R1&S1)&_).
  destruct (St stm vl stc1 sp1 v stp' ret R1 S1 Ec) as (stc'&T2&S2&F2).
  exists stc'. split; [eapply steps_trans; eauto|]. split; [exact S2|].
  apply (tframe_trans n nl n1 stc stc1 stc' (conj Ln1 Ln2)); [|exact F2].
  intros k0 Nk. rewrite (eval_tmp oracle l1 stm vl stc1 k0 R1). destruct M as (_&MT). apply MT; auto.
Qed.

Lemma seq_after : forall a b, seq_ok a (wtargets b) (lift_free b) = true -> nt b = true ->
  after_ok (pure a) (reads a) (lay_e G b) (wtargets b) (eval oracle b) (eval oracle).
Proof.
  intros a b SQ N. unfold seq_ok in SQ. unfold after_ok. destruct (pure a) eqn:P.
  - exact (disjoint_spec _ _ SQ).
  - exists (fold_neg b). split; [exact (proj1 (lay_lift_free G) b SQ)|].
    intros stc stp v stp1 S X. rewrite fold_neg_eval. exact (eval_sim oracle b stc stp v stp1 N S X).
Qed.

Lemma seq_after_list : forall a r, seq_ok a (wtargets_list r) (lift_free_list r) = true -> nt_list r = true ->
  after_ok (pure a) (reads a) (lay_es G r) (wtargets_list r) (eval_list oracle r) (eval_list oracle).
Proof.
  intros a r SQ N. unfold seq_ok in SQ. unfold after_ok. destruct (pure a) eqn:P.
  - exact (disjoint_spec _ _ SQ).
  - exists (fold_neg_list r). split; [exact (proj1 (proj2 (lay_lift_free G)) r SQ)|].
    intros stc stp v stp1 S X. rewrite (proj1 (proj2 (fold_neg_eval_all oracle))).
    exact (eval_list_sim oracle r stc stp v stp1 N S X).
Qed.

Lemma unary_esound : forall op a, esound a -> esound (EUnary op a).
Proof.
  intros op a Ha LS N. simpl in LS, N.
  assert (HM : vsound (lay_map (EUnary op) (lay_e G a)) (wtargets a) (reads a) (pure a)
                 (eval oracle (EUnary op a)) (eval oracle)).
  { apply (map_vsound _ _ _ _ _ (eval_unop op) _ _ _ _ _ _ _ _ (Ha LS N));
      intros; simpl; destruct (eval oracle _ st) as [[v1 s2]| |]; reflexivity. }
  destruct op; try exact HM. destruct a; try exact HM. cbn [lay_e lay_unary]. destruct (neg_const c) as [c'|] eqn:NC; [|exact HM].
  (* -c folded: the constant has the value of the source *)
  destruct c; inversion NC; subst; exact (leaf_vsound (EConst _) eq_refl).
Qed.

Lemma bin_esound : forall op a b, esound a -> esound b -> esound (EBin op a b).
Proof.
  intros op a b Ha Hb LS N. simpl in LS, N.
  apply andb_prop in LS. destruct LS as [LS SQ]. apply andb_prop in LS. apply andb_prop in N.
  apply (seq_vsound _ _ _ _ _ _ (EBin op) (fun q => eval_binop op (fst q) (snd q)) _ _ _ _ _ _ _ _ _ _ _ _ _ _
           (Ha (proj1 LS) (proj1 N)) (Hb (proj2 LS) (proj2 N)) (seq_after a b SQ (proj2 N)));
    intros; simpl; unfold pair_ev;
    destruct (eval oracle _ st) as [[va s3]| |]; simpl; auto; destruct (eval oracle _ s3) as [[vb s4]| |]; reflexivity.
Qed.

Lemma cmp1_esound : forall l op r, esound l -> esound r -> esound (ECmp l (CLast op r)).
Proof.
  intros l op r Ha Hb LS N. simpl in LS, N.
  apply andb_prop in LS. destruct LS as [LS SQ]. apply andb_prop in LS. apply andb_prop in N.
  apply (seq_vsound _ _ _ _ _ _ (fun l1 r1 => ECmp l1 (CLast op r1))
           (fun q => match eval_cmpop op (fst q) (snd q) with Some c => Some (VBool c) | None => None end)
           _ _ _ _ _ _ _ _ _ _ _ _ _ _
           (Ha (proj1 LS) (proj1 N)) (Hb (proj2 LS) (proj2 N)) (seq_after l r SQ (proj2 N)));
    intros; simpl; unfold pair_ev, lift_res;
    destruct (eval oracle _ st) as [[va s3]| |]; simpl; auto; destruct (eval oracle _ s3) as [[vb s4]| |]; simpl; auto;
    destruct (eval_cmpop op va vb); reflexivity.
Qed.

Lemma cons_lsound : forall e r, esound e -> lsound r -> lsound (ECons e r).
Proof.
  intros e r He Hr LS N. simpl in LS, N.
  apply andb_prop in LS. destruct LS as [LS SQ]. apply andb_prop in LS. apply andb_prop in N.
  apply (seq_vsound _ _ _ _ _ _ ECons (fun q => Some (fst q :: snd q)) _ _ _ _ _ _ _ _ _ _ _ _ _ _
           (He (proj1 LS) (proj1 N)) (Hr (proj2 LS) (proj2 N)) (seq_after_list e r SQ (proj2 N)));
    intros; simpl; unfold pair_ev;
    destruct (eval oracle _ st) as [[va s3]| |]; simpl; auto; destruct (eval_list oracle _ s3) as [[vb s4]| |]; reflexivity.
Qed.

(* for a chain tail, the first conjunct is what the [ECmp] case asks of it: of a single comparison its right operand
   ([cmp1_esound]), of a longer chain [ctsound] behind the first middle operand ([chain_bsound], through [more_step]) *)
Theorem lsafe_sound :
  (forall e, esound e /\ (lsafe_cond e = true -> nt e = true -> bsound sim le (lay_b G e) e)) /\
  (forall es, lsound es) /\
  (forall t, match t with CLast _ r => esound r | CMore _ _ r' => ctsound r' end /\ ctsound t).
Proof.
  assert (Gen : forall e, esound e -> lsafe_val e = true -> nt e = true -> bsound sim le (lay_gen G (fun x => x) (lay_e G e)) e).
  { intros e He LS N. exact (gen_bsound e _ _ _ _ (He LS N)). }
  apply expr_mutind.
  - intros c. assert (V : esound (EConst c)) by (intros _ _; exact (leaf_vsound (EConst c) eq_refl)).
    split; [exact V|]. destruct c; try exact (Gen (EConst _) V). intros _ _. exact (const_sound sim le Nat.le_refl _).
  - intros x. assert (V : esound (EName x)) by (intros _ N; exact (leaf_vsound (EName x) N)).
    split; [exact V | exact (Gen (EName x) V)].
  - intros op a (Va&Ba). pose proof (unary_esound op a Va) as V. split; [exact V|].
    destruct op; try exact (Gen (EUnary _ a) V). intros LS N. exact (not_sound sim le _ _ (Ba LS N)).
  - intros op a (Va&_) b (Vb&_). pose proof (bin_esound op a b Va Vb) as V. split; [exact V | exact (Gen (EBin op a b) V)].
  - intros l (Vl&_) rest (Hr&Ct). destruct rest as [op r | op m rest].
    + pose proof (cmp1_esound l op r Vl Hr) as V. split; [exact V | exact (Gen (ECmp l (CLast op r)) V)].
    + pose proof (chain_bsound l op m rest Vl Hr) as B. split; [|exact B].
      intros LS N. exact (lift_vsound (ECmp l (CMore op m rest)) _ (B LS N) eq_refl).
  - intros op a (_&Ba) b (_&Bb).
    assert (B : lsafe_cond (EBool op a b) = true -> nt (EBool op a b) = true -> bsound sim le (lay_b G (EBool op a b)) (EBool op a b)).
    { intros LS N. simpl in LS, N. apply andb_prop in LS. apply andb_prop in N.
      exact (bool_sound sim le Nat.le_trans (fun _ _ H => H) op a b _ _ (Ba (proj1 LS) (proj1 N)) (Bb (proj2 LS) (proj2 N))). }
    split; [|exact B]. intros LS N. simpl in LS.
    apply andb_prop in LS. destruct LS as [LS Lb]. apply andb_prop in LS. destruct LS as [BO La].
    apply (lift_vsound (EBool op a b) _ (B (andb_true_intro (conj La Lb)) N) BO).
  - intros c (_&Bc) a (Va&Ba) b (Vb&Bb). split.
    + intros LS N. simpl in LS, N. apply andb_prop in LS. destruct LS as [LS L3]. apply andb_prop in LS.
      apply andb_prop in N. destruct N as [N N3]. apply andb_prop in N.
      apply (ifv_vsound (EIf c a b) c _ _ _ _ _ _ _ _ _ _ _ (Bc (proj1 LS) (proj1 N)) (Va (proj2 LS) (proj2 N)) (Vb L3 N3)).
      intros st v st1 X. simpl in X. destruct (eval oracle c st) as [[vc sc]| |] eqn:Ec; simpl in X; try discriminate.
      exists (truthy vc), sc. split; [unfold eval_truth; rewrite Ec; reflexivity | destruct (truthy vc); exact X].
    + intros LS N. simpl in LS, N. apply andb_prop in LS. destruct LS as [LS L3]. apply andb_prop in LS.
      apply andb_prop in N. destruct N as [N N3]. apply andb_prop in N.
      exact (ifb_sound sim le Nat.le_trans (fun _ _ H => H) c a b _ _ _ (Bc (proj1 LS) (proj1 N)) (Ba (proj2 LS) (proj2 N)) (Bb L3 N3)).
  - intros x a (Va&_). assert (V : esound (EWalrus x a)) by (intros LS N; exact (walrus_vsound x a _ (Va LS N))).
    split; [exact V | exact (Gen (EWalrus x a) V)].
  - intros f args Vs. assert (V : esound (ECall f args)) by (intros LS N; exact (call_vsound f args _ (Vs LS N))).
    split; [exact V | exact (Gen (ECall f args) V)].
  - intros es Vs. assert (V : esound (ETuple es)).
    { intros LS N. apply (map_vsound _ _ _ _ ETuple (fun vs => Some (VTuple vs)) _ _ _ _ _ _ _ _ (Vs LS N));
        intros; simpl; destruct (eval_list oracle _ st) as [[vs s2]| |]; reflexivity. }
    split; [exact V | exact (Gen (ETuple es) V)].
  - intros _ _ c0 n a c1 n1 (->&->&->). split; [apply le_n|]. apply vsem_here.
    + intros stc stp v stp1 S X. inversion X; subst. exists stc. split; [reflexivity | exact S].
    + intros _ stc stp v stp1 _ X w' hi stx _ _ _. inversion X. reflexivity.
  - intros e (Ve&_) es Vs. exact (cons_lsound e es Ve Vs).
  - intros op r (Vr&_). split; [exact Vr | exact (last_ctsound op r Vr)].
  - intros op m _ rest (_&Ct). split; [exact Ct | exact (more_ctsound op m rest Ct)].
Qed.

Corollary lsafe_val_sound : forall e, lsafe_val e = true -> nt e = true ->
  vsound (lay_e G e) (wtargets e) (reads e) (pure e) (eval oracle e) (eval oracle).
Proof. intros e. exact (proj1 (proj1 lsafe_sound e)). Qed.

Corollary lsafe_cond_sound : forall e, lsafe_cond e = true -> nt e = true -> bsound sim le (lay_b G e) e.
Proof. intros e. exact (proj2 (proj1 lsafe_sound e)). Qed.

End Run.
