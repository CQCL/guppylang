(** C03 — the lowering of array unpacking binds what Python binds. *)
From Coq Require Import List Arith Lia.
From V.C03 Require Import Unpack.

Section P.
Variable A : Type.

Lemma pops_left : forall num (arr : list A),
  pops A true num arr = if num <=? length arr then Some (firstn num arr, skipn num arr) else None.
Proof.
  induction num; intros [|x r]; simpl; auto. rewrite IHnum. destruct (num <=? length r); reflexivity.
Qed.

Lemma pops_right : forall num (arr : list A),
  pops A false num arr =
  if num <=? length arr then Some (rev (skipn (length arr - num) arr), firstn (length arr - num) arr) else None.
Proof.
  induction num; intros arr.
  - simpl. rewrite Nat.sub_0_r, skipn_all, firstn_all. reflexivity.
  - destruct arr as [|x r] using rev_ind; [reflexivity|]. clear IHr.
    simpl pops. unfold pop_right. rewrite rev_app_distr. simpl. rewrite rev_involutive, IHnum, app_length, Nat.add_1_r.
    change (S num <=? S (length r)) with (num <=? length r). destruct (num <=? length r); [|reflexivity].
    change (S (length r) - S num) with (length r - num).
    rewrite skipn_app, firstn_app, (proj2 (Nat.sub_0_le _ _) (Nat.le_sub_l _ _)).
    simpl. rewrite rev_app_distr, app_nil_r. reflexivity.
Qed.

Lemma skipn_skipn' : forall a b (l : list A), skipn a (skipn b l) = skipn (b + a) l.
Proof.
  induction b; intros; simpl; auto. destruct l; simpl; auto. destruct a; auto.
Qed.

(* the coded combination: patterns not reversed, popped elements reversed *)
Theorem assign_array_python : forall left starred right (xs : list A),
  assign_array A false true left starred right xs = py_unpack A left starred right xs.
Proof.
  intros left starred right xs. unfold assign_array, pop_assign, py_unpack. simpl. rewrite pops_left.
  set (k := length left). set (m := length right). set (n := length xs).
  destruct (Nat.le_gt_cases (k + m) n) as [P|P].
  - (* both pops succeed; without a starred target nothing may remain *)
    rewrite (proj2 (Nat.leb_le k n) (Nat.le_trans _ _ _ (Nat.le_add_r k m) P)), pops_right, skipn_length. fold n.
    rewrite (proj2 (Nat.leb_le m (n - k)) (Nat.le_add_le_sub_l _ _ _ P)), rev_involutive, skipn_skipn'.
    (* the subtractions by the library's equations: [lia] on truncated subtraction is dear to re-check *)
    assert (E2 : n - k - m = n - m - k) by (rewrite <- !Nat.sub_add_distr, (Nat.add_comm k m); reflexivity).
    rewrite E2, (Nat.add_comm k), (Nat.sub_add _ _ (Nat.le_add_le_sub_r _ _ _ P)).
    destruct starred as [s|]; [rewrite (proj2 (Nat.leb_le _ _) P); reflexivity|].
    destruct (Nat.eqb_spec (k + m) n) as [E|E].
    + rewrite <- E, Nat.add_sub, Nat.sub_diag. reflexivity.
    + destruct (firstn (n - m - k) (skipn k xs)) eqn:F; [|reflexivity].
      apply (f_equal (@length A)) in F. rewrite firstn_length, skipn_length in F. fold n in F. simpl in F. clear - P E F. lia.
  - (* one of the pops fails *)
    replace (match starred with Some _ => k + m <=? n | None => k + m =? n end) with false
      by (destruct starred; symmetry; [apply Nat.leb_gt | apply Nat.eqb_neq]; clear - P; lia).
    destruct (Nat.leb_spec k n) as [Lk|Lk]; [|reflexivity].
    rewrite pops_right, skipn_length. fold n. rewrite (proj2 (Nat.leb_gt m (n - k))) by (clear - P Lk; lia). reflexivity.
Qed.
End P.
