(** C03 — CFGBuilder.build, the whole function body: [build_preserves] for any reflexive [Rel] and
    any body satisfying [stmts_spec].  The conditions and value expressions of the two fragments meet
    [cond_spec], [val_spec] of ProofsStmt.v with the layouts of ProofsLayoutE.v; so [visit_spec_all] supplies
    [stmts_spec] for [frag_stmts] at [Rel = eq], [lvisit_spec_all] for [lsafe_stmts] (lifted expressions) at [sim].
    First, for [build_accepts_no_loop_else_thm] of Props.v: a body that visit_stmts accepts has no loop else
    ([visit_no_loop_else]). *)
From Coq Require Import ZArith List.
From V.C03 Require Import PyAst PySem Cfg CfgSem Builder Frag Lift ProofsBase ProofsExpr ProofsSim
  ProofsLayout ProofsLayoutE ProofsSemE ProofsStmt ProofsReach ProofsRefute.

Lemma visit_no_loop_else :
  (forall s bb j st r st', visit_stmt s bb j st = BOk r st' -> no_loop_else s = true) /\
  (forall ss prev cur j st r st', visit_stmts ss prev cur j st = BOk r st' -> no_loop_else_list ss = true).
Proof.
  apply stmt_mutind; intros; simpl; auto.
  - destruct st as [g n]. destruct (visit_if_inv _ _ _ _ _ _ _ _ _ H1) as (s3&te&s4&ee&g5&n5&_&B4&B5&_).
    rewrite (H _ _ _ _ _ _ B4), (H0 _ _ _ _ _ _ B5). reflexivity.
  - destruct orelse; [|discriminate]. destruct st as [g n].
    destruct (visit_while_inv _ _ _ _ _ _ _ _ H1) as (s5&rb&g6&n6&_&B6&_).
    rewrite (H _ _ _ _ _ _ B6). reflexivity.
  - simpl in H1.
    apply bind_inv in H1. destruct H1 as (b&s1&_&V).
    apply bind_inv in V. destruct V as (r1&s2&B2&V).
    rewrite (H _ _ _ _ _ B2), (H0 _ _ _ _ _ _ V). reflexivity.
Qed.

Section Build.
Variable oracle : trace -> nat -> list val -> val.
Variable Rel : state -> state -> Prop.
Hypothesis Rel_refl : forall st, Rel st st.
Variable layc : list block -> expr -> nat * nat -> nat -> nat -> Prop.
Variable layv : list block -> expr -> nat * nat -> nat * nat -> expr -> Prop.
Variable Tmp : nat -> nat -> Prop.
Notation stmts_spec := (stmts_spec oracle Rel layc layv Tmp).

Lemma run_halt : forall (G : cfg) (w : option val) (s2 : state),
  run oracle G 1 (mkConfig exit_idx 0 s2 w) = Done (match w with Some v => v | None => VNone end, s2).
Proof. reflexivity. Qed.

(* the graph as built, before flags and pruning *)
Lemma raw_run : forall p final g' n',
  stmts_spec p ->
  visit_stmts p entry_idx (Some entry_idx) j0 init_state = BOk final (mkB g' n') ->
  grows (bs_blocks init_state) entry_idx g' /\ rok (bs_blocks init_state) entry_idx g' final /\
  forall fuel st v st', exec_py oracle fuel p st = Done (v, st') ->
    exists fuel' st'', run_cfg oracle (rawG final g') fuel' st = Done (v, st'') /\ Rel st'' st'.
Proof.
  intros p final g' n' (SL&SS) V.
  destruct (body_lay layc layv Tmp (fun _ => True) (fun _ _ _ _ _ => I) p final g' n' SL V)
    as (Gr&R&_&_&L&Out).
  split; [exact Gr|]. split; [exact R|].
  intros fuel st v st' X. unfold exec_py in X.
  destruct (exec_list oracle fuel p st) as [[o st1]| |] eqn:XL; simpl in X; try discriminate.
  pose proof (SS _ _ _ _ L fuel st st o st1 None (Rel_refl st) XL) as OS.
  destruct o; try discriminate; inversion X; subst; clear X; simpl in OS.
  - destruct OS as (c1&stc'&Ec&T&S').
    pose proof (jump_steps oracle _ c1 exit_idx stc' None (Out c1 Ec)) as T2.
    destruct (steps_run oracle _ _ _ (steps_trans oracle _ _ _ _ T T2) 1 _ (run_halt _ None stc')) as (f'&RR).
    exists f', stc'. split; auto.
  - destruct OS as (stc'&T&S').
    destruct (steps_run oracle _ _ _ T 1 _ (run_halt _ (Some v) stc')) as (f'&RR).
    exists f', stc'. split; auto.
Qed.

Theorem build_preserves : forall p rn g s,
  stmts_spec p -> build p rn = BOk g s ->
  forall fuel st v st', exec_py oracle fuel p st = Done (v, st') ->
  exists fuel' st'', run_cfg oracle g fuel' st = Done (v, st'') /\ Rel st'' st'.
Proof.
  intros p rn g s SS B. destruct (build_flagged p rn g s B) as (final&g'&n'&V&K).
  destruct (raw_run p final g' n' SS V) as (Gr&R&Run).
  destruct (K Gr R) as (X&fl&->&FX&CX&E0).
  intros fuel st v st' XX. destruct (Run fuel st v st' XX) as (fuel'&st''&RR&SR). exists fuel', st''. split; auto.
  rewrite <- RR. symmetry. exact (prune_run oracle _ fl X FX CX E0 fuel' st).
Qed.

Corollary build_preserves_unique : forall p rn g s,
  stmts_spec p -> build p rn = BOk g s ->
  forall fuel st v st', exec_py oracle fuel p st = Done (v, st') ->
  forall fuel' r, run_cfg oracle g fuel' st = Done r -> fst r = v /\ Rel (snd r) st'.
Proof.
  intros p rn g s SS B fuel st v st' X fuel' r R.
  destruct (build_preserves p rn g s SS B fuel st v st' X) as (f2&st''&R2&S).
  unfold run_cfg in *. rewrite (run_done_unique _ _ _ _ _ _ _ R R2). auto.
Qed.
End Build.

(* below, [layc] and [layv] are the definitions of ProofsLayoutE.v; in the section above they are variables *)
Section Spec.
Variable oracle : trace -> nat -> list val -> val.

Lemma bsound_cond_spec : forall Rel Tmp c, (forall G, bsound oracle G Rel Tmp (lay_b G c) c) -> cond_spec oracle Rel layc Tmp c.
Proof.
  intros Rel Tmp c H. split.
  - apply cond_lays. intros G c0 n t f n1 L. exact (proj1 (H G _ _ _ _ _ L)).
  - intros G c0 t f (n&n1&L) stc stp b stp' ret S X.
    destruct (proj2 (H G _ _ _ _ _ L) stc stp b stp' ret S X) as (stc'&T&S'&_). eauto.
Qed.

Lemma frag_cond_spec : forall c, frag_cond c = true -> cond_spec oracle eq layc eq c.
Proof. intros c FC. exact (bsound_cond_spec eq eq c (fun G => fcond_sound oracle G c FC)). Qed.

Lemma lift_free_val : forall e, lift_free e = true -> val_spec oracle eq layv eq e.
Proof.
  intros e LF. split.
  - apply val_lays. intros G c0 n e1 c1 n1 L. symmetry. exact (proj2 (proj2 (proj1 (lay_lift_free G) e LF _ _ _ _ _ L))).
  - intros G c0 c1 e1 L stc stp v sp1 ret -> X. destruct L as (n&n1&Le).
    destruct (proj1 (lay_lift_free G) e LF _ _ _ _ _ Le) as (->&->&_).
    exists stp, sp1. split; [constructor|]. split; [auto|]. rewrite fold_neg_eval. auto.
Qed.

Lemma lsafe_cond_spec : forall c, lsafe_cond c = true -> nt c = true -> cond_spec oracle sim layc le c.
Proof. intros c LS N. exact (bsound_cond_spec sim le c (fun G => lsafe_cond_sound oracle G c LS N)). Qed.

Lemma lsafe_val_spec : forall e, lsafe_val e = true -> nt e = true -> val_spec oracle sim layv le e.
Proof.
  intros e LS N. split; [apply val_lays; intros G c0 n e1 c1 n1 L; exact (proj1 (lsafe_val_sound oracle G e LS N _ _ _ _ _ L))|].
  intros G c0 c1 e1 L stc stp v sp1 ret S X. destruct L as (n&n1&Le).
  destruct (proj2 (lsafe_val_sound oracle G e LS N _ _ _ _ _ Le) stc stp v sp1 ret S X)
    as (stm&T&(MU&_)&(stc1&R1&S1)&_).
  exists stm, stc1. auto.
Qed.

(* what [cond_spec] says of BranchBuilder.add_branch, in the builder's terms *)
Lemma cond_spec_builds : forall Rel Tmp c, cond_spec oracle Rel layc Tmp c -> forall bb t f g n s',
  build_branch c bb t f (mkB g n) = BOk tt s' -> opn g bb -> bb <> exit_idx -> exit_idx < length g ->
  exists g' n', s' = mkB g' n' /\ grows g bb g' /\ Tmp n n' /\
    forall G, ext g' G -> cruns oracle Rel G c (bb, slen g bb) t f.
Proof.
  intros Rel Tmp c (CL&CR) bb t f g n s' B O Nb Ne.
  destruct (CL bb t f g n s' B _ (conj (opn_at_slen g bb O) (conj Nb Ne))) as (g'&n'&Eq&Tn&Gr&_&Lay).
  exists g', n'. split; [exact Eq|]. split; [exact Gr|]. split; [exact Tn|]. intros G E. exact (CR G _ _ _ (Lay G E)).
Qed.

Lemma branch_ok : forall e, frag_cond e = true -> forall bb t f g n s',
  build_branch e bb t f (mkB g n) = BOk tt s' -> opn g bb -> bb <> exit_idx -> exit_idx < length g ->
  exists g', s' = mkB g' n /\ grows g bb g' /\
    forall G, ext g' G -> forall st b st' ret, eval_truth oracle e st = Done (b, st') ->
      steps oracle G (mkConfig bb (slen g bb) st ret) (mkConfig (if b then t else f) 0 st' ret).
Proof.
  intros e FC bb t f g n s' B O Nb Ne.
  destruct (cond_spec_builds eq eq e (frag_cond_spec e FC) bb t f g n s' B O Nb Ne) as (g'&n'&->&Gr&<-&Run).
  exists g'. split; [reflexivity|]. split; [exact Gr|]. intros G E st b st' ret X.
  destruct (Run G E st st b st' ret eq_refl X) as (stc'&T&->). exact T.
Qed.
End Spec.

(* a lift-free expression has no walrus: [P_value] at [SAug] for the lift-free fragment *)
Lemma lift_free_wtargets_all :
  (forall e, lift_free e = true -> wtargets e = nil) /\
  (forall es, lift_free_list es = true -> wtargets_list es = nil) /\
  (forall t, match t with CLast _ r => lift_free r = true -> wtargets r = nil | CMore _ _ _ => True end).
Proof.
  apply expr_mutind; simpl; try discriminate; auto.
  - intros op a Ha b Hb LF. apply andb_prop in LF. rewrite (Ha (proj1 LF)), (Hb (proj2 LF)). reflexivity.
  - intros l Hl [op r | op m rest] Hr LF; [|discriminate]. apply andb_prop in LF. simpl.
    rewrite (Hl (proj1 LF)), (Hr (proj2 LF)). reflexivity.
  - intros e He es Hs LF. apply andb_prop in LF. rewrite (He (proj1 LF)), (Hs (proj2 LF)). reflexivity.
Qed.

Theorem visit_spec_all : forall oracle,
  (forall s, frag_stmt s = true -> stmt_spec oracle eq layc layv eq s) /\
  (forall ss, frag_stmts ss = true -> stmts_spec oracle eq layc layv eq ss).
Proof.
  intros oracle.
  apply (visit_spec oracle eq layc layv eq (@eq_refl nat) (@eq_trans nat)); simpl; intros.
  - subst. reflexivity.
  - subst. eauto.
  - apply andb_prop in H. destruct H as [H Fo]. apply andb_prop in H. destruct H as [Fc Fb].
    split; [exact (frag_cond_spec oracle c Fc) | auto].
  - apply andb_prop in H. destruct H as [H _]. apply andb_prop in H. destruct H as [Fc Fb].
    split; [exact (frag_cond_spec oracle c Fc) | auto].
  - apply andb_prop. exact H.
  - destruct s; auto using lift_free_val.
    + split; [apply lift_free_val; exact H|]. rewrite (proj1 lift_free_wtargets_all e H). auto.
    + destruct e; auto using lift_free_val.
Qed.

Lemma assign_names_sim : forall xs vs (c p p' : store),
  (forall x, c (VU x) = p (VU x)) -> assign_names xs vs p = Some p' ->
  exists c', assign_names xs vs c = Some c' /\ (forall x, c' (VU x) = p' (VU x)).
Proof.
  induction xs; destruct vs; simpl; intros c p p' H A; try discriminate.
  - inversion A; subst. eauto.
  - eapply IHxs; [|exact A]. intros x. unfold upd. simpl. destruct (Nat.eqb a x); auto.
Qed.

(* the target may be a temporary: [sim] does not look at those *)
Lemma assign_target_sim : forall t v c p p', sim c p ->
  assign_target t v (fst p) = Some p' ->
  exists c', assign_target t v (fst c) = Some c' /\ sim (c', snd c) (p', snd p).
Proof.
  intros t v c p p' (T&U) A. destruct t as [y|xs]; simpl in *.
  - inversion A; subst. eexists. split; [reflexivity|]. split; simpl; auto.
    intros x. unfold upd. destruct (var_eqb y (VU x)); auto.
  - destruct v; try discriminate. destruct (assign_names_sim xs l (fst c) (fst p) p' U A) as (c'&A'&U').
    exists c'. split; auto. split; simpl; auto.
Qed.

Theorem lvisit_spec_all : forall oracle,
  (forall s, lsafe_stmt s = true -> stmt_spec oracle sim layc layv le s) /\
  (forall ss, lsafe_stmts ss = true -> stmts_spec oracle sim layc layv le ss).
Proof.
  intros oracle.
  apply (visit_spec oracle sim layc layv le Nat.le_refl Nat.le_trans); simpl; intros.
  - apply H.
  - apply assign_target_sim; auto.
  - apply andb_prop in H. destruct H as [H Fo]. apply andb_prop in H. destruct H as [H Fb].
    apply andb_prop in H. destruct H as [N Fc].
    split; [exact (lsafe_cond_spec oracle c Fc N) | auto].
  - apply andb_prop in H. destruct H as [H _]. apply andb_prop in H. destruct H as [H Fb].
    apply andb_prop in H. destruct H as [N Fc].
    split; [exact (lsafe_cond_spec oracle c Fc N) | auto].
  - apply andb_prop. exact H.
  - destruct s; auto.
    + apply andb_prop in H. destruct H as [H LS]. apply andb_prop in H. destruct H. auto using lsafe_val_spec.
    + apply andb_prop in H. destruct H as [H NW]. apply andb_prop in H. destruct H.
      split; [auto using lsafe_val_spec | exact (not_in_spec x _ NW)].
    + apply andb_prop in H. destruct H. auto using lsafe_val_spec.
    + destruct e; auto. apply andb_prop in H. destruct H. auto using lsafe_val_spec.
Qed.
