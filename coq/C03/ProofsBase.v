(** C03 — infrastructure for the simulation proof: block lists, the "extends" relation
    between builder states and final graphs, and multi-step execution. *)
From Coq Require Import ZArith List Lia.
From V.C03 Require Import PySem Cfg CfgSem Builder.
Import ListNotations.

Lemma bind_inv : forall A B (m : M A) (f : A -> M B) s b s',
  bind m f s = BOk b s' -> exists a s1, m s = BOk a s1 /\ f a s1 = BOk b s'.
Proof. unfold bind. intros. destruct (m s) eqn:E; [eauto | discriminate]. Qed.

Lemma ret_inv : forall A (a b : A) s s', ret a s = BOk b s' -> a = b /\ s = s'.
Proof. unfold ret. intros. inversion H; auto. Qed.

Definition blk (g : list block) (i : nat) : block := nth i g empty_block.

Lemma nth_error_blk : forall g i, i < length g -> nth_error g i = Some (blk g i).
Proof. intros. unfold blk. apply nth_error_nth'. auto. Qed.

Lemma blk_overflow : forall (g : list block) i, length g <= i -> blk g i = empty_block.
Proof. intros. unfold blk. apply nth_overflow. auto. Qed.

Lemma nth_error_in : forall g i, blk g i <> empty_block -> nth_error g i = Some (blk g i).
Proof.
  intros g i N. apply nth_error_blk. destruct (Nat.lt_ge_cases i (length g)); auto. destruct N. apply blk_overflow. auto.
Qed.

Lemma nth_error_end : forall A (l : list A), nth_error l (length l) = None.
Proof. intros. apply nth_error_None. auto. Qed.

Lemma upd_nth_length : forall A i (f : A -> A) l, length (upd_nth i f l) = length l.
Proof. induction i; destruct l; simpl; auto. Qed.

Lemma blk_upd_same : forall g i f, i < length g -> blk (upd_nth i f g) i = f (blk g i).
Proof. unfold blk. induction g; intros; simpl in *; [lia|]. destruct i; simpl; auto. apply IHg. lia. Qed.

Lemma blk_upd_other : forall g i j f, i <> j -> blk (upd_nth i f g) j = blk g j.
Proof.
  unfold blk. induction g; intros.
  - destruct i; destruct j; simpl; auto.
  - destruct i; destruct j; simpl; auto; try lia.
Qed.

Lemma blk_app_old : forall g i x, i < length g -> blk (g ++ [x]) i = blk g i.
Proof. intros. unfold blk. apply app_nth1. auto. Qed.

Lemma blk_app_new : forall g x, blk (g ++ [x]) (length g) = x.
Proof. intros. unfold blk. rewrite app_nth2; auto. rewrite Nat.sub_diag. auto. Qed.

(* all that a run looks at is the same; dummy successors and the reachable flag may differ *)
Definition sem_same (b b' : block) : Prop :=
  b_stmts b' = b_stmts b /\ b_pred b' = b_pred b /\ b_succs b' = b_succs b.

(* b' extends b: an open block (no successor yet) may gain statements and be closed;
   a closed block is final *)
Definition bext (b b' : block) : Prop :=
  (exists rest, b_stmts b' = b_stmts b ++ rest) /\ (b_succs b <> [] -> sem_same b b').

Lemma sem_same_refl : forall b, sem_same b b.
Proof. unfold sem_same; auto. Qed.

Lemma sem_same_trans : forall a b c, sem_same a b -> sem_same b c -> sem_same a c.
Proof. unfold sem_same; intros a b c (?&?&?) (?&?&?); repeat split; congruence. Qed.

Lemma sem_same_bext : forall a b, sem_same a b -> bext a b.
Proof. unfold bext. intros a b S. split; [exists []; rewrite app_nil_r; apply S | auto]. Qed.

Lemma bext_refl : forall b, bext b b.
Proof. intros. apply sem_same_bext, sem_same_refl. Qed.

Lemma bext_empty : forall b, bext empty_block b.
Proof. intros b. split; [eexists; simpl; eauto | simpl; congruence]. Qed.

Lemma bext_trans : forall a b c, bext a b -> bext b c -> bext a c.
Proof.
  unfold bext. intros a b c ((r1&H1)&C1) ((r2&H2)&C2). split.
  - exists (r1 ++ r2). rewrite H2, H1, app_assoc. auto.
  - intros N. pose proof (C1 N) as S1. assert (b_succs b <> []) by (destruct S1 as (_&_&->); auto).
    eapply sem_same_trans; eauto.
Qed.

Definition ext (g G : list block) : Prop :=
  length g <= length G /\ forall i, i < length g -> bext (blk g i) (blk G i).

Lemma ext_refl : forall g, ext g g.
Proof. split; auto. intros. apply bext_refl. Qed.

Lemma ext_trans : forall a b c, ext a b -> ext b c -> ext a c.
Proof. intros a b c (L1&H1) (L2&H2). split; [lia|]. intros. eapply bext_trans; [apply H1 | apply H2]; lia. Qed.

(* what one builder action does to the graph when [bb] is the block being filled *)
Definition grows (g : list block) (bb : nat) (g' : list block) : Prop :=
  length g <= length g' /\
  (forall i, i < length g -> i <> bb -> sem_same (blk g i) (blk g' i)) /\
  bext (blk g bb) (blk g' bb).

Lemma grows_ext : forall g bb g', grows g bb g' -> ext g g'.
Proof.
  intros g bb g' (L&F&B). split; auto. intros i Hi. destruct (Nat.eq_dec i bb); [subst; auto|].
  apply sem_same_bext; auto.
Qed.

Lemma grows_length : forall g bb g', grows g bb g' -> length g <= length g'.
Proof. intros g bb g' (L&_); auto. Qed.

Lemma grows_refl : forall g bb, grows g bb g.
Proof. repeat split; auto using sem_same_refl, bext_refl. apply bext_refl. Qed.

(* a current block bb >= length g (the block that code after a jump will get) reads as the empty
   block, which anything extends *)
Lemma grows_trans : forall g bb g1 bb1 g2,
  grows g bb g1 -> grows g1 bb1 g2 -> (bb1 = bb \/ length g <= bb1) -> grows g bb g2.
Proof.
  intros g bb g1 bb1 g2 (L1&F1&B1) (L2&F2&B2) D. split; [lia|]. split.
  - intros i Hi Ni. eapply sem_same_trans; [apply F1; auto|]. apply F2; [lia|]. destruct D; lia.
  - destruct D as [->|D]; [eapply bext_trans; eauto|].
    destruct (Nat.lt_ge_cases bb (length g)); [|rewrite blk_overflow by auto; apply bext_empty].
    eapply bext_trans; [apply B1|]. apply sem_same_bext. apply F2; lia.
Qed.

Lemma grows_other : forall g bb g' i, grows g bb g' -> i < length g -> i <> bb -> sem_same (blk g i) (blk g' i).
Proof. intros g bb g' i (_&F&_); auto. Qed.

Definition opn (g : list block) (i : nat) : Prop :=
  i < length g /\ b_succs (blk g i) = [] /\ b_pred (blk g i) = None.

Lemma opn_sem_same : forall g g' i, opn g i -> length g <= length g' -> sem_same (blk g i) (blk g' i) -> opn g' i.
Proof. unfold opn, sem_same. intros g g' i (?&?&?) L (?&?&?). repeat split; try lia; congruence. Qed.

Definition slen (g : list block) (i : nat) : nat := length (b_stmts (blk g i)).

Definition opn_at (g : list block) (i k : nat) : Prop := opn g i /\ slen g i = k.

Lemma opn_at_slen : forall g i, opn g i -> opn_at g i (slen g i).
Proof. split; auto. Qed.

Lemma grows_new : forall g bb, grows g bb (g ++ [empty_block]).
Proof.
  intros. split; [rewrite app_length; simpl; lia|]. split.
  - intros. rewrite blk_app_old; auto using sem_same_refl.
  - destruct (Nat.lt_ge_cases bb (length g)).
    + rewrite blk_app_old; auto using bext_refl.
    + rewrite blk_overflow by auto. apply bext_empty.
Qed.

Lemma grows_upd : forall g bb F, opn g bb ->
  (forall b, b_succs b = [] -> exists rest, b_stmts (F b) = b_stmts b ++ rest) ->
  grows g bb (upd_nth bb F g).
Proof.
  intros g bb F (L&O&_) HF. split; [rewrite upd_nth_length; auto|]. split.
  - intros. rewrite blk_upd_other; auto using sem_same_refl.
  - rewrite blk_upd_same by auto. split; [apply HF; auto | congruence].
Qed.

Lemma grows_dummy : forall g bb x n, grows g bb (upd_nth x (add_dummy n) g).
Proof.
  intros. assert (forall i, sem_same (blk g i) (blk (upd_nth x (add_dummy n) g) i)).
  { intros i. destruct (Nat.eq_dec x i).
    - subst. destruct (Nat.lt_ge_cases i (length g)).
      + rewrite blk_upd_same by auto. unfold sem_same; simpl; auto.
      + unfold blk. rewrite !nth_overflow; try rewrite upd_nth_length; auto using sem_same_refl.
    - rewrite blk_upd_other; auto using sem_same_refl. }
  split; [rewrite upd_nth_length; auto|]. split; auto using sem_same_bext.
Qed.

Section Exec.
Variable oracle : trace -> nat -> list val -> val.
Variable G : cfg.

Inductive steps : config -> config -> Prop :=
| steps_refl : forall c, steps c c
| steps_cons : forall c c1 c2, step oracle G c = SNext c1 -> steps c1 c2 -> steps c c2.

Lemma steps_trans : forall a b c, steps a b -> steps b c -> steps a c.
Proof. induction 1; intros; auto. econstructor; eauto. Qed.

Lemma steps_one : forall c c1, step oracle G c = SNext c1 -> steps c c1.
Proof. intros. econstructor; eauto. constructor. Qed.

Lemma steps_run : forall a b, steps a b -> forall f r, run oracle G f b = Done r ->
  exists f', run oracle G f' a = Done r.
Proof.
  induction 1; intros; eauto. destruct (IHsteps _ _ H1) as (f'&R). exists (S f'). simpl. rewrite H. auto.
Qed.

End Exec.
