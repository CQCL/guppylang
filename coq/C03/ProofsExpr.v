(** C03 — what ExprBuilder does on lift-free expressions: no block, no temporary, the
    expression with folded negative constants, which evaluates like the original. *)
From Coq Require Import List.
From V.C03 Require Import PyAst PySem Builder.

Lemma fold_neg_unary : forall op a,
  fold_neg (EUnary op a) = EUnary op (fold_neg a) \/
  exists c c', op = UNeg /\ a = EConst c /\ neg_const c = Some c' /\ fold_neg (EUnary op a) = EConst c'.
Proof.
  intros. destruct op; auto. destruct a; auto. simpl. destruct (neg_const c) eqn:E; auto.
  right. exists c, c0. auto.
Qed.

(* for C08 (ProofsBridgeD.v): the test of [visit_stmt] at [SExpr] on a lift-free expression *)
Lemma is_tmp_fold : forall e, is_tmp_name (fold_neg e) = true -> exists n, e = EName (VT n).
Proof.
  destruct e; simpl; try discriminate.
  - destruct x; try discriminate. eauto.
  - destruct (fold_neg_unary op e) as [E|(c&c'&_&_&_&E)]; simpl in E; rewrite E; discriminate.
Qed.

Section Eval.
Variable oracle : trace -> nat -> list val -> val.

Lemma fold_neg_eval_all :
  (forall e st, eval oracle (fold_neg e) st = eval oracle e st) /\
  (forall es st, eval_list oracle (fold_neg_list es) st = eval_list oracle es st) /\
  (forall t v st, eval_ctail oracle v (fold_neg_ctail t) st = eval_ctail oracle v t st).
Proof.
  apply expr_mutind; intros; auto.
  - destruct (fold_neg_unary op e) as [E|(c&c'&->&->&N&E)]; rewrite E.
    + simpl. rewrite H. auto.
    + destruct c; simpl in N; inversion N; subst; reflexivity.
  - simpl. rewrite H. destruct (eval oracle a st) as [[va st1]| |]; simpl; auto. rewrite H0. auto.
  - simpl. rewrite H. destruct (eval oracle l st) as [[va st1]| |]; simpl; auto.
  - simpl. destruct op; rewrite H; destruct (eval oracle a st) as [[va st1]| |]; simpl; auto; rewrite H0; auto.
  - simpl. rewrite H. destruct (eval oracle c st) as [[va st1]| |]; simpl; auto. rewrite H0, H1. auto.
  - simpl. rewrite H. auto.
  - simpl. rewrite H. auto.
  - simpl. rewrite H. auto.
  - simpl. rewrite H. destruct (eval oracle e st) as [[va st1]| |]; simpl; auto. rewrite H0. auto.
  - simpl. rewrite H. auto.
  - simpl. rewrite H. destruct (eval oracle e st) as [[va st1]| |]; simpl; auto.
    destruct (eval_cmpop op v va) as [[|]|]; auto.
Qed.

Lemma fold_neg_eval : forall e st, eval oracle (fold_neg e) st = eval oracle e st.
Proof. apply fold_neg_eval_all. Qed.

Lemma fold_neg_eval_truth : forall e st, eval_truth oracle (fold_neg e) st = eval_truth oracle e st.
Proof. intros. unfold eval_truth. rewrite fold_neg_eval. auto. Qed.

Lemma residue_eval : forall m st, eval oracle (fold_neg (residue m)) st = eval oracle m st.
Proof.
  intros. assert (R: residue m = m \/ residue m = fold_neg m).
  { destruct m; auto. destruct op; auto. destruct m; auto. }
  destruct R as [->| ->]; rewrite ?fold_neg_eval; auto.
Qed.

Lemma eval_truth_cmp1 : forall l' op r st vl st_l v st',
  eval oracle l' st = Done (vl, st_l) ->
  eval_ctail oracle vl (CLast op r) st_l = Done (v, st') ->
  eval_truth oracle (ECmp l' (CLast op (fold_neg r))) st = Done (truthy v, st').
Proof.
  unfold eval_truth. simpl. intros l' op r st vl st_l v st' Hl Hc. rewrite Hl. simpl. rewrite fold_neg_eval.
  destruct (eval oracle r st_l) as [[vr s1]| |]; simpl in *; try discriminate.
  destruct (eval_cmpop op vl vr); inversion Hc; subst; reflexivity.
Qed.
End Eval.

Lemma build_lift_free_all :
  (forall e, lift_free e = true -> forall bb s, build_expr e bb s = BOk (fold_neg e, bb) s) /\
  (forall es, lift_free_list es = true -> forall bb s, build_exprs es bb s = BOk (fold_neg_list es, bb) s) /\
  (forall t, match t with
             | CLast _ r => lift_free r = true -> forall bb s, build_expr r bb s = BOk (fold_neg r, bb) s
             | CMore _ _ _ => True
             end).
Proof.
  apply expr_mutind; intros;
    try match goal with H : lift_free _ = true |- _ => simpl in H end;
    try match goal with H : lift_free_list _ = true |- _ => simpl in H end;
    try discriminate; try reflexivity; auto.
  - specialize (H H0).
    change (build_expr (EUnary op e) bb s) with (bx_unary op e (build_expr e) bb s).
    destruct op; try (unfold bx_unary, bind; rewrite H; reflexivity).
    destruct e; try (unfold bx_unary, bind; rewrite H; reflexivity).
    unfold bx_unary. simpl. destruct (neg_const c); reflexivity.
  - apply andb_prop in H1. destruct H1 as [A B].
    change (build_expr (EBin op a b) bb s) with (bx_bin op (build_expr a) (build_expr b) bb s).
    unfold bx_bin, bind. rewrite (H A). simpl. rewrite (H0 B). reflexivity.
  - destruct rest; try discriminate. apply andb_prop in H1. destruct H1 as [A B].
    change (build_expr (ECmp l (CLast op e)) bb s) with (bx_cmp1 op (build_expr l) (build_expr e) bb s).
    unfold bx_cmp1, bind. rewrite (H A). simpl. rewrite (H0 B). reflexivity.
  - change (build_expr (ECall f args) bb s) with (bx_call f (build_exprs args) bb s).
    unfold bx_call, bind. rewrite (H H0). reflexivity.
  - change (build_expr (ETuple es) bb s) with (bx_tuple (build_exprs es) bb s).
    unfold bx_tuple, bind. rewrite (H H0). reflexivity.
  - apply andb_prop in H1. destruct H1 as [A B]. simpl. unfold bind. rewrite (H A). simpl. rewrite (H0 B). reflexivity.
Qed.

Lemma build_lift_free : forall e, lift_free e = true -> forall bb s, build_expr e bb s = BOk (fold_neg e, bb) s.
Proof. apply build_lift_free_all. Qed.
