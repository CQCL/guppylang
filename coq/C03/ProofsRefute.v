(** C03 — the CFG interpreter is deterministic and monotone in fuel; refutations by
    computation lift to statements about every fuel. *)
From Coq Require Import ZArith List Bool Lia.
From V.C03 Require Import PyAst PySem CfgSem Builder Witness.

Lemma run_mono : forall oracle g f c r, run oracle g f c = Done r ->
  forall f', f <= f' -> run oracle g f' c = Done r.
Proof.
  induction f as [|f IH]; intros c r H f' L; simpl in H; [discriminate|].
  destruct f' as [|f']; [lia|]. simpl.
  destruct (step oracle g c); try discriminate; auto.
  apply IH; auto; lia.
Qed.

Lemma run_done_unique : forall oracle g f1 f2 c r1 r2,
  run oracle g f1 c = Done r1 -> run oracle g f2 c = Done r2 -> r1 = r2.
Proof.
  intros. pose proof (run_mono _ _ _ _ _ H (Nat.max f1 f2) (Nat.le_max_l _ _)).
  pose proof (run_mono _ _ _ _ _ H0 (Nat.max f1 f2) (Nat.le_max_r _ _)). congruence.
Qed.

(** [refutes p]: the builder accepts p, Python's run of p from [st0] terminates normally, and
    no run of the built CFG (whatever the fuel) produces the same observation. *)
Definition refutes (p : stmts) : Prop :=
  exists g s rp, build p true = BOk g s /\
    exec_py test_oracle 50 p st0 = Done rp /\
    forall fuel rc, run_cfg test_oracle g fuel st0 = Done rc -> obs (Done rc) <> obs (Done rp).

Definition refutes_b (p : stmts) : bool :=
  match build p true with
  | BOk g _ =>
      match exec_py test_oracle 50 p st0, run_cfg test_oracle g 500 st0 with
      | Done rp, Done rc =>
          negb (forallb (fun '(a, b) => Z.eqb a b) (combine (obs (Done rc)) (obs (Done rp)))
                && Nat.eqb (length (obs (Done rc))) (length (obs (Done rp))))
      | _, _ => false
      end
  | BErr _ => false
  end.

Lemma list_Z_eq_combine : forall a b : list Z, a = b ->
  forallb (fun '(x, y) => Z.eqb x y) (combine a b) && Nat.eqb (length a) (length b) = true.
Proof.
  intros a b ->. apply andb_true_intro; split.
  - induction b; simpl; auto. rewrite Z.eqb_refl. auto.
  - apply Nat.eqb_refl.
Qed.

Lemma refutes_b_sound : forall p, refutes_b p = true -> refutes p.
Proof.
  unfold refutes_b, refutes. intros p H.
  destruct (build p true) as [g s|] eqn:B; [|discriminate].
  destruct (exec_py test_oracle 50 p st0) as [rp| |] eqn:E; try discriminate.
  destruct (run_cfg test_oracle g 500 st0) as [rc| |] eqn:R; try discriminate.
  exists g, s, rp. repeat split; auto.
  intros fuel rc' R' Heq.
  assert (rc' = rc) by (eapply run_done_unique; eauto). subst rc'.
  apply list_Z_eq_combine in Heq. rewrite Heq in H. discriminate.
Qed.
