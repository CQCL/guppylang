(** C27 — lemmas about option arrays: update, lookup, contents (as a list up to permutation);
    [swap]; when the array primitives succeed; [filled]; buffers with holes. *)
From Coq Require Import ZArith List Bool Lia Permutation.
From V.C27 Require Import ModelHeap.
Import ListNotations.
Open Scope Z_scope.

Section Cells.
  Context {Y : Type}.
  Notation cells := (list (option Y)).

  Definition len (b : cells) : Z := Z.of_nat (List.length b).

  Fixpoint entries (b : cells) : list Y :=
    match b with
    | [] => []
    | Some y :: t => y :: entries t
    | None :: t => entries t
    end.
  Definition olist (o : option Y) : list Y := match o with Some y => [y] | None => [] end.

  Lemma length_upd_nat : forall (b : cells) n x, List.length (upd_nat b n x) = List.length b.
  Proof. induction b; destruct n; simpl; intros; auto. Qed.

  Lemma nth_upd_nat_eq : forall (b : cells) n x, (n < List.length b)%nat -> nth n (upd_nat b n x) None = x.
  Proof. induction b; destruct n; simpl; intros; try lia; auto. apply IHb. lia. Qed.

  Lemma nth_upd_nat_neq : forall (b : cells) n m x, n <> m -> nth m (upd_nat b n x) None = nth m b None.
  Proof. induction b; destruct n; destruct m; simpl; intros; try lia; auto. Qed.

  Lemma entries_upd_nat : forall (b : cells) n x, (n < List.length b)%nat ->
    Permutation (olist (nth n b None) ++ entries (upd_nat b n x)) (olist x ++ entries b).
  Proof.
    induction b; intros n x H; simpl in H; try lia.
    destruct n; simpl.
    - destruct a, x; simpl; first [apply perm_swap | reflexivity].
    - assert (H' : (n < List.length b)%nat) by lia. specialize (IHb n x H').
      destruct a; simpl; auto.
      etransitivity; [apply Permutation_sym, Permutation_middle|].
      etransitivity; [|apply Permutation_middle]. constructor. exact IHb.
  Qed.

  Lemma idx_ok_iff : forall (b : cells) i, idx_ok b i = true <-> 0 <= i < len b.
  Proof. unfold idx_ok, len; intros. rewrite andb_true_iff, Z.leb_le, Z.ltb_lt. tauto. Qed.

  Lemma len_upd : forall (b : cells) i x, len (upd b i x) = len b.
  Proof. unfold len, upd; intros. now rewrite length_upd_nat. Qed.

  Lemma idx_ok_upd : forall (b : cells) i x j, idx_ok (upd b i x) j = idx_ok b j.
  Proof. unfold idx_ok, upd; intros. now rewrite length_upd_nat. Qed.

  Lemma bget_upd_ne : forall (b : cells) i x j, 0 <= i -> j <> i -> bget (upd b i x) j = bget b j.
  Proof.
    unfold bget, upd; intros b i x j Hi N. destruct (Z.leb_spec 0 j); auto. apply nth_upd_nat_neq. lia.
  Qed.

  Lemma bget_upd : forall (b : cells) i x j, 0 <= i < len b ->
    bget (upd b i x) j = if j =? i then x else bget b j.
  Proof.
    intros b i x j H. destruct (Z.eqb_spec j i) as [->|N]; [|apply bget_upd_ne; lia].
    unfold bget, upd, len in *. destruct (Z.leb_spec 0 i); try lia. apply nth_upd_nat_eq. lia.
  Qed.

  Lemma bget_some_range : forall (b : cells) j y, bget b j = Some y -> 0 <= j < len b.
  Proof.
    unfold bget, len; intros b j y H. destruct (Z.leb_spec 0 j); [|discriminate].
    destruct (Z.lt_ge_cases j (Z.of_nat (List.length b))); [lia|].
    rewrite nth_overflow in H by lia. discriminate.
  Qed.

  Lemma entries_upd : forall (b : cells) i x, 0 <= i < len b ->
    Permutation (olist (bget b i) ++ entries (upd b i x)) (olist x ++ entries b).
  Proof.
    unfold bget, upd, len; intros. destruct (Z.leb_spec 0 i); try lia.
    apply entries_upd_nat. lia.
  Qed.

  Lemma entries_take : forall (b : cells) i y, bget b i = Some y ->
    Permutation (entries b) (y :: entries (upd b i None)).
  Proof.
    intros b i y G. pose proof (entries_upd b i None (bget_some_range b i y G)) as P.
    rewrite G in P. simpl in P. now symmetry.
  Qed.

  Lemma entries_put : forall (b : cells) i y, 0 <= i < len b -> bget b i = None ->
    Permutation (entries (upd b i (Some y))) (y :: entries b).
  Proof. intros b i y H G. pose proof (entries_upd b i (Some y) H) as P. rewrite G in P. exact P. Qed.

  (** what one round of either sift loop does to the buffer *)
  Definition swap (b : cells) (i j : Z) : cells := upd (upd b i (bget b j)) j (bget b i).

  Lemma len_swap : forall (b : cells) i j, len (swap b i j) = len b.
  Proof. intros. unfold swap. now rewrite !len_upd. Qed.

  Lemma bget_swap : forall (b : cells) i j k, 0 <= i < len b -> 0 <= j < len b ->
    bget (swap b i j) k = if k =? j then bget b i else if k =? i then bget b j else bget b k.
  Proof. intros. unfold swap. rewrite !bget_upd by (rewrite ?len_upd; lia). reflexivity. Qed.

  Lemma entries_swap : forall (b : cells) i j, 0 <= i < len b -> 0 <= j < len b ->
    Permutation (entries (swap b i j)) (entries b).
  Proof.
    intros b i j Hi Hj. unfold swap.
    pose proof (entries_upd b i (bget b j) Hi) as P1.
    pose proof (entries_upd (upd b i (bget b j)) j (bget b i)) as P2.
    rewrite len_upd, bget_upd in P2 by lia.
    replace (if j =? i then bget b j else bget b j) with (bget b j) in P2 by (destruct (j =? i); reflexivity).
    eapply Permutation_app_inv_l. etransitivity; [exact (P2 Hj)|exact P1].
  Qed.

  Lemma take_some_ok : forall (b : cells) i y, bget b i = Some y -> take_some b i = Ok (y, upd b i None).
  Proof.
    intros b i y G. unfold take_some, a_take, a_swap.
    rewrite (proj2 (idx_ok_iff b i) (bget_some_range b i y G)). simpl. rewrite G. reflexivity.
  Qed.

  Lemma put_ok : forall (b : cells) i y, 0 <= i < len b -> bget b i = None ->
    put b i y = Ok (upd b i (Some y)).
  Proof.
    intros b i y H G. unfold put, a_swap.
    apply idx_ok_iff in H. rewrite H. simpl. rewrite G. reflexivity.
  Qed.

  Lemma take_some_nothing : forall (b : cells) i, 0 <= i < len b -> bget b i = None ->
    take_some b i = Panic msg_unwrap.
  Proof.
    intros b i H G. unfold take_some, a_take, a_swap.
    apply idx_ok_iff in H. rewrite H. simpl. rewrite G. reflexivity.
  Qed.

  Lemma a_get_ok : forall (b : cells) i, 0 <= i < len b -> a_get b i = Ok (bget b i).
  Proof. intros b i H. unfold a_get. apply idx_ok_iff in H. now rewrite H. Qed.

  (** the INVARIANT comment of both sources, n being `end` / `size` *)
  Definition filled (n : Z) (b : cells) : Prop :=
    forall j, 0 <= j -> (j < n -> bget b j <> None) /\ (n <= j -> bget b j = None).

  Lemma filled_some : forall n (b : cells) j, filled n b -> 0 <= j < n -> exists y, bget b j = Some y.
  Proof.
    intros n b j F Hj. destruct (bget b j) as [y|] eqn:G; [eauto|].
    exfalso. apply (proj1 (F j ltac:(lia))); [lia|exact G].
  Qed.

  Lemma bget_cons_succ : forall (a : option Y) (b : cells) j, 0 <= j -> bget (a :: b) (j + 1) = bget b j.
  Proof.
    intros a b j Hj. unfold bget. destruct (Z.leb_spec 0 (j + 1)); try lia. destruct (Z.leb_spec 0 j); try lia.
    replace (Z.to_nat (j + 1)) with (S (Z.to_nat j)) by lia. reflexivity.
  Qed.

  (** Between a take and the put that follows it a buffer has holes; these equations follow a
      loop round through them without reading the buffer cell by cell. *)
  Lemma upd_upd : forall (b : cells) i x y, upd (upd b i x) i y = upd b i y.
  Proof.
    intros b i. unfold upd. generalize (Z.to_nat i). induction b; destruct n; simpl; intros; f_equal; auto.
  Qed.

  Lemma upd_same : forall (b : cells) i, 0 <= i -> upd b i (bget b i) = b.
  Proof.
    unfold upd, bget. intros b i Hi. destruct (Z.leb_spec 0 i); [|lia].
    generalize (Z.to_nat i). induction b; destruct n; simpl; f_equal; auto.
  Qed.

  Lemma upd_comm : forall (b : cells) i k x y, 0 <= i -> 0 <= k -> i <> k ->
    upd (upd b i x) k y = upd (upd b k y) i x.
  Proof.
    unfold upd. intros b i k x y Hi Hk N. assert (N' : Z.to_nat i <> Z.to_nat k) by lia. revert N'.
    generalize (Z.to_nat i) (Z.to_nat k). induction b; intros [|n] [|m] N'; simpl; f_equal; auto; lia.
  Qed.

  Lemma put_hole : forall (b : cells) i y, 0 <= i < len b -> put (upd b i None) i y = Ok (upd b i (Some y)).
  Proof.
    intros b i y Hi. rewrite put_ok, upd_upd; rewrite ?len_upd, ?bget_upd, ?Z.eqb_refl; auto.
  Qed.

  Lemma put_take : forall (b : cells) i y, bget b i = Some y -> put (upd b i None) i y = Ok b.
  Proof.
    intros b i y G. pose proof (bget_some_range b i y G). rewrite put_hole, <- G, upd_same; auto; lia.
  Qed.

  Lemma filled_swap : forall n (b : cells) i k, filled n b -> n <= len b -> 0 <= i < n -> 0 <= k < n ->
    filled n (swap b i k).
  Proof.
    intros n b i k F Hn Hi Hk j Hj. rewrite bget_swap by lia.
    destruct (Z.eqb_spec j k) as [->|]; [split; [intros; now apply F|lia]|].
    destruct (Z.eqb_spec j i) as [->|]; [split; [intros; now apply F|lia]|apply F, Hj].
  Qed.

  Lemma filled_push : forall n (b : cells) y, filled n b -> 0 <= n < len b -> filled (n + 1) (upd b n (Some y)).
  Proof.
    intros n b y F Hn j Hj. rewrite bget_upd by lia.
    destruct (Z.eqb_spec j n); [split; [discriminate|lia]|]. split; intros; apply F; lia.
  Qed.

  Lemma filled_pop : forall n (b : cells), filled n b -> 0 < n <= len b -> filled (n - 1) (upd b (n - 1) None).
  Proof.
    intros n b F Hn j Hj. rewrite bget_upd by lia.
    destruct (Z.eqb_spec j (n - 1)); [split; [lia|reflexivity]|]. split; intros; apply F; lia.
  Qed.

  Lemma filled_set : forall n (b : cells) i y, filled n b -> 0 <= i < n -> n <= len b -> filled n (upd b i (Some y)).
  Proof.
    intros n b i y F Hi Hn j Hj. rewrite bget_upd by lia.
    destruct (Z.eqb_spec j i); [split; [discriminate|lia]|]. apply F, Hj.
  Qed.

  Lemma nothing_cells : forall b : cells, (forall j, 0 <= j -> bget b j = None) ->
    all_nothing b = Ok tt /\ entries b = [].
  Proof.
    induction b as [|a b IH]; intros H; simpl; auto.
    rewrite (H 0 ltac:(lia) : a = None). apply IH.
    intros j Hj. rewrite <- (bget_cons_succ a b j Hj). apply H. lia.
  Qed.

  Lemma bget_repeat_none : forall n j, bget (repeat (@None Y) n) j = None.
  Proof.
    intros. unfold bget. destruct (0 <=? j); auto. apply nth_repeat.
  Qed.

  Lemma entries_length_le : forall b : cells, (List.length (entries b) <= List.length b)%nat.
  Proof. induction b as [|[y|] b]; simpl; lia. Qed.

  Lemma bget_in_entries : forall (b : cells) j y, bget b j = Some y -> In y (entries b).
  Proof.
    intros b j y H. eapply Permutation_in; [symmetry; exact (entries_take b j y H)|]. now left.
  Qed.

  Lemma in_entries_bget : forall (b : cells) y, In y (entries b) -> exists j, 0 <= j /\ bget b j = Some y.
  Proof.
    induction b as [|a b]; simpl; intros y H; [contradiction|].
    assert (St : In y (entries b) -> exists j, 0 <= j /\ bget (a :: b) j = Some y).
    { intros H'. destruct (IHb y H') as (j & Hj & G). exists (j + 1). rewrite bget_cons_succ by lia. split; [lia|exact G]. }
    destruct a as [y0|]; [destruct H as [->|H]|]; auto.
    exists 0. split; [lia|reflexivity].
  Qed.

  Lemma entries_length_filled : forall (b : cells) n, filled n b -> 0 <= n <= len b ->
    Z.of_nat (List.length (entries b)) = n.
  Proof.
    intros b n F [Hn Hl]. revert b F Hl. pattern n. apply natlike_ind; [| |exact Hn]; clear n Hn.
    - intros b F _. destruct (nothing_cells b) as [_ ->]; [|reflexivity]. intros j Hj. now apply F.
    - intros n Hn IH b F Hl. destruct (filled_some _ b n F ltac:(lia)) as (y & G).
      pose proof (filled_pop _ b F ltac:(lia)) as F'. replace (Z.succ n - 1) with n in F' by lia.
      rewrite (Permutation_length (entries_take b n y G)). cbn [List.length].
      rewrite Nat2Z.inj_succ, (IH _ F'); [reflexivity|rewrite len_upd; lia].
  Qed.
End Cells.
