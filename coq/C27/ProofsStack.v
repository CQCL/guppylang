(** C27 — Stack refines the LIFO list; iterating a Stack yields its elements top to bottom. *)
From Coq Require Import ZArith List Lia.
From V.C27 Require Import ModelHeap ModelIter Spec ProofsCells.
Import ListNotations.
Open Scope Z_scope.

Section StackProofs.
  Context {T : Type}.
  Notation stack := (@stack T).

  (** [l] is the abstract stack, top first: cell j holds its j-th element from the bottom, every
      other cell is `nothing` *)
  Definition stack_rep (max_size : Z) (s : stack) (l : list T) : Prop :=
    let '(b, e) := s in
    len b = max_size /\ e = Z.of_nat (List.length l) /\ e <= max_size /\
    forall j, 0 <= j -> bget b j = nth_error (rev l) (Z.to_nat j).

  Lemma empty_rep : forall max_size, 0 <= max_size -> stack_rep max_size (empty_stack max_size) [].
  Proof.
    intros m H. unfold stack_rep, empty_stack, len. rewrite repeat_length. repeat split; try (simpl; lia).
    intros j Hj. rewrite bget_repeat_none. simpl. now destruct (Z.to_nat j).
  Qed.

  Lemma nth_error_snoc : forall (l : list T) v k,
    nth_error (l ++ [v]) k = if (k =? List.length l)%nat then Some v else nth_error l k.
  Proof.
    intros l v k. destruct (Nat.eqb_spec k (List.length l)) as [->|N].
    - rewrite nth_error_app2 by lia. now rewrite Nat.sub_diag.
    - destruct (Nat.lt_ge_cases k (List.length l)).
      + now rewrite nth_error_app1.
      + rewrite (proj2 (nth_error_None l k)) by lia. apply nth_error_None. rewrite app_length. simpl. lia.
  Qed.

  Lemma push_rep : forall m s l v, stack_rep m s l -> Z.of_nat (List.length l) < m ->
    exists s', stack_push m s v = Ok s' /\ stack_rep m s' (v :: l).
  Proof.
    intros m [b e] l v (Hl & He & Hle & Hb) Hlt. unfold stack_push.
    destruct (Z.geb_spec e m); try lia.
    rewrite put_ok.
    - eexists; split; [reflexivity|]. unfold stack_rep. rewrite len_upd. repeat split; auto.
      + simpl List.length. lia.
      + lia.
      + intros j Hj. rewrite bget_upd by lia. simpl rev. rewrite nth_error_snoc, rev_length.
        destruct (Z.eqb_spec j e), (Nat.eqb_spec (Z.to_nat j) (List.length l)); try lia; auto.
    - lia.
    - rewrite Hb by lia. apply nth_error_None. rewrite rev_length. lia.
  Qed.

  Lemma push_full : forall m s l v, stack_rep m s l -> Z.of_nat (List.length l) >= m ->
    stack_push m s v = Panic msg_stack_push.
  Proof.
    intros m [b e] l v (Hl & He & Hle & Hb) Hge. unfold stack_push.
    destruct (Z.geb_spec e m); auto; lia.
  Qed.

  Lemma top_cell : forall m b e l v, stack_rep m (b, e) (v :: l) -> bget b (e - 1) = Some v.
  Proof.
    intros m b e l v (Hl & He & Hle & Hb). simpl List.length in He.
    rewrite Hb by lia. simpl rev. rewrite nth_error_snoc, rev_length.
    destruct (Nat.eqb_spec (Z.to_nat (e - 1)) (List.length l)); auto; lia.
  Qed.

  Lemma pop_rep : forall m s l v, stack_rep m s (v :: l) ->
    exists s', stack_pop s = Ok (v, s') /\ stack_rep m s' l.
  Proof.
    intros m [b e] l v R. pose proof (top_cell _ _ _ _ _ R) as Hg.
    destruct R as (Hl & He & Hle & Hb). simpl List.length in He. unfold stack_pop.
    destruct (Z.leb_spec e 0); try lia.
    rewrite (take_some_ok b (e - 1) v Hg). simpl.
    eexists; split; [reflexivity|]. unfold stack_rep. rewrite len_upd. repeat split; auto; try lia.
    intros j Hj. rewrite bget_upd by lia. rewrite Hb by lia. simpl rev. rewrite nth_error_snoc, rev_length.
    destruct (Z.eqb_spec j (e - 1)), (Nat.eqb_spec (Z.to_nat j) (List.length l)); try lia; auto.
    symmetry. apply nth_error_None. rewrite rev_length. lia.
  Qed.

  Lemma peek_rep : forall m s l v, stack_rep m s (v :: l) -> stack_peek s = Ok (v, s).
  Proof.
    intros m [b e] l v R. pose proof (top_cell _ _ _ _ _ R) as Hg.
    destruct R as (Hl & He & Hle & Hb). simpl List.length in He. unfold stack_peek.
    destruct (Z.leb_spec e 0); try lia.
    rewrite a_get_ok by lia. simpl. rewrite Hg. reflexivity.
  Qed.

  Lemma pop_empty : forall m s, stack_rep m s [] -> stack_pop s = Panic msg_stack_pop.
  Proof. intros m [b e] (Hl & He & _). simpl in He. subst e. reflexivity. Qed.

  Lemma peek_empty : forall m s, stack_rep m s [] -> stack_peek s = Panic msg_stack_peek.
  Proof. intros m [b e] (Hl & He & _). simpl in He. subst e. reflexivity. Qed.

  Lemma len_rep : forall m s l, stack_rep m s l -> stack_len s = Z.of_nat (List.length l).
  Proof. intros m [b e] l (Hl & He & _). exact He. Qed.

  Lemma next_empty : forall m s, stack_rep m s [] -> stack_next s = Ok None.
  Proof.
    intros m [b e] (Hl & He & Hle & Hb). simpl in He. subst e. unfold stack_next. simpl.
    destruct (nothing_cells b) as [-> _]; [|reflexivity]. intros j Hj. rewrite Hb by lia. simpl. now destruct (Z.to_nat j).
  Qed.

  Lemma next_rep : forall m s l v, stack_rep m s (v :: l) ->
    exists s', stack_next s = Ok (Some (v, s')) /\ stack_rep m s' l.
  Proof.
    intros m s l v R. destruct (pop_rep _ _ _ _ R) as (s' & Hp & R').
    exists s'. split; auto. unfold stack_next. rewrite (len_rep _ _ _ R). simpl List.length.
    destruct (Z.eqb_spec (Z.of_nat (S (List.length l))) 0); try lia. rewrite Hp. reflexivity.
  Qed.

  Lemma step_refines : forall m s l o, stack_rep m s l ->
    match stack_step m s o, spec_stack_step m l o with
    | (ob, Some s'), (ob', Some l') => ob = ob' /\ stack_rep m s' l'
    | (ob, None), (ob', None) => ob = ob'
    | _, _ => False
    end.
  Proof.
    intros m s l o R. destruct o; simpl.
    - destruct (Z.geb_spec (Z.of_nat (List.length l)) m).
      + rewrite (push_full _ _ _ v R) by lia. simpl. auto.
      + destruct (push_rep _ _ _ v R ltac:(lia)) as (s' & -> & R'). simpl. auto.
    - destruct l as [|v l].
      + rewrite (pop_empty _ _ R). simpl. auto.
      + destruct (pop_rep _ _ _ _ R) as (s' & -> & R'). simpl. auto.
    - destruct l as [|v l].
      + rewrite (peek_empty _ _ R). simpl. auto.
      + rewrite (peek_rep _ _ _ _ R). simpl. auto.
    - rewrite (len_rep _ _ _ R). auto.
    - destruct l as [|v l].
      + rewrite (next_empty _ _ R). simpl. auto.
      + destruct (next_rep _ _ _ _ R) as (s' & -> & R'). simpl. auto.
  Qed.

  Lemma run_refines : forall m ops s l, stack_rep m s l ->
    fst (stack_run m ops s) = fst (spec_stack_run m ops l) /\
    match snd (stack_run m ops s), snd (spec_stack_run m ops l) with
    | Some s', Some l' => stack_rep m s' l'
    | None, None => True
    | _, _ => False
    end.
  Proof.
    induction ops as [|o ops IH]; intros s l R; simpl; auto.
    pose proof (step_refines m s l o R) as H.
    destruct (stack_step m s o) as [ob [s'|]], (spec_stack_step m l o) as [ob' [l'|]]; try contradiction.
    - destruct H as [-> R']. specialize (IH s' l' R').
      destruct (stack_run m ops s') as [obs fin], (spec_stack_run m ops l') as [obs' fin']. simpl in *.
      destruct IH as [-> IH]. auto.
    - subst. simpl. auto.
  Qed.

  Lemma stack_iter_spec : forall fuel m (s : stack) l, stack_rep m s l ->
    (List.length l < fuel)%nat -> stack_iter fuel (stack_iter_self s) = Ok l.
  Proof.
    unfold stack_iter_self.
    induction fuel as [|fuel IH]; intros m s l R Hf; [lia|].
    cbn [stack_iter]. destruct l as [|v l].
    - rewrite (next_empty m s R). reflexivity.
    - destruct (next_rep m s l v R) as (s' & -> & R'). cbn [bind].
      rewrite (IH m s' l R') by (simpl in Hf; lia). reflexivity.
  Qed.
End StackProofs.
