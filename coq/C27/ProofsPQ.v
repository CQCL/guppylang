(** C27 — PriorityQueue: representation invariant, multiset of entries, minimality of pop/peek,
    no loop out of fuel; iteration is heap sort. *)
From Coq Require Import ZArith List Bool Lia Permutation.
From V.C27 Require Import ModelHeap ModelIter Spec ProofsCells.
Import ListNotations.
Open Scope Z_scope.

Lemma parent_lt : forall j, 0 < j -> 0 <= (j - 1) / 2 < j.
Proof. intros. Z.to_euclidean_division_equations. lia. Qed.

Lemma parent_children : forall i j, (j - 1) / 2 = i <-> j = 2 * i + 1 \/ j = 2 * i + 2.
Proof. intros. Z.to_euclidean_division_equations. lia. Qed.

Section Order.
  Variable n : Z.

  (* while sifting, order holds below n except on the edge into i (up) or out of i (down);
     what bridges the gap: i's children are not below i's parent *)
  Definition skips (f : Z -> Z) (i : Z) : Prop :=
    0 < i -> forall j, 0 < j < n -> (j - 1) / 2 = i -> f ((i - 1) / 2) <= f j.

  Definition up_inv (f : Z -> Z) (i : Z) : Prop :=
    (forall j, 0 < j < n -> j <> i -> f ((j - 1) / 2) <= f j) /\ skips f i.

  Definition down_inv (f : Z -> Z) (i : Z) : Prop :=
    (forall j, 0 < j < n -> (j - 1) / 2 <> i -> f ((j - 1) / 2) <= f j) /\ skips f i.

  (* f' is f with the values at i and k exchanged: what [swap] does to the priority map
     ([prio_at_swap]) *)
  Definition exchanged (f f' : Z -> Z) (i k : Z) : Prop :=
    forall j, f' j = if j =? k then f i else if j =? i then f k else f j.

  Lemma up_swap : forall f f' i, 0 < i < n -> up_inv f i -> f i < f ((i - 1) / 2) ->
    exchanged f f' i ((i - 1) / 2) -> up_inv f' ((i - 1) / 2).
  Proof.
    intros f f' i Hi [Ho Hg] Hlt X. pose proof (parent_lt i ltac:(lia)) as Hp.
    specialize (Hg ltac:(lia)). split.
    - intros j Hj Np. pose proof (parent_lt j ltac:(lia)) as Hq. rewrite !X.
      destruct (Z.eqb_spec j ((i - 1) / 2)); [lia|].
      destruct (Z.eqb_spec ((j - 1) / 2) ((i - 1) / 2)) as [Es|].
      + (* i itself, or its sibling *)
        destruct (Z.eqb_spec j i); [lia|]. specialize (Ho j Hj ltac:(lia)). rewrite Es in Ho. lia.
      + destruct (Z.eqb_spec ((j - 1) / 2) i) as [Ec|].
        * (* a child of i *) destruct (Z.eqb_spec j i); [lia|]. specialize (Hg j Hj Ec). lia.
        * destruct (Z.eqb_spec j i) as [->|]; [lia|]. apply Ho; lia.
    - intros Hp0 j Hj Ej. pose proof (parent_lt ((i - 1) / 2) Hp0) as Hq. rewrite !X.
      pose proof (Ho ((i - 1) / 2) ltac:(lia) ltac:(lia)) as H0.
      destruct (Z.eqb_spec (((i - 1) / 2 - 1) / 2) ((i - 1) / 2)); [lia|].
      destruct (Z.eqb_spec (((i - 1) / 2 - 1) / 2) i); [lia|].
      pose proof (parent_lt j ltac:(lia)).
      destruct (Z.eqb_spec j ((i - 1) / 2)); [lia|].
      destruct (Z.eqb_spec j i); [lia|]. specialize (Ho j Hj ltac:(lia)). rewrite Ej in Ho. lia.
  Qed.

  Lemma down_swap : forall f f' i c, 0 < c < n -> (c - 1) / 2 = i -> down_inv f i ->
    (forall j, 0 < j < n -> (j - 1) / 2 = i -> f c <= f j) -> f c < f i ->
    exchanged f f' i c -> down_inv f' c.
  Proof.
    intros f f' i c Hc Ec [Ho Hg] Hmin Hlt X. pose proof (parent_lt c ltac:(lia)) as Hp. split.
    - intros j Hj Nc. pose proof (parent_lt j ltac:(lia)) as Hq. rewrite !X.
      destruct (Z.eqb_spec ((j - 1) / 2) c); [lia|].
      destruct (Z.eqb_spec ((j - 1) / 2) i) as [Ei|].
      + (* c itself, or its sibling *)
        destruct (Z.eqb_spec j c); [lia|]. destruct (Z.eqb_spec j i); [lia|]. apply Hmin; lia.
      + destruct (Z.eqb_spec j c) as [->|]; [lia|].
        destruct (Z.eqb_spec j i) as [->|]; [apply Hg; lia|apply Ho; lia].
    - intros _ j Hj Ej. pose proof (parent_lt j ltac:(lia)) as Hq. rewrite !X, Ec.
      destruct (Z.eqb_spec i c); [lia|]. rewrite Z.eqb_refl.
      destruct (Z.eqb_spec j c); [lia|]. destruct (Z.eqb_spec j i); [lia|].
      specialize (Ho j Hj ltac:(lia)). rewrite Ej in Ho. exact Ho.
  Qed.
End Order.

Section PQProofs.
  Context {T : Type}.
  Notation entry := (Z * T)%type.
  Notation cells := (list (option entry)).
  Notation pq := (@pq T).

  (* the priority map of a buffer, on which Section Order's lemmas are applied; the value 0 at an
     empty cell is never looked at: under [filled n] the cells below n hold entries ([prio_at_some]) *)
  Definition prio_at (b : cells) (j : Z) : Z := match bget b j with Some e => fst e | None => 0 end.

  Definition heap_ok (n : Z) (b : cells) : Prop :=
    forall j, 0 < j < n -> prio_at b ((j - 1) / 2) <= prio_at b j.

  (** the class invariant: MAX_SIZE cells, the INVARIANT comment of the source, and heap order *)
  Definition pq_inv (max_size : Z) (s : pq) : Prop :=
    let '(b, n) := s in len b = max_size /\ 0 <= n <= max_size /\ filled n b /\ heap_ok n b.

  (* the abstraction to Spec.v's multiset: the entries in buffer order, read up to Permutation *)
  Definition contents (s : pq) : list entry := entries (fst s).

  Lemma prio_at_swap : forall (b : cells) i k, 0 <= i < len b -> 0 <= k < len b ->
    exchanged (prio_at b) (prio_at (swap b i k)) i k.
  Proof.
    intros b i k Hi Hk j. unfold prio_at. rewrite bget_swap by assumption.
    destruct (j =? k); [|destruct (j =? i)]; reflexivity.
  Qed.

  Lemma prio_at_some : forall (b : cells) j e, bget b j = Some e -> prio_at b j = fst e.
  Proof. intros b j e G. unfold prio_at. now rewrite G. Qed.

  Lemma sift_up_S : forall fuel (b : cells) n i,
    0 < i < n -> n <= len b -> filled n b ->
    sift_up (S fuel) b i =
    if prio_at b i >=? prio_at b ((i - 1) / 2) then Ok b else sift_up fuel (swap b i ((i - 1) / 2)) ((i - 1) / 2).
  Proof.
    intros fuel b n i Hi Hn Fl. pose proof (parent_lt i ltac:(lia)) as Hp.
    cbn [sift_up]. unfold ModelHeap.entry in *.
    destruct (Z.gtb_spec i 0); [|lia]. set (p := (i - 1) / 2) in *.
    destruct (filled_some n b i Fl ltac:(lia)) as ([pi vi] & Gi).
    destruct (filled_some n b p Fl ltac:(lia)) as ([pp vp] & Gp).
    rewrite (prio_at_some b i _ Gi), (prio_at_some b p _ Gp). cbn [fst].
    rewrite (take_some_ok b i (pi, vi) Gi). cbn [bind].
    rewrite (take_some_ok (upd b i None) p (pp, vp)) by (rewrite bget_upd_ne by lia; exact Gp). cbn [bind].
    rewrite (upd_comm b i p) by lia.
    destruct (pi >=? pp).
    - rewrite put_take by (rewrite bget_upd_ne by lia; exact Gi). cbn [bind]. now rewrite put_take.
    - rewrite put_hole by (rewrite len_upd; lia). cbn [bind].
      rewrite (upd_comm b p i), put_hole by (rewrite ?len_upd; lia).
      unfold swap. now rewrite Gi, Gp.
  Qed.

  Lemma sift_up_0 : forall fuel (b : cells), sift_up fuel b 0 = Ok b.
  Proof. destruct fuel; reflexivity. Qed.

  Lemma sift_up_spec : forall fuel (b : cells) i n,
    (Z.to_nat i <= fuel)%nat -> 0 <= i < n -> n <= len b -> filled n b -> up_inv n (prio_at b) i ->
    exists b' : cells, sift_up fuel b i = Ok b' /\ len b' = len b /\ filled n b' /\ heap_ok n b' /\
               Permutation (entries b') (entries b).
  Proof.
    induction fuel as [|fuel IH]; intros b i n Hf Hi Hn Fl [Ho Hg];
      destruct (Z.eq_dec i 0) as [->|Hpos]; try lia.
    1, 2: exists b; rewrite sift_up_0; split; [reflexivity|]; split; [reflexivity|]; split; [exact Fl|];
      split; [|reflexivity]; intros j Hj; apply Ho; lia.
    pose proof (parent_lt i ltac:(lia)) as Hp.
    rewrite (sift_up_S fuel b n i) by (auto; lia).
    destruct (Z.geb_spec (prio_at b i) (prio_at b ((i - 1) / 2))) as [Hge|Hlt].
    - exists b. repeat split; auto; try apply Fl; auto.
      intros j Hj. destruct (Z.eq_dec j i) as [->|]; [lia|apply Ho; lia].
    - set (p := (i - 1) / 2) in *.
      destruct (IH (swap b i p) p n) as (b' & Hs & L' & F' & H' & E'); try (rewrite ?len_swap; lia).
      + apply filled_swap; auto; lia.
      + apply (up_swap n (prio_at b)); [lia|split; assumption|exact Hlt|apply prio_at_swap; lia].
      + exists b'. rewrite len_swap in L'. repeat (split; [assumption|]).
        etransitivity; [exact E'|apply entries_swap; lia].
  Qed.

  Lemma push_spec : forall m (s : pq) v p, pq_inv m s -> snd s < m ->
    exists s', pq_push m s v p = Ok s' /\ pq_inv m s' /\ snd s' = snd s + 1 /\
               Permutation (contents s') ((p, v) :: contents s).
  Proof.
    intros m [b n] v p (Hl & Hn & Fl & Ho) Hlt. simpl in Hlt. unfold pq_push. unfold ModelHeap.entry in *.
    destruct (Z.geb_spec n m); try lia.
    assert (Gn : bget b n = None) by (apply (proj2 (Fl n ltac:(lia))); lia).
    rewrite (put_ok b n (p, v)) by (auto; lia). cbn [bind].
    set (b1 := upd b n (Some (p, v))).
    destruct (sift_up_spec (Z.to_nat n) b1 n (n + 1)) as (b' & Hs & L' & F' & H' & E');
      try (unfold b1; rewrite ?len_upd; lia).
    - apply filled_push; [exact Fl|lia].
    - split.
      + intros j Hj Nj. pose proof (parent_lt j ltac:(lia)). unfold prio_at, b1.
        rewrite !bget_upd_ne by lia. apply Ho. lia.
      + intros _ j Hj Ej. apply parent_children in Ej; lia.
    - rewrite Hs. cbn [bind]. eexists; split; [reflexivity|]. split.
      + unfold pq_inv; unfold ModelHeap.entry in *. split; [unfold b1 in L'; rewrite len_upd in L'; lia|]. split; [lia|]. auto.
      + split; [reflexivity|]. unfold contents; simpl fst. etransitivity; [exact E'|].
        unfold b1. apply entries_put; [lia|auto].
  Qed.

  Lemma push_full : forall m (s : pq) v p, snd s >= m -> pq_push m s v p = Panic msg_pq_push.
  Proof. intros m [b n] v p H. simpl in H. unfold pq_push. destruct (Z.geb_spec n m); auto; lia. Qed.

  (* sift-down runs with a hole at i and the displaced entry held outside; it is described from
     the buffer B that has the displaced entry in the hole, so the model runs on [upd B i None] *)

  Definition child (n : Z) (b : cells) (i : Z) : Z :=
    if (2 * i + 2 <? n) && (prio_at b (2 * i + 2) <? prio_at b (2 * i + 1)) then 2 * i + 2 else 2 * i + 1.

  Lemma child_spec : forall n (b : cells) i, 0 <= i -> 2 * i + 1 < n ->
    i < child n b i < n /\ (child n b i - 1) / 2 = i /\
    forall j, 0 < j < n -> (j - 1) / 2 = i -> prio_at b (child n b i) <= prio_at b j.
  Proof.
    intros n b i Hi Hl. unfold child.
    destruct (Z.ltb_spec (2 * i + 2) n); [destruct (Z.ltb_spec (prio_at b (2 * i + 2)) (prio_at b (2 * i + 1)))|];
      cbn [andb]; (split; [lia|split; [apply parent_children; lia|]]); intros j Hj Ej;
      destruct (proj1 (parent_children i j) Ej) as [->| ->]; lia.
  Qed.

  Lemma sift_down_S : forall fuel (B : cells) n dp i,
    0 <= i < n -> n <= len B -> filled n B ->
    sift_down (S fuel) (upd B i None) n dp i =
    if 2 * i + 1 >=? n then Ok (upd B i None, i) else
    if dp <=? prio_at B (child n B i) then Ok (upd B i None, i) else
    sift_down fuel (upd (swap B i (child n B i)) (child n B i) None) n dp (child n B i).
  Proof.
    intros fuel B n dp i Hi Hn Fl. cbn [sift_down]. unfold ModelHeap.entry in *.
    destruct (Z.geb_spec (2 * i + 1) n) as [|Hl]; [reflexivity|].
    destruct (child_spec n B i ltac:(lia) Hl) as (Hc & _).
    destruct (filled_some n B (child n B i) Fl ltac:(lia)) as ([cp cv] & Gc).
    match goal with |- bind ?pick _ = _ =>
      assert (P : pick = Ok (upd (upd B i None) (child n B i) None, child n B i, (cp, cv))) end.
    { clear Hc. revert Gc. unfold child.
      destruct (filled_some n B (2 * i + 1) Fl ltac:(lia)) as ([lp lv] & Gl).
      rewrite (prio_at_some B _ _ Gl). replace (2 * i + 1 + 1) with (2 * i + 2) by lia.
      rewrite (take_some_ok _ _ (lp, lv)) by (rewrite bget_upd_ne by lia; exact Gl). cbn [bind].
      destruct (Z.ltb_spec (2 * i + 2) n) as [Hr|Hr]; cbn [andb].
      2:{ rewrite Gl. intros [= <- <-]. reflexivity. }
      destruct (filled_some n B (2 * i + 2) Fl ltac:(lia)) as ([rp rv] & Gr).
      rewrite (prio_at_some B _ _ Gr). cbn [fst].
      rewrite (take_some_ok _ _ (rp, rv)) by (rewrite !bget_upd_ne by lia; exact Gr). cbn [bind].
      destruct (rp <? lp); [rewrite Gr|rewrite Gl]; intros [= <- <-].
      + rewrite upd_comm by lia. now rewrite put_take by (rewrite !bget_upd_ne by lia; exact Gl).
      + now rewrite put_take by (rewrite !bget_upd_ne by lia; exact Gr). }
    rewrite P, (prio_at_some B _ _ Gc). cbn [bind fst]. set (c := child n B i) in *.
    destruct (dp <=? cp); [now rewrite put_take by (rewrite bget_upd_ne by lia; exact Gc)|].
    rewrite (upd_comm B i c), put_hole by (rewrite ?len_upd; lia).
    unfold swap. now rewrite Gc, upd_upd, (upd_comm B c i) by lia.
  Qed.

  Lemma sift_down_spec : forall fuel (B : cells) n d i,
    (Z.to_nat (n - i) <= fuel)%nat -> 0 <= i < n -> n <= len B -> bget B i = Some d ->
    filled n B -> down_inv n (prio_at B) i ->
    exists (B' : cells) i', sift_down fuel (upd B i None) n (fst d) i = Ok (upd B' i' None, i') /\
      len B' = len B /\ bget B' i' = Some d /\ filled n B' /\ heap_ok n B' /\
      Permutation (entries B') (entries B).
  Proof.
    induction fuel as [|fuel IH]; intros B n d i Hf Hi Hn Gi Fl [Ho Hg]; [lia|].
    rewrite sift_down_S by assumption.
    assert (Stop : (forall j, 0 < j < n -> (j - 1) / 2 = i -> fst d <= prio_at B j) -> heap_ok n B).
    { intros Hc j Hj. destruct (Z.eq_dec ((j - 1) / 2) i) as [Ej|]; [|apply Ho; auto].
      rewrite Ej, (prio_at_some B i d Gi). apply Hc; assumption. }
    destruct (Z.geb_spec (2 * i + 1) n) as [Hleaf|Hl].
    { exists B, i. repeat (split; [reflexivity || assumption|]). split; [|reflexivity].
      apply Stop. intros j Hj Ej. apply parent_children in Ej; lia. }
    destruct (child_spec n B i ltac:(lia) Hl) as (Hc & Ec & Hmin). set (c := child n B i) in *.
    destruct (Z.leb_spec (fst d) (prio_at B c)) as [Hle|Hgt].
    { exists B, i. repeat (split; [reflexivity || assumption|]). split; [|reflexivity].
      apply Stop. intros j Hj Ej. specialize (Hmin j Hj Ej). lia. }
    destruct (IH (swap B i c) n d c) as (B' & i' & Hs & L' & Gi' & Fl' & Ho' & E');
      try (rewrite ?len_swap; lia).
    - rewrite bget_swap, Z.eqb_refl by lia. exact Gi.
    - apply filled_swap; auto; lia.
    - apply (down_swap n (prio_at B) _ i c); [lia|exact Ec|split; assumption|exact Hmin| |apply prio_at_swap; lia].
      rewrite (prio_at_some B i d Gi). lia.
    - exists B', i'. rewrite len_swap in L'. repeat (split; [assumption|]).
      etransitivity; [exact E'|apply entries_swap; lia].
  Qed.

  Lemma root_min : forall n (b : cells), heap_ok n b -> forall j, 0 <= j < n -> prio_at b 0 <= prio_at b j.
  Proof.
    intros n b H j Hj. assert (H0 : 0 <= j) by lia. revert Hj. pattern j. apply Z_lt_induction; [|exact H0].
    intros x IH Hx. destruct (Z.eq_dec x 0) as [->|N]; [lia|].
    pose proof (H x ltac:(lia)). pose proof (parent_lt x ltac:(lia)).
    specialize (IH ((x - 1) / 2) ltac:(lia) ltac:(lia)). lia.
  Qed.

  Lemma entry_cell : forall n (b : cells) e, filled n b -> In e (entries b) ->
    exists j, 0 <= j < n /\ bget b j = Some e.
  Proof.
    intros n b e F H. destruct (in_entries_bget b e H) as (j & Hj & G).
    exists j. split; auto. destruct (Z.lt_ge_cases j n); [lia|].
    rewrite (proj2 (F j ltac:(lia))) in G by lia. discriminate.
  Qed.

  Lemma root_is_min : forall m (b : cells) n p v, pq_inv m (b, n) -> bget b 0 = Some (p, v) ->
    is_min (p, v) (entries b).
  Proof.
    intros m b n p v (Hl & Hn & Fl & Ho) G. split.
    - eapply bget_in_entries; eauto.
    - intros e' He'. destruct (entry_cell n b e' Fl He') as (j & Hj & Gj).
      pose proof (root_min n b Ho j Hj) as R. unfold prio_at in R. rewrite G, Gj in R. exact R.
  Qed.

  Lemma size_is_length : forall m (s : pq), pq_inv m s -> Z.of_nat (List.length (contents s)) = snd s.
  Proof.
    intros m [b n] (Hl & Hn & Fl & Ho). unfold contents; simpl. unfold ModelHeap.entry in *.
    apply entries_length_filled; auto; lia.
  Qed.

  Lemma size_nonneg : forall m (s : pq), pq_inv m s -> 0 <= snd s.
  Proof. intros m [b n] (_ & Hn & _). apply Hn. Qed.

  Lemma size_0_empty : forall m (s : pq), pq_inv m s -> snd s <= 0 -> contents s = [].
  Proof.
    intros m s Inv H. pose proof (size_is_length m s Inv) as L.
    destruct (contents s); [reflexivity|simpl in L; lia].
  Qed.

  Lemma pop_spec : forall m (s : pq), pq_inv m s -> 0 < snd s ->
    exists p v s', pq_pop s = Ok (p, v, s') /\ pq_inv m s' /\ snd s' = snd s - 1 /\
      is_min (p, v) (contents s) /\ Permutation (contents s) ((p, v) :: contents s').
  Proof.
    intros m [b n] Inv Hpos. pose proof Inv as (Hl & Hn & Fl & Ho). simpl in Hpos.
    unfold pq_pop, pq_inv, contents. unfold ModelHeap.entry in *. cbn [fst snd].
    destruct (Z.leb_spec n 0); try lia.
    destruct (filled_some n b 0 Fl ltac:(lia)) as ([rp rv] & G0).
    pose proof (root_is_min m b n rp rv Inv G0) as Hmin.
    rewrite (take_some_ok b 0 (rp, rv) G0). cbn [bind].
    pose proof (entries_take b 0 (rp, rv) G0) as E1.
    destruct (Z.eqb_spec (n - 1) 0) as [Hz|Hnz].
    - exists rp, rv, (upd b 0 None, n - 1). cbn [fst snd]. rewrite len_upd.
      split; [reflexivity|]. split; [|auto]. split; [assumption|]. split; [lia|]. split; [|intros j Hj; lia].
      replace n with 1 in * by lia. exact (filled_pop 1 b Fl ltac:(lia)).
    - set (ns := n - 1) in *.
      destruct (filled_some n b ns Fl ltac:(lia)) as ([dp dv] & Gd).
      rewrite (take_some_ok _ ns (dp, dv)) by (rewrite bget_upd_ne by lia; exact Gd). cbn [bind].
      set (B := upd (upd b ns None) 0 (Some (dp, dv))).
      replace (upd (upd b 0 None) ns None) with (upd B 0 None)
        by (unfold B; rewrite upd_upd; apply upd_comm; lia).
      destruct (sift_down_spec (Z.to_nat ns) B ns (dp, dv) 0) as (B' & i' & Hs & L' & Gi' & Fl' & Ho' & E');
        try (unfold B; rewrite ?len_upd; lia).
      + unfold B. rewrite bget_upd by (rewrite len_upd; lia). reflexivity.
      + apply filled_set; [apply filled_pop; [exact Fl|lia]|lia|rewrite len_upd; lia].
      + split; [|intros ?; lia].
        intros j Hj Np. pose proof (parent_lt j ltac:(lia)). unfold prio_at, B.
        rewrite !bget_upd_ne by lia. apply Ho. lia.
      + cbn [fst] in Hs. rewrite Hs. cbn [bind]. unfold B in L'. rewrite !len_upd in L'.
        rewrite (put_take B' i' _ Gi').
        exists rp, rv, (B', ns). cbn [fst snd].
        split; [reflexivity|]. split; [repeat (split; [assumption || lia|]); assumption|].
        split; [reflexivity|]. split; [exact Hmin|].
        pose proof (entries_upd (upd b ns None) 0 (Some (dp, dv))) as E2.
        rewrite len_upd, bget_upd, G0 in E2 by lia. destruct (Z.eqb_spec 0 ns); [lia|].
        etransitivity; [exact (entries_take b ns (dp, dv) Gd)|].
        etransitivity; [symmetry; apply E2; lia|]. constructor. symmetry. exact E'.
  Qed.

  Lemma pop_empty : forall (s : pq), snd s <= 0 -> pq_pop s = Panic msg_pq_pop.
  Proof. intros [b n] H. simpl in H. unfold pq_pop. destruct (Z.leb_spec n 0); auto; lia. Qed.

  Lemma peek_spec : forall m (s : pq), pq_inv m s -> 0 < snd s ->
    exists p v, pq_peek s = Ok (p, v, s) /\ is_min (p, v) (contents s).
  Proof.
    intros m [b n] Inv Hpos. pose proof Inv as (Hl & Hn & Fl & Ho). simpl in Hpos.
    unfold pq_peek. unfold ModelHeap.entry in *.
    destruct (Z.leb_spec n 0); try lia.
    destruct (filled_some n b 0 Fl ltac:(lia)) as ([rp rv] & G0).
    rewrite a_get_ok by lia. cbn [bind]. rewrite G0. cbn [bind unwrap].
    exists rp, rv. split; [reflexivity|]. eapply root_is_min; eauto.
  Qed.

  Lemma peek_empty : forall (s : pq), snd s <= 0 -> pq_peek s = Panic msg_pq_peek.
  Proof. intros [b n] H. simpl in H. unfold pq_peek. destruct (Z.leb_spec n 0); auto; lia. Qed.

  Lemma next_spec : forall m (s : pq), pq_inv m s ->
    match pq_next s with
    | Ok None => contents s = []
    | Ok (Some (p, v, s')) => pq_inv m s' /\ snd s' = snd s - 1 /\
        is_min (p, v) (contents s) /\ Permutation (contents s) ((p, v) :: contents s')
    | _ => False
    end.
  Proof.
    intros m s Inv. unfold pq_next, pq_len. destruct (Z.eqb_spec (snd s) 0) as [Hz|Hnz].
    - rewrite (size_0_empty m s Inv) by lia. destruct s as [b n], Inv as (_ & _ & Fl & _). simpl in *. subst n.
      destruct (nothing_cells b) as [-> _]; [|reflexivity]. intros j Hj. apply Fl; lia.
    - pose proof (size_nonneg m s Inv).
      destruct (pop_spec m s Inv ltac:(lia)) as (p & v & s' & -> & R). exact R.
  Qed.

  Lemma empty_inv : forall m, 0 <= m -> pq_inv m (@empty_pq T m) /\ contents (@empty_pq T m) = [].
  Proof.
    intros m Hm. unfold empty_pq, pq_inv, contents; unfold ModelHeap.entry in *. simpl fst. split.
    - split; [unfold len; rewrite repeat_length; lia|]. split; [lia|]. split.
      + intros j Hj. rewrite bget_repeat_none. split; [lia|auto].
      + intros j Hj. lia.
    - apply nothing_cells. intros. apply bget_repeat_none.
  Qed.

  Lemma step_refines : forall m (s : pq) o, pq_inv m s ->
    match pq_step m s o with
    | (ob, Some s') => pq_spec_step m (contents s) o ob (Some (contents s')) /\ pq_inv m s'
    | (ob, None) => pq_spec_step m (contents s) o ob None
    end.
  Proof.
    intros m s o Inv. pose proof (size_is_length m s Inv) as Hlen. pose proof (size_nonneg m s Inv) as Hsz.
    destruct o; simpl.
    - destruct (Z.lt_ge_cases (snd s) m) as [Hlt|Hge].
      + destruct (push_spec m s v p Inv Hlt) as (s' & -> & Inv' & _ & E). simpl. split; auto.
        constructor; [lia|exact E].
      + rewrite push_full by lia. simpl. constructor. lia.
    - destruct (Z.lt_ge_cases 0 (snd s)) as [Hpos|Hz].
      + destruct (pop_spec m s Inv Hpos) as (p & v & s' & -> & Inv' & _ & Hm & E). simpl. split; auto.
        now constructor.
      + rewrite pop_empty by lia. simpl. constructor. apply (size_0_empty m); auto; lia.
    - destruct (Z.lt_ge_cases 0 (snd s)) as [Hpos|Hz].
      + destruct (peek_spec m s Inv Hpos) as (p & v & -> & Hm). simpl. split; auto.
        now constructor.
      + rewrite peek_empty by lia. simpl. constructor. apply (size_0_empty m); auto; lia.
    - split; auto. unfold pq_len. rewrite <- Hlen. now constructor.
    - pose proof (next_spec m s Inv) as H. destruct (pq_next s) as [[[[p v] s']|]| |]; try contradiction; simpl.
      + destruct H as (Inv' & _ & Hm & E). split; auto. now constructor.
      + now constructor.
  Qed.

  Lemma run_refines : forall m ops (s : pq), pq_inv m s ->
    pq_spec_run m (contents s) ops (fst (pq_run m ops s)) /\
    match snd (pq_run m ops s) with Some s' => pq_inv m s' | None => True end.
  Proof.
    induction ops as [|o ops IH]; intros s Inv; simpl.
    - split; [constructor|auto].
    - pose proof (step_refines m s o Inv) as H.
      destruct (pq_step m s o) as [ob [s'|]].
      + destruct H as [H Inv']. specialize (IH s' Inv').
        destruct (pq_run m ops s') as [obs fin]. simpl in *. destruct IH as [IH1 IH2].
        split; auto. econstructor; eauto.
      + simpl. split; auto. now constructor.
  Qed.

  Lemma pq_iter_spec : forall fuel m (s : pq), pq_inv m s -> (Z.to_nat (snd s) < fuel)%nat ->
    exists l, pq_iter fuel (pq_iter_self s) = Ok l /\ sorted_prio l /\ Permutation l (contents s).
  Proof.
    unfold pq_iter_self.
    induction fuel as [|fuel IH]; intros m s Inv Hf; [lia|].
    cbn [pq_iter]. pose proof (next_spec m s Inv) as H.
    destruct (pq_next s) as [[[[p v] s']|]| |]; try contradiction; cbn [bind].
    2:{ exists []. split; [reflexivity|]. rewrite H. split; constructor. }
    destruct H as (Inv' & Hs' & Hm & E). pose proof (size_nonneg m s' Inv').
    destruct (IH m s' Inv' ltac:(lia)) as (l & -> & Sl & Pl). cbn [bind].
    exists ((p, v) :: l). split; [reflexivity|]. split.
    - constructor; auto. intros e' He'. apply (proj2 Hm).
      eapply Permutation_in; [symmetry; exact E|]. right. eapply Permutation_in; eauto.
    - etransitivity; [|symmetry; exact E]. constructor. exact Pl.
  Qed.
End PQProofs.
