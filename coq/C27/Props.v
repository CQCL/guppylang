(** C27 — Stack and PriorityQueue follow their reference models (Spec.v).
    ModelHeap.v mirrors stack.py / priority_queue.py statement by statement and is tied to them by
    the differential harness props/C27.  Scripts are of any length; the specifications never allow
    `Fuel` (loop fuel exhausted) or an Option/array panic as an observation. *)
From Coq Require Import ZArith List String Bool Permutation.
From V.C27 Require Import ModelHeap ModelIter Spec ProofsCells ProofsStack ProofsPQ.
Import ListNotations.
Open Scope Z_scope.

(* Stack = LIFO list: a script run on the buffer implementation from empty_stack() yields exactly
   the observations (results, lengths, the three panics, end of iteration) of the list model *)
Theorem stack_lifo : forall (T : Type) (max_size : Z) (ops : list (@sop T)), 0 <= max_size ->
  fst (stack_run max_size ops (empty_stack max_size)) = fst (spec_stack_run max_size ops []).
Proof. intros T m ops H. exact (proj1 (ProofsStack.run_refines m ops _ _ (empty_rep m H))). Qed.
Print Assumptions stack_lifo.

(* the same from any state representing list l, and the final state again represents the
   final list (so the source's INVARIANT comment is an invariant) *)
Theorem stack_lifo_from : forall (T : Type) max_size ops (s : @stack T) l, stack_rep max_size s l ->
  fst (stack_run max_size ops s) = fst (spec_stack_run max_size ops l) /\
  match snd (stack_run max_size ops s), snd (spec_stack_run max_size ops l) with
  | Some s', Some l' => stack_rep max_size s' l'
  | None, None => True
  | _, _ => False
  end.
Proof. intros T m ops s l R. exact (ProofsStack.run_refines m ops s l R). Qed.
Print Assumptions stack_lifo_from.

(* PriorityQueue: every script from empty_priority_queue() only shows observations the multiset
   specification allows: pop/peek/next give an entry of minimal priority that is in the multiset,
   the multiset changes exactly by the pushed/popped entry, len is its size, push panics exactly
   when full, pop/peek exactly when empty *)
Theorem pq_follows_multiset_spec : forall (T : Type) (max_size : Z) (ops : list (@qop T)), 0 <= max_size ->
  pq_spec_run max_size [] ops (fst (pq_run max_size ops (empty_pq max_size))).
Proof.
  intros T m ops H. destruct (@empty_inv T m H) as [Inv E].
  pose proof (proj1 (ProofsPQ.run_refines m ops _ Inv)) as R. rewrite E in R. exact R.
Qed.
Print Assumptions pq_follows_multiset_spec.

(* heap invariant (prefix of `some` + parent <= child) holds in every reachable state *)
Theorem heap_inv : forall (T : Type) (max_size : Z) (ops : list (@qop T)) s, 0 <= max_size ->
  snd (pq_run max_size ops (empty_pq max_size)) = Some s -> pq_inv max_size s.
Proof.
  intros T m ops s H R. destruct (@empty_inv T m H) as [Inv _].
  pose proof (proj2 (ProofsPQ.run_refines m ops _ Inv)) as P. rewrite R in P. exact P.
Qed.
Print Assumptions heap_inv.

(* ... and is preserved by push (sift-up) and pop (sift-down), which succeed within capacity *)
Theorem heap_inv_push : forall (T : Type) max_size (s : @pq T) v p, pq_inv max_size s -> snd s < max_size ->
  exists s', pq_push max_size s v p = Ok s' /\ pq_inv max_size s' /\ snd s' = snd s + 1.
Proof. intros T m s v p I H. destruct (push_spec m s v p I H) as (s' & A & B & C & _). eauto. Qed.
Print Assumptions heap_inv_push.

Theorem heap_inv_pop : forall (T : Type) max_size (s : @pq T), pq_inv max_size s -> 0 < snd s ->
  exists p v s', pq_pop s = Ok (p, v, s') /\ pq_inv max_size s' /\ snd s' = snd s - 1.
Proof. intros T m s I H. destruct (pop_spec m s I H) as (p & v & s' & A & B & C & _). eauto 6. Qed.
Print Assumptions heap_inv_pop.

(* pop and peek return an entry of the queue whose priority is minimal *)
Theorem pq_min : forall (T : Type) max_size (s : @pq T), pq_inv max_size s -> 0 < snd s ->
  (exists p v s', pq_pop s = Ok (p, v, s') /\ is_min (p, v) (contents s)) /\
  (exists p v, pq_peek s = Ok (p, v, s) /\ is_min (p, v) (contents s)).
Proof.
  intros T m s I H. split.
  - destruct (pop_spec m s I H) as (p & v & s' & A & _ & _ & B & _). eauto 6.
  - exact (peek_spec m s I H).
Qed.
Print Assumptions pq_min.

(* the multiset of entries: push adds exactly the pushed entry, pop removes exactly the returned one *)
Theorem pq_multiset : forall (T : Type) max_size (s : @pq T), pq_inv max_size s ->
  (forall v p, snd s < max_size -> exists s', pq_push max_size s v p = Ok s' /\
                Permutation (contents s') ((p, v) :: contents s)) /\
  (0 < snd s -> exists p v s', pq_pop s = Ok (p, v, s') /\ Permutation (contents s) ((p, v) :: contents s')).
Proof.
  intros T m s I. split.
  - intros v p H. destruct (push_spec m s v p I H) as (s' & A & _ & _ & B). eauto.
  - intros H. destruct (pop_spec m s I H) as (p & v & s' & A & _ & _ & _ & B). eauto 6.
Qed.
Print Assumptions pq_multiset.

(* the panics of the docstrings: push at capacity; pop / peek on an empty collection *)
Theorem capacity_panics : forall (T : Type) max_size,
  (forall (s : @stack T) l v, stack_rep max_size s l -> Z.of_nat (List.length l) >= max_size ->
      stack_push max_size s v = Panic msg_stack_push) /\
  (forall (s : @stack T), stack_rep max_size s [] ->
      stack_pop s = Panic msg_stack_pop /\ stack_peek s = Panic msg_stack_peek) /\
  (forall (s : @pq T) v p, pq_inv max_size s -> Z.of_nat (List.length (contents s)) >= max_size ->
      pq_push max_size s v p = Panic msg_pq_push) /\
  (forall (s : @pq T), pq_inv max_size s -> contents s = [] ->
      pq_pop s = Panic msg_pq_pop /\ pq_peek s = Panic msg_pq_peek).
Proof.
  intros T m. repeat split.
  - intros s l v R H. exact (ProofsStack.push_full m s l v R H).
  - exact (ProofsStack.pop_empty m s H).
  - exact (ProofsStack.peek_empty m s H).
  - intros s v p I H. rewrite (size_is_length m s I) in H. exact (ProofsPQ.push_full m s v p H).
  - apply ProofsPQ.pop_empty. rewrite <- (size_is_length m s H), H0. apply Z.le_refl.
  - apply ProofsPQ.peek_empty. rewrite <- (size_is_length m s H), H0. apply Z.le_refl.
Qed.
Print Assumptions capacity_panics.

(* iteration (`for x in s`): a Stack yields its elements top first; a PriorityQueue yields all its
   entries, each exactly once, in non-decreasing priority order; the loop ends (no Fuel), and the
   final discard_empty does not panic *)
Theorem iteration_order : forall (T : Type) max_size,
  (forall (s : @stack T) l, stack_rep max_size s l ->
      stack_iter (S (List.length l)) (stack_iter_self s) = Ok l) /\
  (forall (s : @pq T), pq_inv max_size s ->
      exists l, pq_iter (S (Z.to_nat (snd s))) (pq_iter_self s) = Ok l /\ sorted_prio l /\
                Permutation l (contents s)).
Proof.
  intros T m. split.
  - intros s l R. apply (stack_iter_spec _ m s l R). apply Nat.lt_succ_diag_r.
  - intros s I. apply (pq_iter_spec _ m s I). apply Nat.lt_succ_diag_r.
Qed.
Print Assumptions iteration_order.

(** The hypotheses are satisfiable on non-trivial instances, and the model computes: *)
Example ex_stack :
  fst (stack_run 2 [SPush 5; SPush 6; SPeek; SLen; SPush 7] (empty_stack 2))
  = [SUnit; SUnit; SVal 6; SLenIs 2; SPanic msg_stack_push].
Proof. vm_compute. reflexivity. Qed.

(* ties (priority 1 twice), a sift-up over two levels, a sift-down of one level *)
Example ex_pq :
  fst (pq_run 5 [QPush 10 3; QPush 11 1; QPush 12 2; QPush 13 1; QPush 14 0; QPop; QPop; QPop; QLen; QPeek]
         (empty_pq 5))
  = [QUnit; QUnit; QUnit; QUnit; QUnit; QEntry 0 14; QEntry 1 13; QEntry 1 11; QLenIs 2; QEntry 2 12].
Proof. vm_compute. reflexivity. Qed.

Example ex_pq_inv_nontrivial : exists s : @pq Z, pq_inv 5 s /\ snd s = 4 /\ 0 < snd s < 5.
Proof.
  destruct (snd (pq_run 5 [QPush 10 3; QPush 11 1; QPush 12 2; QPush 13 1] (empty_pq 5))) as [s|] eqn:E;
    [|vm_compute in E; discriminate].
  exists s. split; [eapply (heap_inv Z 5); [vm_compute; discriminate|exact E]|].
  vm_compute in E. inversion E. subst. vm_compute. split; [reflexivity|split; reflexivity].
Qed.

Example ex_pq_iter :
  match snd (pq_run 5 [QPush 10 3; QPush 11 1; QPush 12 2; QPush 13 1; QPush 14 0] (empty_pq 5)) with
  | Some s => pq_iter 6 s = Ok [(0, 14); (1, 13); (1, 11); (2, 12); (3, 10)]
  | None => False
  end.
Proof. vm_compute. reflexivity. Qed.
