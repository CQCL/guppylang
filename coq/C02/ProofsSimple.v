(** C02 — what the builder model emits and how it fails, by one walk over the builder: a Hoare-style
    judgment [hoare] on the builder monad (state invariant "every block is [simple]", set of errors of a
    failing run), of which [visit_all] (what is emitted) and [visit_total] (which errors) are projections. *)
From Coq Require Import List Bool Lia.
From V.C02 Require Import Ast Builder.
Import ListNotations.

Lemma forallb_upd_nth : forall A (P : A -> bool) (f : A -> A) i l,
  forallb P l = true -> (forall x, P x = true -> P (f x) = true) -> forallb P (upd_nth i f l) = true.
Proof.
  induction i; destruct l; simpl; intros; auto.
  - apply andb_true_iff in H as [H1 H2]. rewrite H0, H2; auto.
  - apply andb_true_iff in H as [H1 H2]. rewrite H1, IHi; auto.
Qed.

Lemma forallb_snoc : forall A (P : A -> bool) l x,
  forallb P l = true -> P x = true -> forallb P (l ++ [x]) = true.
Proof. intros. rewrite forallb_app, H. simpl. rewrite H0. auto. Qed.

Definition st_ok (s : bstate) : Prop :=
  simple_cfg (bs_blocks s) = true /\ forallb simple_cfg (bs_nested s) = true.

Definition pres {A} (m : M A) (Q : A -> Prop) : Prop :=
  forall s a s', st_ok s -> m s = BOk a s' -> st_ok s' /\ Q a.

Lemma pres_weaken : forall A (m : M A) (Q R : A -> Prop),
  pres m Q -> (forall a, Q a -> R a) -> pres m R.
Proof. unfold pres. intros. destruct (H _ _ _ H1 H2). auto. Qed.

Definition errs {A} (m : M A) (E : berr -> Prop) : Prop := forall s err, m s = BErr err -> E err.

(** the errors of the expression builders ([XE]) and of the statement visitors ([SE]);
    [c]: [chain_mid], a chained comparison with a lifted middle operand, on which the model declines *)
Definition XE (c : bool) (err : berr) : Prop :=
  err = ErrIllegalInComp \/ err = ErrEmptyComptime \/ (err = ErrUnmodelled /\ c = true).
Definition SE (c : bool) (err : berr) : Prop :=
  XE c err \/ err = ErrLoopElse \/ err = ErrUnsupportedStmt \/ err = ErrExpectedReturn.

Lemma SE_user : forall c err, user_error err = true -> SE c err.
Proof. unfold SE, XE. intros c [] U; try discriminate U; auto. Qed.
Lemma SE_unmodelled : SE true ErrUnmodelled.
Proof. left. right. right. auto. Qed.
Lemma SE_inv : forall c err, SE c err -> user_error err = true \/ (err = ErrUnmodelled /\ c = true).
Proof. unfold SE, XE. intros c err [[?|[?|?]]|[?|[?|?]]]; subst; auto. Qed.

Lemma simple_and2 : forall a b, simple a = true -> simple b = true -> simple a && simple b = true.
Proof. intros. rewrite H, H0. auto. Qed.

Ltac by_hyps :=
  intros; simpl;
  repeat match goal with
         | H : _ = true |- _ => rewrite H
         | G : ?P, H : ?P -> _ = true |- _ => rewrite (H G)
         end;
  reflexivity.
Ltac split_src :=
  repeat match goal with
         | H : _ && _ = true |- _ => apply andb_true_iff in H as [? ?]
         | H : _ /\ _ |- _ => destruct H
         | H : ?x = true -> _, H' : ?x = true |- _ => specialize (H H')
         end.

Lemma build_branch_chain : forall l op m r,
  build_branch (ECmp l (CMore op m r)) =
  (fun bb t f =>
        LET extra <- new_bb IN
        LET r0 <- build_expr l bb IN
        build_ctail (fst r0) (CMore op m r) (snd r0) (Some extra) t f).
Proof. reflexivity. Qed.

Lemma lift_free_simple_all :
  (forall e, lift_free e = true -> simple e = true) /\
  (forall es, lift_free_list es = true -> simple_list es = true) /\
  (forall ct, match ct with CLast _ r => lift_free r = true -> simple r = true | CMore _ _ _ => True end) /\
  (forall (g : gens), True).
Proof.
  apply expr_mutind; simpl; intros; auto; try discriminate; split_src; try by_hyps.
  destruct rest; [|discriminate]. split_src. by_hyps.
Qed.

Lemma simple_fold_all :
  (forall e, simple e = true -> simple (fold_neg e) = true) /\
  (forall es, simple_list es = true -> simple_list (fold_neg_list es) = true) /\
  (forall ct, match ct with CLast _ r => simple r = true -> simple (fold_neg r) = true | CMore _ _ _ => True end) /\
  (forall (g : gens), True).
Proof.
  apply expr_mutind; simpl; intros; auto; try discriminate; split_src; try by_hyps.
  - destruct op; simpl; auto. destruct e; simpl; auto. destruct (neg_const c); simpl; auto.
  - destruct rest; [|discriminate]. simpl. split_src. by_hyps.
Qed.

Lemma simple_fold : forall e, simple e = true -> simple (fold_neg e) = true.
Proof. apply simple_fold_all. Qed.

Lemma simple_alias_fix : forall e, simple e = true -> simple (alias_fix e) = true.
Proof. intros e H. unfold alias_fix. destruct (is_neg_const e); auto using simple_fold. Qed.

Lemma simple_block_put_reach : forall r b, simple_block (put_reach r b) = simple_block b.
Proof. intros r []; auto. Qed.
Lemma simple_block_add_succ : forall n b, simple_block (add_succ n b) = simple_block b.
Proof. intros n []; auto. Qed.

Lemma simple_mark : forall g seen,
  simple_cfg g = true ->
  simple_cfg (map (fun '(b, r) => put_reach r b) (combine g seen)) = true.
Proof.
  unfold simple_cfg. induction g; intros seen H; simpl in *; auto.
  destruct seen; simpl; auto. apply andb_true_iff in H as [H1 H2].
  rewrite simple_block_put_reach, H1. simpl. auto.
Qed.

Lemma simple_prune : forall g, simple_cfg g = true -> simple_cfg (prune g) = true.
Proof.
  unfold simple_cfg, prune. intros g. generalize g at 2 3. induction g; intros g0 H; simpl in *; auto.
  apply andb_true_iff in H as [H1 H2]. rewrite IHg; auto. destruct a. unfold simple_block in *. simpl in *.
  rewrite H1. auto.
Qed.

(** the worklist's measure is its length plus [cost], the successor edges of the blocks not yet seen; at the
    start that is [1 + edge_count g], below the fuel [mark_reachable] gives *)
Fixpoint cost (g : list block) (seen : list bool) : nat :=
  match g, seen with
  | b :: g', r :: seen' => (if r then 0 else length (b_succs b)) + cost g' seen'
  | _, _ => 0
  end.

Lemma upd_nth_length : forall A i (f : A -> A) l, length (upd_nth i f l) = length l.
Proof. induction i; destruct l; simpl; auto. Qed.

Lemma cost_mark : forall g seen i b,
  length seen = length g -> nth_error g i = Some b -> nth_reach seen i = false ->
  cost g (upd_nth i (fun _ => true) seen) + length (b_succs b) = cost g seen.
Proof.
  unfold nth_reach. induction g; intros seen i b L N S.
  - destruct i; discriminate.
  - destruct seen as [|r seen']; [discriminate|]. simpl in L. destruct i; simpl in *.
    + inversion N; subst. lia.
    + specialize (IHg seen' i b). rewrite <- IHg; auto; lia.
Qed.

Lemma reach_wl_total : forall fuel g work seen,
  length seen = length g -> length work + cost g seen <= fuel ->
  exists r, reach_wl fuel g work seen = Some r.
Proof.
  induction fuel; intros g work seen L F.
  - destruct work; simpl in *; [eauto | lia].
  - destruct work as [|i rest]; simpl; [eauto|]. simpl in F.
    destruct (nth_reach seen i) eqn:S.
    + apply IHfuel; auto. lia.
    + destruct (nth_error g i) as [b|] eqn:N.
      * apply IHfuel; [rewrite upd_nth_length; auto|].
        pose proof (cost_mark g seen i b L N S). rewrite app_length. lia.
      * apply IHfuel; auto. lia.
Qed.

Lemma cost_init : forall g, cost g (map (fun _ => false) g) = edge_count g.
Proof. induction g; simpl; auto. Qed.

Lemma mark_reachable_some : forall g, exists seen,
  mark_reachable g = Some (map (fun '(b, r) => put_reach r b) (combine g seen)).
Proof.
  intros g. unfold mark_reachable.
  destruct (reach_wl_total (2 + edge_count g + length g) g [entry_idx] (map (fun _ => false) g)) as [r R].
  - apply map_length.
  - rewrite cost_init. simpl. lia.
  - rewrite R. eauto.
Qed.

Lemma finalize_spec : forall blocks final rn,
  match finalize blocks final rn with
  | inl g => simple_cfg blocks = true -> simple_cfg g = true
  | inr e => e = ErrExpectedReturn
  end.
Proof.
  intros blocks final rn. unfold finalize.
  destruct (mark_reachable_some blocks) as [seen ->].
  assert (U : forall i f g, (forall b, simple_block (f b) = simple_block b) ->
              simple_cfg g = true -> simple_cfg (upd_nth i f g) = true).
  { intros i f g Hf H. apply forallb_upd_nth; auto. intros b. now rewrite Hf. }
  (* every graph returned is [prune] of the marked one after at most two such updates *)
  destruct final as [fb|]; [destruct (blk_reach _ fb); [destruct rn|]|]; trivial;
    intros H; apply simple_prune; repeat apply U;
    auto using simple_mark, simple_block_add_succ, simple_block_put_reach.
Qed.

Lemma st_ok_init : forall tmp nested, forallb simple_cfg nested = true ->
  st_ok (mkB [empty_block; empty_block] tmp nested).
Proof. intros. split; auto. Qed.

Definition jumps_ok (inloop : bool) (j : jumps) : Prop :=
  inloop = true -> j_brk j <> None /\ j_cont j <> None.

Lemma jumps_ok_loop : forall r h t, jumps_ok true (mkJ r (Some h) (Some t)).
Proof. unfold jumps_ok. simpl. intros. split; discriminate. Qed.
Lemma jumps_ok_fun : jumps_ok false (mkJ exit_idx None None).
Proof. discriminate. Qed.

(** [Src] stands for "the program is source syntax"; only then is anything claimed of the blocks, while the
    error set is a claim about all programs: with [Src := False] the judgment speaks of the errors alone,
    with [E] everything of the blocks alone. *)
Section Walk.
Variable Src : Prop.
Variable E : berr -> Prop.
Hypothesis E_user : forall e, user_error e = true -> E e.

Definition inv (s : bstate) : Prop := Src -> st_ok s.

Definition hoare {A} (m : M A) (Q : A -> Prop) : Prop :=
  forall s, inv s -> match m s with BOk a s' => inv s' /\ Q a | BErr e => E e end.

Lemma hoare_ret : forall A (a : A) (Q : A -> Prop), Q a -> hoare (ret a) Q.
Proof. unfold hoare, ret. auto. Qed.

Lemma hoare_ret_any : forall A (a : A), hoare (ret a) (fun _ => True).
Proof. intros. now apply hoare_ret. Qed.

Lemma hoare_fail : forall A e (Q : A -> Prop), E e -> hoare (fail e) Q.
Proof. unfold hoare, fail. auto. Qed.

Lemma hoare_user : forall A e (Q : A -> Prop), user_error e = true -> hoare (fail e) Q.
Proof. intros. now apply hoare_fail, E_user. Qed.

Lemma hoare_bind : forall A B (m : M A) (f : A -> M B) (Q : A -> Prop) (R : B -> Prop),
  hoare m Q -> (forall a, Q a -> hoare (f a) R) -> hoare (bind m f) R.
Proof.
  unfold hoare, bind. intros A B m f Q R Hm Hf s Hs. specialize (Hm s Hs).
  destruct (m s) as [a s1|]; [|exact Hm]. destruct Hm as [H1 H2]. now apply Hf.
Qed.

Lemma hoare_modify : forall i f,
  (Src -> forall b, simple_block b = true -> simple_block (f b) = true) ->
  hoare (modify i f) (fun _ => True).
Proof.
  intros i f Hf s Hs. simpl. split; auto. intros G. destruct (Hs G) as [H1 H2].
  split; simpl; auto. apply forallb_upd_nth; auto.
Qed.

Lemma hoare_new_bb : hoare new_bb (fun _ => True).
Proof.
  intros s Hs. simpl. split; auto. intros G. destruct (Hs G) as [H1 H2].
  split; simpl; auto. apply forallb_snoc; auto.
Qed.

Lemma hoare_fresh_tmp : hoare fresh_tmp (fun _ => True).
Proof. intros s Hs. simpl. split; auto. Qed.

Lemma hoare_link : forall a b, hoare (link a b) (fun _ => True).
Proof. intros. apply hoare_modify. intros _ [] H; auto. Qed.

Lemma hoare_dummy_link : forall a b, hoare (dummy_link a b) (fun _ => True).
Proof. intros. apply hoare_modify. intros _ [] H; auto. Qed.

Lemma hoare_add_stmt : forall bb st, (Src -> simple_bstmt st = true) -> hoare (add_stmt bb st) (fun _ => True).
Proof.
  intros. apply hoare_modify. intros G [ss p su du r] Hb. unfold simple_block in *. simpl in *.
  apply andb_true_iff in Hb as [Hb1 Hb2]. rewrite forallb_app, Hb1, Hb2. simpl. rewrite H; auto.
Qed.

Lemma hoare_close_branch : forall bb p f t, (Src -> simple p = true) -> hoare (close_branch bb p f t) (fun _ => True).
Proof.
  intros. unfold close_branch. eapply hoare_bind; [|intros _ _; eapply hoare_bind; intros; apply hoare_link].
  apply hoare_modify. intros G [ss q su du r] Hb. unfold simple_block in *. simpl in *.
  apply andb_true_iff in Hb as [Hb1 Hb2]. rewrite Hb1, H; auto.
Qed.

(** [hoare_seq]: [hoare_bind] at every [LET x <- c IN k], the call [c] by an induction hypothesis or the
    database [hoare] (a rule per primitive, combinator and builder; [by_hyps] for side conditions). *)
Create HintDb hoare discriminated.
#[local] Hint Constants Opaque : hoare.
#[local] Hint Resolve hoare_ret_any hoare_ret hoare_user hoare_new_bb hoare_fresh_tmp hoare_link hoare_dummy_link
  hoare_add_stmt hoare_close_branch : hoare.
#[local] Hint Extern 0 (_ = true) => by_hyps : hoare.
Ltac hoare_seq :=
  repeat (eapply hoare_bind; [solve [eauto with hoare nocore] | intros ? ?; cbv beta in *]); eauto with hoare nocore.
Ltac on_match :=
  match goal with
  | |- hoare (bind (match ?x with _ => _ end) _) _ => destruct x
  | |- hoare (match ?x with _ => _ end) _ => destruct x
  end.

Definition EX (v : nat -> M (expr * nat)) : Prop := forall bb, hoare (v bb) (fun r => Src -> simple (fst r) = true).
Definition EXS (v : nat -> M (exprs * nat)) : Prop := forall bb, hoare (v bb) (fun r => Src -> simple_list (fst r) = true).
Definition BR (v : nat -> nat -> nat -> M unit) : Prop := forall bb t f, hoare (v bb t f) (fun _ => True).

Lemma EX_at : forall v bb, EX v -> hoare (v bb) (fun r => Src -> simple (fst r) = true). Proof. auto. Qed.
Lemma EXS_at : forall v bb, EXS v -> hoare (v bb) (fun r => Src -> simple_list (fst r) = true). Proof. auto. Qed.
Lemma BR_at : forall v bb t f, BR v -> hoare (v bb t f) (fun _ => True). Proof. auto. Qed.
#[local] Hint Resolve EX_at EXS_at BR_at : hoare.

Lemma EX_ret_self : forall e, (Src -> simple e = true) -> EX (fun bb => ret (e, bb)).
Proof. intros e H bb. hoare_seq. Qed.

Lemma BR_gen_branch : forall v, EX v -> BR (gen_branch v).
Proof. intros v Hv bb t f. unfold gen_branch. hoare_seq. Qed.

Lemma EX_unary : forall op a ra, EX ra -> EX (bx_unary op a ra).
Proof.
  intros op a ra Ha bb. unfold bx_unary.
  assert (G : hoare (LET r <- ra bb IN ret (EUnary op (fst r), snd r)) (fun r => Src -> simple (fst r) = true))
    by hoare_seq.
  destruct op; auto. destruct a; auto. destruct (neg_const c); auto with hoare.
Qed.

Lemma EX_1 : forall k ra, (forall x, simple x = true -> simple (k x) = true) -> EX ra -> EX (bx_1 k ra).
Proof. intros k ra Hk Ha bb. unfold bx_1. hoare_seq. Qed.

Lemma EX_2 : forall k ra rb,
  (forall x y, simple x = true -> simple y = true -> simple (k x y) = true) ->
  EX ra -> EX rb -> EX (bx_2 k ra rb).
Proof. intros k ra rb Hk Ha Hb bb. unfold bx_2. hoare_seq. Qed.

Lemma EX_list : forall k ras, (forall xs, simple_list xs = true -> simple (k xs) = true) -> EXS ras -> EX (bx_list k ras).
Proof. intros k ras Hk Ha bb. unfold bx_list. hoare_seq. Qed.

Lemma EX_call : forall rf ras, EX rf -> EXS ras -> EX (bx_call rf ras).
Proof. intros rf ras Hf Ha bb. unfold bx_call. hoare_seq. Qed.

Lemma EX_walrus : forall x ra, EX ra -> EX (bx_walrus x ra).
Proof. intros x ra Ha bb. unfold bx_walrus. hoare_seq. Qed.

Lemma EX_lift_bool : forall br, BR br -> EX (lift_bool br).
Proof. intros br Hb bb. unfold lift_bool. hoare_seq. Qed.

Lemma BR_bool : forall op ba bb_, BR ba -> BR bb_ -> BR (br_bool op ba bb_).
Proof. intros op ba bb_ Ha Hb bb t f. unfold br_bool. destruct op; hoare_seq. Qed.

#[local] Hint Resolve EX_ret_self BR_gen_branch EX_unary EX_1 EX_2 EX_list EX_call EX_walrus EX_lift_bool BR_bool : hoare.

(** a node that [BranchBuilder] leaves to [generic_visit] (it is built as a value and branched on) needs the value
    half only; a BoolOp or chained comparison, which [ExprBuilder] hands to [BranchBuilder], the branch half only *)
Lemma value_node : forall (G : Prop) e, build_branch e = gen_branch (build_expr e) ->
  (G -> EX (build_expr e)) -> (G -> EX (build_expr e)) /\ (G -> BR (build_branch e)).
Proof. intros G e B X. split; auto. rewrite B. auto with hoare. Qed.
Lemma lifted_node : forall (G : Prop) e, build_expr e = lift_bool (build_branch e) ->
  (G -> BR (build_branch e)) -> (G -> EX (build_expr e)) /\ (G -> BR (build_branch e)).
Proof. intros G e L X. split; auto. rewrite L. auto with hoare. Qed.

Definition fits (src c : bool) : Prop := (Src -> src = true) /\ (c = true -> E ErrUnmodelled).

(** the flags [src_*] and [chain_mid*] of a node are the [&&] / [||] of its children's, so what a visitor
    is given about its node ([fits]) splits *)
Lemma fits_and : forall a b c d, fits (a && b) (c || d) -> fits a c /\ fits b d.
Proof.
  intros a b c d [H W]. repeat split.
  - intros G. apply (andb_prop _ _ (H G)).
  - intros ->. auto.
  - intros G. apply (andb_prop _ _ (H G)).
  - intros ->. auto using orb_true_r.
Qed.
Lemma alt_and : forall a b (X : Prop), a && b = true \/ X -> (a = true \/ X) /\ (b = true \/ X).
Proof. intros a b X [H|H]; [apply andb_true_iff in H as [? ?]|]; auto. Qed.
(* [EMakeIter], [EIterNext], [EDesugared] are the builder's own nodes *)
Lemma fits_nonsrc : forall b c, fits false c -> fits b c.
Proof. intros b c [H W]. split; auto. intros G. discriminate (H G). Qed.
#[local] Hint Resolve fits_nonsrc : hoare.
Ltac split_given :=
  repeat match goal with
         | H : fits (_ && _) (_ || _) |- _ => apply fits_and in H as [? ?]
         | H : _ && _ = true \/ _ |- _ => apply alt_and in H as [? ?]
         end.

(** What [build_walk] shows of each syntactic class.  The right operand of a one-link comparison
    [ECmp l (CLast op r)], an ordinary value node, sits in the [ctail]: the second half of [W_ctail] (like the
    [ctail] conjunct of [lift_free_simple_all] and [simple_fold_all]) hands what is known of [r] through the
    induction over [ctail] to the [ECmp] case. *)
Definition W_expr (e : expr) : Prop :=
  (fits (src_expr e) (chain_mid e) -> EX (build_expr e)) /\
  (fits (src_expr e) (chain_mid e) -> BR (build_branch e)).
Definition W_exprs (es : exprs) : Prop := fits (src_list es) (chain_mid_list es) -> EXS (build_exprs es).
Definition W_ctail (ct : ctail) : Prop :=
  (fits (src_ctail ct) (chain_mid_ctail ct) ->
     forall l' bb extra t f, (Src -> simple l' = true) -> hoare (build_ctail l' ct bb extra t f) (fun _ => True)) /\
  match ct with CLast _ r => fits (src_expr r) (chain_mid r) -> EX (build_expr r) | CMore _ _ _ => True end.
Definition W_gens (gs : gens) : Prop :=
  fits (src_gens gs) (chain_mid_gens gs) ->
  forall bb, hoare (build_gens gs bb) (fun r => Src -> simple_gens (fst r) = true).

Lemma build_walk : (forall e, W_expr e) /\ (forall es, W_exprs es) /\ (forall ct, W_ctail ct) /\ (forall gs, W_gens gs).
Proof.
  apply expr_mutind; unfold W_expr, W_exprs, W_ctail, W_gens;
    try solve [intros; split_src; apply value_node; [reflexivity|]; simpl; intros; split_given; eauto with hoare nocore].
  - (* EConst: a boolean constant as a condition links its block directly *)
    intros [| b |]; try (apply value_node; [reflexivity | simpl; auto with hoare]).
    split; intros _; simpl; [auto with hoare | intros bb t f; hoare_seq].
  - (* EUnary: [not] as a condition swaps the operand's branches *)
    intros op e [Ee Be].
    assert (X : fits (src_expr (EUnary op e)) (chain_mid (EUnary op e)) -> EX (build_expr (EUnary op e)))
      by (simpl; auto with hoare).
    destruct op; try (apply value_node; [reflexivity | exact X]).
    split; [exact X | intros F bb t f; apply Be, F].
  - intros l [El _] rest [Hc Hr]. simpl src_expr. simpl chain_mid. destruct rest as [op r | op m rest'].
    + apply value_node; [reflexivity|]. simpl. intros F. split_given. eauto with hoare nocore.
    + apply lifted_node; [reflexivity|]. rewrite build_branch_chain. intros F bb t f. split_given. hoare_seq.
  - intros op a [_ Ba] b [_ Bb]. apply lifted_node; [reflexivity|]. simpl. intros F. split_given. eauto with hoare nocore.
  - intros c [_ Bc] a [Ea Ba] b [Eb Bb]. simpl.
    split; intros F; split_given; [intros bb | intros bb t f]; hoare_seq.
  - intros k elt [Ee _] gs IHg. apply value_node; [reflexivity|]. simpl. intros F bb. split_given.
    on_match; hoare_seq.
  - (* EDesugared passes through unchanged: not source syntax, nothing is claimed of it *)
    intros k elt _ gs _. apply value_node; [reflexivity|]. simpl. intros [F _].
    apply EX_ret_self. intros G. discriminate (F G).
  - intros args _. apply value_node; [reflexivity|]. simpl. intros F bb. on_match; hoare_seq.
  - intros _ bb. simpl. hoare_seq.
  - intros e [Ee _] es IHs F bb. simpl in *. split_given. hoare_seq.
  - intros op e [Ee _]. split; [|exact Ee]. intros F l' bb extra t f Hl. simpl in *. hoare_seq.
  - (* CMore: the one place where the model declines *)
    intros op m [Em _] rest [Hc _]. split; [|exact I]. intros F l' bb extra t f Hl. simpl in *.
    apply fits_and in F as [Fm Fr]. destruct (lift_free m) eqn:LF; [|apply hoare_fail, Fm; reflexivity].
    eapply hoare_bind with (Q := fun _ => True); [destruct extra; auto with hoare | intros ex _].
    eapply hoare_bind; [apply Em, Fm | intros r2 Hr2; cbv beta in *].
    eapply hoare_bind; [apply hoare_close_branch; intros G; simpl; rewrite Hl, simple_alias_fix; auto | intros _ _].
    (* the next comparison starts from the middle operand folded twice; it is lift-free *)
    apply Hc; auto. intros _. apply simple_fold, simple_fold, lift_free_simple_all, LF.
  - intros _ bb. simpl. hoare_seq.
  - intros t [Et _] it [Ei _] ifs IHc r IHr F bb. simpl in *. split_given. hoare_seq.
Qed.

Lemma EXof : forall e bb, fits (src_expr e) (chain_mid e) -> hoare (build_expr e bb) (fun r => Src -> simple (fst r) = true).
Proof. intros e bb F. apply (proj1 build_walk e), F. Qed.
Lemma BRof : forall e bb t f, fits (src_expr e) (chain_mid e) -> hoare (build_branch e bb t f) (fun _ => True).
Proof. intros e bb t f F. apply (proj1 build_walk e), F. Qed.
Lemma EXSof : forall es bb, fits (src_list es) (chain_mid_list es) -> hoare (build_exprs es bb) (fun r => Src -> simple_list (fst r) = true).
Proof. intros es bb F. apply (proj1 (proj2 build_walk) es), F. Qed.
#[local] Hint Resolve EXof BRof EXSof jumps_ok_loop : hoare.

Lemma inv_init : forall s, inv s -> inv (mkB [empty_block; empty_block] (bs_tmp s) (bs_nested s)).
Proof. intros s H G. apply st_ok_init, (H G). Qed.

(** the statement walk.  Second hypothesis: [break] / [continue] stand inside loops ([inloop]: the statement is
    inside one), or else [E] holds [ErrNoLoop] anyway, which is how [visit_all] (whose [E] is everything) asks
    nothing of the loops; [jumps_ok]: inside a loop the builder has both jump targets. *)
Lemma visit_walk :
  (forall s inloop bb j, fits (src_stmt s) (chain_mid_stmt s) ->
     loops_ok inloop s = true \/ E ErrNoLoop -> jumps_ok inloop j ->
     hoare (visit_stmt s bb j) (fun _ => True)) /\
  (forall ss inloop prev cur j, fits (src_stmts ss) (chain_mid_stmts ss) ->
     loops_ok_list inloop ss = true \/ E ErrNoLoop -> jumps_ok inloop j ->
     hoare (visit_stmts ss prev cur j) (fun _ => True)).
Proof.
  (* every visitor but those below is a sequence of calls, broken at most by a [match] on something the proof
     need not know; [eauto] finds the [inloop] at which a sub-statement's induction hypothesis is used *)
  apply stmt_mutind; simpl;
    try solve [intros; split_given; hoare_seq; eauto with hoare nocore; repeat (on_match; hoare_seq)].
  - intros inloop bb j _ L J. destruct (j_brk j) eqn:B; [hoare_seq|]. apply hoare_fail.
    destruct L as [L|L]; [|exact L]. destruct (J L). congruence.
  - intros inloop bb j _ L J. destruct (j_cont j) eqn:C; [hoare_seq|]. apply hoare_fail.
    destruct L as [L|L]; [|exact L]. destruct (J L). congruence.
  - (* SDef: the body's finalized CFG joins the nested table, or [finalize] finds a return missing *)
    intros body IHb rn inloop bb j Fb L J s Is.
    pose proof (IHb false entry_idx (Some entry_idx) _ Fb L jumps_ok_fun _ (inv_init s Is)) as V.
    destruct (visit_stmts body _ _ _ _) as [final s1|e1]; [|exact V]. destruct V as [I1 _].
    pose proof (finalize_spec (bs_blocks s1) final rn) as F.
    destruct (finalize _ _ _) as [g|e2].
    + assert (T : hoare (DO add_stmt bb (BDef (length (bs_nested s1))) THEN ret (Some bb)) (fun _ => True)) by hoare_seq.
      apply T. intros G. destruct (I1 G) as [B1 N1].
      split; simpl; [apply (Is G) | apply forallb_snoc; auto].
    + subst. apply E_user. reflexivity.
  - intros s IHs ss IHss inloop prev cur j F L J. split_given.
    eapply hoare_bind with (Q := fun _ => True); [destruct cur; hoare_seq | intros; hoare_seq; eauto with hoare nocore].
Qed.

End Walk.

Lemma hoare_pres : forall A (m : M A) Q, hoare True (fun _ => True) m Q -> pres m Q.
Proof.
  intros A m Q H s a s' Hs R. specialize (H s (fun _ => Hs)). rewrite R in H. destruct H as [H1 H2]. auto.
Qed.
Lemma hoare_errs : forall A (m : M A) Q E, hoare False E m Q -> errs m E.
Proof. intros A m Q E H s err R. specialize (H s (False_ind _)). now rewrite R in H. Qed.

Definition P_stmt (s : stmt) : Prop :=
  src_stmt s = true -> forall bb j, pres (visit_stmt s bb j) (fun _ => True).
Definition P_stmts (ss : stmts) : Prop :=
  src_stmts ss = true -> forall prev cur j, pres (visit_stmts ss prev cur j) (fun _ => True).

Lemma visit_all : (forall s, P_stmt s) /\ (forall ss, P_stmts ss).
Proof.
  assert (F : forall a c, a = true -> fits True (fun _ => True) a c) by (split; auto).
  split; intros x Sx; intros; apply hoare_pres; eapply (visit_walk True (fun _ => True)) with (inloop := false);
    auto; discriminate.
Qed.

Definition T_stmt (s : stmt) : Prop :=
  forall inloop bb j, loops_ok inloop s = true -> jumps_ok inloop j ->
  errs (visit_stmt s bb j) (SE (chain_mid_stmt s)).
Definition T_stmts (ss : stmts) : Prop :=
  forall inloop prev cur j, loops_ok_list inloop ss = true -> jumps_ok inloop j ->
  errs (visit_stmts ss prev cur j) (SE (chain_mid_stmts ss)).

Lemma visit_total : (forall s, T_stmt s) /\ (forall ss, T_stmts ss).
Proof.
  assert (F : forall a c, fits False (SE c) a c) by (split; [contradiction | intros ->; exact SE_unmodelled]).
  split; intros x inloop; intros; eapply hoare_errs with (Q := fun _ => True), (visit_walk False _ (SE_user _)); eauto.
Qed.
