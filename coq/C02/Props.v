(** C02 — property theorems for part (a), the builder invariant.

    The property itself ("check()/compile() either succeed or raise a located GuppyError") is
    NOT proved: no model of the type/linearity checkers exists.  What is proved here is the
    invariant those checkers rely on so as not to raise InternalGuppyError on expression
    shapes: the CFG builder never lets a BoolOp, chained comparison, conditional expression,
    assignment expression or source list comprehension survive in any block statement,
    branch predicate or assignment target (incl. nested function bodies and the inside of
    desugared comprehensions).  The rest of the property is carried by the mutation search
    of props/C02/check.py (testing, said so in meta.json). *)
From Coq Require Import ZArith List Bool.
From V.C03 Require Import PyAst.
From V.C02 Require Import Ast Builder Witness ProofsSimple.
Import ListNotations.

(** The invariant, for every source program of [Ast] and the CFGs of its nested functions; the
    spec-side predicate [Ast.simple] is written over the syntax alone. *)
Theorem builder_output_simple : forall p returns_none g nested,
  src_stmts p = true ->
  build p returns_none = Built g nested ->
  simple_cfg g = true /\ forallb simple_cfg nested = true.
Proof.
  unfold build. intros p rn g nested S H.
  destruct (visit_stmts p _ _ _ init_state) as [final s|] eqn:V; [|discriminate].
  destruct (proj2 visit_all p S _ _ _ _ _ _ (st_ok_init 0 [] eq_refl) V) as [[B N] _].
  pose proof (finalize_spec (bs_blocks s) final rn) as F.
  destruct (finalize _ _ _) as [g0|]; [|discriminate].
  inversion H; subst. auto.
Qed.
Print Assumptions builder_output_simple.

(** Not vacuous: programs with lifted constructs in assignment targets / for targets / nested
    functions / nested comprehensions are accepted by the model, and their source is not simple. *)
Example builder_output_simple_nonvacuous :
  src_stmts w_target_ifexp = true /\ src_stmts w_for_def = true /\ src_stmts w_nested_comp = true /\
  (exists g n, build w_target_ifexp false = Built g n /\ 3 < length g) /\
  (exists g n, build w_for_def true = Built g n /\ length n = 1) /\
  (exists g n, build w_nested_comp true = Built g n).
Proof. vm_compute. repeat split; eauto; repeat eexists; repeat constructor. Qed.

(** Totality: what the model returns (its only fuel, in the reachability worklist, is shown
    adequate).  For every program obeying CPython's compile-time rule for break/continue ([loops_ok_list false]: inside a
    loop of the same function), the builder returns a CFG, or one of the user-error classes
    (UnsupportedError for loop-else / unsupported statement / illegal expression in a comprehension,
    EmptyComptimeExprError, ExpectedError "return statement") -- never the InternalGuppyError
    "Break/Continue BB not defined", never out of fuel -- or the model declines ([ErrUnmodelled]) and
    then the program contains a chained comparison with a lifted middle operand ([chain_mid_stmts],
    a syntactic predicate): for exactly those programs only the differential check speaks. *)
Theorem builder_total : forall p returns_none,
  loops_ok_list false p = true ->
  match build p returns_none with
  | Built _ _ => True
  | Rejected e => user_error e = true \/ (e = ErrUnmodelled /\ chain_mid_stmts p = true)
  end.
Proof.
  intros p rn L. unfold build.
  destruct (visit_stmts p _ _ _ init_state) as [final s|e] eqn:V.
  - pose proof (finalize_spec (bs_blocks s) final rn) as F.
    destruct (finalize _ _ _) as [g|e]; auto. subst. left. auto.
  - exact (SE_inv _ _ (proj2 visit_total p false _ _ _ L jumps_ok_fun _ _ V)).
Qed.
Print Assumptions builder_total.

(** The hypothesis is needed and the declined case is inhabited: *)
Example builder_total_hypothesis_needed :
  loops_ok_list false w_break_outside = false /\ build w_break_outside true = Rejected ErrNoLoop.
Proof. split; reflexivity. Qed.
Example builder_total_declines_on :
  loops_ok_list false w_chain_mid = true /\ build w_chain_mid true = Rejected ErrUnmodelled /\
  chain_mid_stmts w_chain_mid = true.
Proof. repeat split; reflexivity. Qed.
Example builder_total_user_errors_inhabited :
  build (SCons (SWhile (v 0) (SCons SPass SNil) (SCons SPass SNil)) SNil) true = Rejected ErrLoopElse /\
  build (SCons (SOther 0) SNil) true = Rejected ErrUnsupportedStmt /\
  build (SCons (SExpr (EComptime ENil)) SNil) true = Rejected ErrEmptyComptime /\
  build (SCons (SDef SNil false) SNil) true = Rejected ErrExpectedReturn /\
  build (SCons (SExpr (EComp KGen (EIf (v 0) (v 1) (v 2)) (GCons (v 1) (v 3) ENil GNil))) SNil) true = Rejected ErrIllegalInComp.
Proof. repeat split; reflexivity. Qed.

(** Tie of the spec-side predicate to the source: [GenCrash.crash_visitors] is regenerated from
    checker/expr_checker.py on every run (the ExprSynthesizer visitors that unconditionally raise
    InternalGuppyError; the translator separately insists on the chained-comparison guard of
    visit_Compare and on generic_visit staying a user error).  [Ast.simple] describes
    exactly this set: a new crashing visitor breaks this proof. *)
From V.C02 Require GenCrash.
From Coq Require Import String.
Example crash_set_is_the_one_simple_describes :
  GenCrash.crash_visitors = ["BoolOp"; "IfExp"; "ListComp"; "NamedExpr"]%string /\
  simple (EBool BoAnd (v 0) (v 1)) = false /\ simple (EIf (v 0) (v 1) (v 2)) = false /\
  simple (EComp KList (v 0) (GCons (v 0) (v 1) ENil GNil)) = false /\ simple (EWalrus 0 (v 1)) = false /\
  simple (ECmp (v 0) (CMore CLt (v 1) (CLast CLt (v 2)))) = false.
Proof. repeat split; reflexivity. Qed.
