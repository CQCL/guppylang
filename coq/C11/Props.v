(* C11 — compiling a definition does not depend on session history.  PARTIAL (level: other):
   the theorems are about ModelEngine.v, an abstraction of check/compile to their effect on
   session state.  They prove that every modelled piece of state is reset, rebuilt, mutated
   idempotently, or only renumbers generated symbols; they do not prove that the real compiler
   has no other state (that is what the generated inventories and the differential replay
   check). *)
From Coq Require Import ZArith List Bool Lia.
From V.C11 Require Import ModelOrder GenInventory ModelEngine ModelInventory ProofsOrder ProofsEngine.
Import ListNotations. Open Scope Z_scope.

(* P is the dependency cone of d: a set of DefIds containing d, every member of which
   resolves in the initial store to a definition whose dependency names are in N and whose
   block row has well-formed names ([wfvar]: a temporary's number follows "%tmp", a user's digit
   run does not); every name in N is bound in the initial namespace, to a member of P where a
   cone definition uses it. *)
Theorem history_independent_partial :
  forall (P N : Z -> Prop) (fuel : nat) (s0 : Sess) (h1 h2 : list op) (d : Z),
    closed P N s0 -> P d ->
    outcome fuel (exec fuel h1 s0) d = outcome fuel (exec fuel h2 s0) d.
Proof.
  intros P N f s0 h1 h2 id Hc HP.
  assert (E : forall h, outcome f s0 id = outcome f (exec f h s0) id).
  { intros h. pose proof (exec_grows f h s0) as G. apply (compile_sim P N); auto using grows_agree.
    destruct G as (? & ? & _ & E & _). symmetry. exact E. }
  rewrite <- (E h1). apply E.
Qed.
Print Assumptions history_independent_partial.

(* whatever an operation did -- in particular if it failed half-way, leaving worklists,
   caches and mutated CFGs behind -- later compiles and plain-Python calls behave the same *)
Theorem failed_op_harmless_partial :
  forall (P N : Z -> Prop) (fuel : nat) (s0 : Sess) (o : op) (d : Z),
    closed P N s0 -> P d ->
    outcome fuel (exec_op fuel s0 o) d = outcome fuel s0 d /\
    pycall (exec_op fuel s0 o) = pycall s0.
Proof.
  intros P N fuel s0 o d Hc HP. split.
  - exact (history_independent_partial P N fuel s0 [o] [] d Hc HP).
  - unfold pycall. destruct (exec_grows fuel [o] s0) as [? [? [_ [_ [T _]]]]]. simpl in T. rewrite T. reflexivity.
Qed.
Print Assumptions failed_op_harmless_partial.

(* no history changes the tracing flag (with the [finally] of set_tracing_state, read from /repo) *)
Theorem tracing_restored : forall fuel h s, tracing (exec fuel h s) = tracing s.
Proof. intros. destruct (exec_grows fuel h s) as [? [? [_ [_ [T _]]]]]. exact T. Qed.
Print Assumptions tracing_restored.

(* without the finally block the flag leaks out of a failed trace *)
Theorem trace_scope_without_finally_refuted :
  exists prev, trace_scope false true prev <> prev.
Proof. exists false. discriminate. Qed.
Print Assumptions trace_scope_without_finally_refuted.

(* the module namespace is session state that reset() does NOT clear; check and compile
   (after fix-3) leave it alone, only registering a definition extends it *)
Theorem namespace_survives_reset_and_is_not_written :
  forall fuel s d, ns (reset s) = ns s /\ ns (fst (check fuel s d)) = ns s /\
                   ns (fst (fst (compile fuel s d))) = ns s.
Proof.
  intros. split; [reflexivity|]. split.
  - destruct (check_env fuel s d) as [_ [_ [_ E]]]. exact E.
  - destruct (compile_env fuel s d) as [_ [_ [_ E]]]. exact E.
Qed.
Print Assumptions namespace_survives_reset_and_is_not_written.

(* binding a nested helper in the frame namespace itself (the code before fix-3) changes what
   a name resolves to for the rest of the session *)
Theorem nested_binding_in_frame_namespace_refuted :
  exists s d x, lookup (bind_nested true s d) x <> lookup (ns s) x.
Proof.
  exists (mkSess [] 9 [] [] [] [] [] 0 0 0 false [] [(1, 1)]),
         (mkDef false [] [1] true false true 0 0 0 0%nat 0%nat 0%nat false [] 0), 1.
  vm_compute. discriminate.
Qed.
Print Assumptions nested_binding_in_frame_namespace_refuted.

(* caches, worklists and the mutated fields of cached CFGs are never read by a compile *)
Theorem compile_reads_only_reset_state :
  forall fuel s s' d, reset s = reset s' -> compile fuel s d = compile fuel s' d.
Proof.
  intros f s s' id H. unfold compile, check.
  change (store (reset s)) with (store s). change (store (reset s')) with (store s').
  assert (store s = store s') as -> by (change (store s) with (store (reset s)); rewrite H; reflexivity).
  rewrite H. reflexivity.
Qed.
Print Assumptions compile_reads_only_reset_state.

(* after a check every cached CFG has its un-mutated exit signature and input_tys *)
Theorem check_rebuilds_cfgs :
  forall fuel s d, Forall fresh_cfg (checked (fst (check fuel s d))).
Proof.
  intros f s id. unfold check. simpl. destruct (lookup (store s) id); simpl; [|constructor].
  apply (check_loop_inv (fun t => Forall fresh_cfg (checked t))); auto using get_checked_fresh. constructor.
Qed.
Print Assumptions check_rebuilds_cfgs.

(* all lowerings of one CFG within a compile see the return variables exactly once *)
Theorem return_vars_inserted_once :
  forall id n c, c_exit c = init_exit (c_def c) ->
    Forall (fun f => f_exit f = return_vars (d_rets (c_def c)) ++ init_exit (c_def c))
           (snd (lower n id c)).
Proof.
  intros id n c H. rewrite lower_frags. apply Forall_forall. intros f Hf.
  apply repeat_spec in Hf. subst f. rewrite lower1_spec. cbn. rewrite H. apply exit_after_init.
Qed.
Print Assumptions return_vars_inserted_once.

(* [compare_var_name_order] is read from /repo's [compare_var]; the proof stands, by conversion,
   as long as that is the numeric order *)
Theorem block_order_ignores_tmp_counter :
  forall K row, forallb wfvar row = true ->
    sort_vars compare_var_name_order K row = sort_vars compare_var_name_order 0 row.
Proof. exact sort_vars_nat_shift. Qed.
Print Assumptions block_order_ignores_tmp_counter.

(* the original string order sees the counter: at 8 these two temporaries are "%tmp8" and
   "%tmp10" *)
Theorem string_order_depends_on_tmp_counter_refuted :
  exists K row, forallb wfvar row = true /\
    sort_vars cmp_name_str K row <> sort_vars cmp_name_str 0 row.
Proof. exists 8, [tmpv 0; tmpv 2]. split; [reflexivity|]. vm_compute. discriminate. Qed.
Print Assumptions string_order_depends_on_tmp_counter_refuted.

(* the tie: the inventories generated from /repo against the model's state components *)
Theorem reset_covers_engine_fields :
  same_set engine_fields (reset_fields ++ engine_config_fields) = true /\
  check_resets_first = true /\ compile_checks_first = true.
Proof. repeat split; vm_compute; reflexivity. Qed.
Theorem global_state_is_modelled :
  same_set global_state (modelled_state ++ constant_state) = true.
Proof. vm_compute. reflexivity. Qed.
Theorem mutation_sites_are_modelled :
  same_set mutation_sites modelled_mutations = true /\
  same_set input_tys_mentions modelled_input_tys_mentions = true.
Proof. split; vm_compute; reflexivity. Qed.
Theorem session_write_sites_are_modelled :
  same_set session_write_sites modelled_write_sites = true /\ nested_writes_namespace = false.
Proof. split; vm_compute; reflexivity. Qed.

Theorem call_compiler_objects_are_stateless :
  same_set call_object_state modelled_call_object_state = true.
Proof. vm_compute. reflexivity. Qed.

(* a non-trivial instance: the hypotheses are satisfiable and the histories differ *)
Definition D (ty : bool) deps ok ct tr ntmp nconst ngen rets insts (rc : bool) row body : Def :=
  mkDef ty deps (if rc then [1] else @nil Z) ok ct tr ntmp 1 nconst ngen rets insts rc row body.
(* names coincide with ids in this instance; definitions 3 and 6 contain a nested recursive
   helper named 1, like the module-level definition 1 *)
Definition row2 : list var := [mkVar true [CText 3]; tmpv 2; tmpv 0; mkVar false [CText 1; CNum 10]].
Definition pool : list (Z * Def) := [
  (0, D true  []        true  false true 0 1 2%nat 0%nat 0%nat false [] 10);        (* struct Pt *)
  (1, D false []        true  false true 2 0 0%nat 1%nat 0%nat false [] 11);        (* plain *)
  (2, D false [1]       false false true 3 0 0%nat 1%nat 0%nat false [] 12);        (* bad_type *)
  (3, D false [1; 0; 4] true  false true 4 0 0%nat 1%nat 1%nat true row2 13);       (* caller *)
  (4, D false []        true  true  false 1 0 0%nat 1%nat 0%nat false [] 14);       (* ct_raises *)
  (5, D false [1; 2]    true  false true 0 0 0%nat 1%nat 0%nat false [] 15);        (* caller_of_bad *)
  (6, D false [0; 1]    true  false true 4 1 0%nat 2%nat 1%nat true row2 16)        (* use_struct *)
].
Definition s_init : Sess :=
  mkSess pool 7 [] [] [] [] [] 0 0 0 false [42] [(0, 0); (1, 1); (2, 2); (3, 3); (4, 4); (5, 5); (6, 6)].
Definition cone6 (id : Z) : Prop := In id [0; 1; 6].
Example cone6_closed : closed cone6 cone6 s_init.
Proof.
  split.
  - intros id [H|[H|[H|[]]]]; subst; eexists; (split; [reflexivity|]); (split; [|reflexivity]);
      repeat (apply Forall_cons;
              [split; [unfold cone6; simpl; tauto|eexists; split; [reflexivity|unfold cone6; simpl; tauto]]|]);
      apply Forall_nil.
  - intros x [H|[H|[H|[]]]]; subst; eexists; reflexivity.
Qed.
Definition hist : list op := [OCheck 5; OCompile 3; OCompile 6; OPyCall 1; OCompile 6].
Example history_leaves_state :
  snd (check 50 s_init 5) = Err (CheckErr 2) /\
  to_check (fst (check 50 s_init 5)) <> [] /\
  snd (fst (compile 50 s_init 3)) = Err (TraceErr 4) /\
  const_ctr (exec 50 hist s_init) = 5 /\ tmp_ctr (exec 50 hist s_init) = 22.
Proof. repeat split; vm_compute; try reflexivity; discriminate. Qed.
(* the compile after the history is a successful, non-empty package, equal only up to renumbering *)
Example history_example :
  outcome 50 (exec 50 hist s_init) 6 = outcome 50 s_init 6 /\
  (exists fs e, outcome 50 s_init 6 = (Ok, Some (fs, e)) /\ (length fs >= 3)%nat) /\
  snd (compile 50 (exec 50 hist s_init) 6) <> snd (compile 50 s_init 6).
Proof.
  split; [exact (history_independent_partial cone6 cone6 50 s_init hist [] 6 cone6_closed (or_intror (or_intror (or_introl eq_refl))))|].
  split; [eexists; eexists; split; [vm_compute; reflexivity|simpl; lia]|].
  vm_compute. discriminate.
Qed.
