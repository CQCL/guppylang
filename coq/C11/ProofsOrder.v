(** C11 — the variable order of ModelOrder.v against the temporaries counter: on well-formed
    names ([wfvar]) the numeric order, and so [sort_vars], does not depend on the value K at
    which relative temporaries are instantiated ([cmp_nat_shift], [sort_vars_nat_shift]). *)
From Coq Require Import ZArith List Bool.
From V.C11 Require Import ModelOrder.
Import ListNotations. Open Scope Z_scope.

(* Well-formed names: a temporary's number directly follows a text run that ends in "%tmp"
   (negative code), and no other digit run does (user identifiers cannot contain '%'). *)
Definition tmp_mark (c : Z) : bool := c <? 0.
Fixpoint wfn (prev : bool) (n : name) : bool :=
  match n with
  | [] => true
  | CText c :: r => wfn (tmp_mark c) r
  | CNum _ :: r => negb prev && wfn false r
  | CTmp _ :: r => prev && wfn false r
  end.
Definition wfvar (v : var) : bool := wfn false (v_name v).

Lemma cmp_nat_shift : forall K a b p, wfn p a = true -> wfn p b = true ->
  cmp_name_nat (inst K a) (inst K b) = cmp_name_nat (inst 0 a) (inst 0 b).
Proof.
  unfold cmp_name_nat. intros K a. induction a as [|x a IH]; intros b p Ha Hb.
  - destruct b; reflexivity.
  - destruct b as [|y b]; [reflexivity|].
    destruct x as [x|x|x], y as [y|y|y]; simpl in *;
      repeat match goal with H : _ && _ = true |- _ => apply andb_prop in H; destruct H end;
      try reflexivity;
      try (destruct p; simpl in *; discriminate).
    + destruct (Z.compare x y) eqn:E; try reflexivity.
      apply Z.compare_eq in E. subst. eauto.
    + destruct (Z.compare x y) eqn:E; try reflexivity. eauto.
    + rewrite !Z.add_compare_mono_l. simpl.
      destruct (Z.compare x y) eqn:E; try reflexivity. eauto.
Qed.

Lemma var_lt_shift : forall K a b, wfvar a = true -> wfvar b = true ->
  var_lt cmp_name_nat K a b = var_lt cmp_name_nat 0 a b.
Proof.
  intros. unfold var_lt. destruct (Bool.compare _ _); try reflexivity.
  rewrite (cmp_nat_shift K _ _ false) by assumption. reflexivity.
Qed.

Lemma insert_by_in : forall lt x l y, In y (insert_by lt x l) <-> y = x \/ In y l.
Proof.
  induction l as [|z l IH]; simpl; intros.
  - intuition.
  - destruct (lt x z); simpl; [intuition|]. rewrite IH. intuition.
Qed.
Lemma sort_by_in : forall lt l y, In y (sort_by lt l) <-> In y l.
Proof.
  induction l as [|z l IH]; simpl; intros; [tauto|].
  rewrite insert_by_in, IH. intuition.
Qed.
Lemma insert_by_ext : forall lt1 lt2 x l,
  (forall y, In y l -> lt1 x y = lt2 x y) -> insert_by lt1 x l = insert_by lt2 x l.
Proof.
  induction l as [|z l IH]; simpl; intros H; [reflexivity|].
  rewrite (H z) by auto. destruct (lt2 x z); [reflexivity|]. f_equal. apply IH. auto.
Qed.
Lemma sort_by_ext : forall lt1 lt2 l,
  (forall x y, In x l -> In y l -> lt1 x y = lt2 x y) -> sort_by lt1 l = sort_by lt2 l.
Proof.
  induction l as [|z l IH]; simpl; intros H; [reflexivity|].
  rewrite IH by auto. apply insert_by_ext. intros y Hy. apply sort_by_in in Hy. auto.
Qed.

Lemma sort_vars_nat_shift : forall K row, forallb wfvar row = true ->
  sort_vars cmp_name_nat K row = sort_vars cmp_name_nat 0 row.
Proof.
  intros K row H. unfold sort_vars. apply sort_by_ext. intros x y Hx Hy.
  rewrite forallb_forall in H. apply var_lt_shift; auto.
Qed.

Definition tmpv (i : Z) : var := mkVar false [CText (-1); CTmp i].
Lemma wf_example : forallb wfvar [tmpv 0; tmpv 2; mkVar true [CText 5; CNum 12]] = true.
Proof. reflexivity. Qed.
