(** C11 — sessions that agree on a definition's dependency cone stay related by [R k] through
    [check] and lowering: equal up to an offset [k] in generated constants, which [canon] forgets. *)
From Coq Require Import ZArith List Bool Lia.
From V.C11 Require Import ModelOrder GenInventory ModelEngine ProofsOrder.
Import ListNotations. Open Scope Z_scope.

(* what a check or compile leaves as it found it: store, extensions, tracing flag, namespace *)
Definition same_env (s s1 : Sess) : Prop :=
  store s1 = store s /\ exts s1 = exts s /\ tracing s1 = tracing s /\ ns s1 = ns s.
Lemma same_env_refl s : same_env s s. Proof. repeat split. Qed.
Lemma same_env_trans a b c : same_env a b -> same_env b c -> same_env a c.
Proof. unfold same_env. intuition congruence. Qed.

Lemma get_parsed_env s id : same_env s (fst (get_parsed s id)).
Proof.
  unfold get_parsed. destruct (memz id (parsed s)); [apply same_env_refl|].
  destruct (lookup (store s) id); simpl; repeat split.
Qed.
(* what [get_parsed] preserves, the lookups of a check preserve; what [get_checked] and the
   setting of worklists preserve, the loop of [check] preserves *)
Lemma visit_deps_inv (I : Sess -> Prop) : (forall s id, I s -> I (fst (get_parsed s id))) ->
  forall deps s, I s -> I (fst (visit_deps s deps)).
Proof.
  intros Hp. induction deps as [|x r IH]; simpl; intros s Hs; [exact Hs|].
  destruct (lookup (ns s) x) as [i|]; [|exact Hs].
  specialize (Hp s i Hs). destruct (get_parsed s i) as [s1 [d|]]; simpl in *; auto.
Qed.
Lemma check_loop_inv (I : Sess -> Prop) :
  (forall s tc tt, I s -> I (set_worklists s tc tt)) ->
  (forall s id, I s -> I (fst (get_checked s id))) ->
  forall f s, I s -> I (fst (check_loop f s)).
Proof.
  intros Hw Hc. induction f as [|f IH]; simpl; intros s Hs; [exact Hs|].
  assert (J : forall tc tt id, I (fst (match get_checked (set_worklists s tc tt) id with
                                        | (s1, Ok) => check_loop f s1 | x => x end))).
  { intros tc tt id. specialize (Hc _ id (Hw s tc tt Hs)).
    destruct (get_checked _ id) as [s1 [|e]]; simpl in *; auto. }
  destruct (types_to_check s); [destruct (to_check s); [exact Hs|]|]; apply J.
Qed.

Lemma visit_deps_env deps : forall s, same_env s (fst (visit_deps s deps)).
Proof.
  intros s. apply visit_deps_inv; [|apply same_env_refl].
  intros s1 id H. exact (same_env_trans _ _ _ H (get_parsed_env s1 id)).
Qed.
Lemma get_checked_env s id : same_env s (fst (get_checked s id)).
Proof.
  unfold get_checked. destruct (existsb _ _); [apply same_env_refl|].
  pose proof (get_parsed_env s id) as H. destruct (get_parsed s id) as [s1 [d|]]; simpl in *; auto.
  pose proof (visit_deps_env (d_deps d) s1) as H2.
  destruct (visit_deps s1 (d_deps d)) as [s2 [b|]]; simpl in *.
  - eapply same_env_trans; eauto.
  - destruct (d_check_ok d); simpl; (eapply same_env_trans; [eapply same_env_trans; eauto|]);
      repeat split.
Qed.
Lemma get_checked_spec s id s1 d s2 :
  existsb (fun p : Z * Checked => fst p =? id) (checked s) = false ->
  get_parsed s id = (s1, Some d) -> visit_deps s1 (d_deps d) = (s2, None) ->
  let r := get_checked s id in
  same_env s2 (fst r) /\ parsed (fst r) = parsed s2 /\
  to_check (fst r) = to_check s2 /\ types_to_check (fst r) = types_to_check s2 /\
  checked (fst r) =
    (if d_check_ok d
     then [(id, mkChecked d (resolve_all s2 (d_deps d)) (tmp_ctr s2) (const_ctr s2) (init_exit d) 0)]
     else []) ++ checked s2 /\
  const_ctr (fst r) = const_ctr s2 + (if d_check_ok d then d_nconst d else 0) /\
  snd r = if d_check_ok d then Ok else Err (CheckErr id).
Proof.
  intros C G V. cbv zeta. remember (get_checked s id) as r eqn:Er.
  unfold get_checked in Er. rewrite C, G, V in Er. unfold same_env.
  destruct (d_check_ok d); cbn in Er; subst r; repeat apply conj; try reflexivity. symmetry. apply Z.add_0_r.
Qed.
Lemma check_env f s id : same_env s (fst (check f s id)).
Proof.
  unfold check. simpl. destruct (lookup (store s) id); simpl; [|repeat split].
  apply check_loop_inv; [| |repeat split].
  - intros s1 tc tt H. eapply same_env_trans; [exact H|]. repeat split.
  - intros s1 i H. exact (same_env_trans _ _ _ H (get_checked_env s1 i)).
Qed.
Lemma compile_loop_env f : forall s wl comp out,
  same_env s (fst (fst (fst (compile_loop f s wl comp out)))).
Proof.
  induction f as [|f IH]; simpl; intros; [apply same_env_refl|].
  destruct wl as [|id r]; [apply same_env_refl|].
  destruct (memz id comp); [apply IH|].
  destruct (lookup (checked s) id) as [c|]; [|apply same_env_refl].
  destruct (d_comptime (c_def c) && negb (d_trace_ok (c_def c))).
  - simpl. repeat split.
  - destruct (lower _ id c) as [c' fs]. eapply same_env_trans; [|apply IH]. repeat split.
Qed.
Lemma compile_env f s id : same_env s (fst (fst (compile f s id))).
Proof.
  unfold compile. pose proof (check_env f s id) as H.
  destruct (check f s id) as [s1 [|e]]; simpl in *; auto.
  pose proof (compile_loop_env f s1 [id] [] []) as H2.
  destruct (compile_loop f s1 [id] [] []) as [[[s2 r] cp] o]; simpl in *.
  destruct r; simpl; (eapply same_env_trans; [exact H|]); auto.
Qed.

Lemma lookup_app_found {A} (l e : list (Z * A)) id d :
  lookup l id = Some d -> lookup (l ++ e) id = Some d.
Proof.
  unfold lookup. induction l as [|p l IH]; simpl; [discriminate|].
  destruct (fst p =? id); auto.
Qed.

(* what a whole history, registrations included, does to those four: it appends to the store
   and to the namespace *)
Definition grows (s t : Sess) : Prop :=
  exists extra nx, store t = store s ++ extra /\ exts t = exts s /\ tracing t = tracing s /\ ns t = ns s ++ nx.
Lemma grows_env s t : same_env s t -> grows s t.
Proof. intros (A & B & C & D). exists [], []. rewrite !app_nil_r. auto. Qed.
Lemma grows_trans a b c : grows a b -> grows b c -> grows a c.
Proof.
  intros (e1 & n1 & A1 & B1 & C1 & D1) (e2 & n2 & A2 & B2 & C2 & D2). exists (e1 ++ e2), (n1 ++ n2).
  rewrite A2, A1, D2, D1, !app_assoc. repeat split; congruence.
Qed.
Lemma exec_grows f h : forall s, grows s (exec f h s).
Proof.
  unfold exec. induction h as [|o h IH]; simpl; intros s; [apply grows_env, same_env_refl|].
  eapply grows_trans; [|apply IH]. destruct o; simpl.
  - eexists; eexists; repeat split.
  - apply grows_env, check_env.
  - apply grows_env, compile_env.
  - apply grows_env, same_env_refl.
Qed.

Definition shift_frag (k : Z) (f : Frag) : Frag :=
  mkFrag (f_id f) (f_row f) (f_exit f) (map (Z.add k) (f_syms f)) (f_body f).

Lemma idx_shift k n : forall tbl i, idx (map (Z.add k) tbl) (k + n) i = idx tbl n i.
Proof.
  induction tbl as [|x r IH]; simpl; intros; [reflexivity|].
  destruct (Z.eqb_spec (k + x) (k + n)), (Z.eqb_spec x n); try lia; auto.
Qed.
Lemma canon_syms_shift k : forall l tbl,
  canon_syms (map (Z.add k) tbl) (map (Z.add k) l)
  = (map (Z.add k) (fst (canon_syms tbl l)), snd (canon_syms tbl l)).
Proof.
  induction l as [|n r IH]; simpl; intros; [reflexivity|].
  rewrite idx_shift. destruct (idx tbl n 0).
  - rewrite IH. destruct (canon_syms tbl r). reflexivity.
  - replace (map (Z.add k) tbl ++ [k + n]) with (map (Z.add k) (tbl ++ [n]))
      by (rewrite map_app; reflexivity).
    rewrite IH, map_length. destruct (canon_syms (tbl ++ [n]) r). reflexivity.
Qed.
Lemma canon_frags_shift k : forall fs tbl,
  canon_frags (map (Z.add k) tbl) (map (shift_frag k) fs) = canon_frags tbl fs.
Proof.
  induction fs as [|f r IH]; simpl; intros; [reflexivity|].
  rewrite canon_syms_shift. destruct (canon_syms tbl (f_syms f)) as [t o]. simpl.
  f_equal. apply IH.
Qed.

(* two cached checked definitions: equal but for the number their constants start from, which
   differs by k; the row's names are well-formed (what [sort_vars_nat_shift] asks for) *)
Definition crelc (k : Z) (c c' : Checked) : Prop :=
  c_def c = c_def c' /\ c_deps c = c_deps c' /\ c_exit c = c_exit c' /\ c_input_tys c = c_input_tys c' /\
  c_const0 c' = c_const0 c + k /\ forallb wfvar (d_row (c_def c)) = true.
Definition crel (k : Z) (p p' : Z * Checked) : Prop := fst p = fst p' /\ crelc k (snd p) (snd p').

(* what compile_cfg's guard and insert_return_vars do to an exit row *)
Definition exit_after (d : Def) (e : list Z) : list Z :=
  if negb guard_present || forallb (fun v => negb (is_return_var v)) e
  then return_vars (d_rets d) ++ e else e.

(* a lowering mutates the exit row and input_tys of the cached CFG and nothing else *)
Lemma lower1_spec id c : lower1 id c =
  (mkChecked (c_def c) (c_deps c) (c_tmp0 c) (c_const0 c) (exit_after (c_def c) (c_exit c))
             (if d_rec_closure (c_def c) then c_input_tys c + 1 else c_input_tys c),
   mkFrag id (sort_vars compare_var_name_order (c_tmp0 c) (d_row (c_def c)))
          (exit_after (c_def c) (c_exit c)) (gen_syms c) (d_body (c_def c))).
Proof.
  destruct c as [d dp t0 k0 e it]. unfold lower1, guarded_insert, exit_after. cbn [c_exit c_def].
  destruct (negb guard_present || _); cbn; destruct (d_rec_closure d); reflexivity.
Qed.

Lemma lower1_sim k id c c' : crelc k c c' ->
  crelc k (fst (lower1 id c)) (fst (lower1 id c')) /\
  snd (lower1 id c') = shift_frag k (snd (lower1 id c)).
Proof.
  intros (Hd & Hdp & He & Hi & Hc & Hw). rewrite !lower1_spec. unfold crelc, shift_frag. cbn.
  rewrite <- Hd, <- Hdp, <- He, <- Hi. repeat split; auto.
  f_equal.
  - (* [compare_var_name_order] is [cmp_name_nat], by conversion *)
    rewrite (sort_vars_nat_shift (c_tmp0 c')), (sort_vars_nat_shift (c_tmp0 c)); auto.
  - unfold gen_syms. rewrite <- Hd, Hc, map_map. apply map_ext. intros. lia.
Qed.

Lemma lower_0 id c : lower 0 id c = (fst (lower1 id c), [snd (lower1 id c)]).
Proof.
  change (lower 0 id c) with (let (c', f) := lower1 id c in (c', [f])).
  destruct (lower1 id c); reflexivity.
Qed.
Lemma lower_S n id c : lower (S n) id c
  = (fst (lower n id (fst (lower1 id c))), snd (lower1 id c) :: snd (lower n id (fst (lower1 id c)))).
Proof.
  change (lower (S n) id c)
    with (let (c', f) := lower1 id c in let (c'', fs) := lower n id c' in (c'', f :: fs)).
  destruct (lower1 id c) as [c1 f]. cbn [fst snd]. destruct (lower n id c1). reflexivity.
Qed.

Lemma lower_sim k id n : forall c c', crelc k c c' ->
  crelc k (fst (lower n id c)) (fst (lower n id c')) /\
  snd (lower n id c') = map (shift_frag k) (snd (lower n id c)).
Proof.
  induction n as [|n IH]; intros c c' H; destruct (lower1_sim k id c c' H) as [A B].
  - rewrite !lower_0. cbn [fst snd map]. rewrite B. auto.
  - rewrite !lower_S. cbn [fst snd map]. destruct (IH _ _ A) as [A2 B2]. rewrite B, B2. auto.
Qed.

(* compile_cfg's guard makes the insertion idempotent, so every lowering of a cached CFG within
   a compile emits the same fragment *)
Lemma exit_after_idem d e : exit_after d (exit_after d e) = exit_after d e.
Proof.
  unfold exit_after. change (negb guard_present) with false. rewrite !orb_false_l.
  destruct (forallb _ e) eqn:G; [|rewrite G; reflexivity].
  (* with no return variable to insert the row is unchanged; otherwise it now starts with one
     and fails the guard's test *)
  destruct (d_rets d); [simpl; rewrite G|]; reflexivity.
Qed.
Lemma lower_frags id n : forall c, snd (lower n id c) = repeat (snd (lower1 id c)) (S n).
Proof.
  induction n as [|n IH]; intros c; [rewrite lower_0; reflexivity|].
  rewrite lower_S. cbn [snd]. rewrite IH. f_equal.
  rewrite !lower1_spec. cbn. rewrite exit_after_idem. reflexivity.
Qed.
Lemma exit_after_init d : exit_after d (init_exit d) = return_vars (d_rets d) ++ init_exit d.
Proof.
  unfold exit_after, init_exit, is_return_var. simpl.
  pose proof (Z.mod_pos_bound (d_body d) 2 ltac:(lia)).
  destruct (Z.ltb_spec (d_body d mod 2) 0); [lia|reflexivity].
Qed.

Lemma lookup_checked_sim k id : forall l l', Forall2 (crel k) l l' ->
  match lookup l id, lookup l' id with
  | Some c, Some c' => crelc k c c'
  | None, None => True
  | _, _ => False
  end.
Proof.
  unfold lookup. induction 1 as [|p p' l l' [Hf Hc] _ IH]; simpl; [exact I|].
  rewrite <- Hf. destruct (fst p =? id); auto.
Qed.
Lemma update_sim k id c c' : crelc k c c' -> forall l l', Forall2 (crel k) l l' ->
  Forall2 (crel k) (update l id c) (update l' id c').
Proof.
  intros Hc. induction 1 as [|[a b] [a' b'] l l' [Hf Hr] HL IH]; simpl; [constructor|].
  simpl in Hf. subst a'. destruct (a =? id); constructor; auto; split; auto.
Qed.
Lemma checked_mem_sim k id : forall l l', Forall2 (crel k) l l' ->
  existsb (fun p : Z * Checked => fst p =? id) l = existsb (fun p : Z * Checked => fst p =? id) l'.
Proof. induction 1 as [|p p' l l' [Hf _] _ IH]; simpl; [reflexivity|]. rewrite Hf, IH. reflexivity. Qed.

Lemma compile_loop_sim k f : forall s s' wl comp out,
  Forall2 (crel k) (checked s) (checked s') ->
  let x := compile_loop f s wl comp out in
  let x' := compile_loop f s' wl comp (map (shift_frag k) out) in
  snd (fst (fst x)) = snd (fst (fst x')) /\ snd x' = map (shift_frag k) (snd x).
Proof.
  induction f as [|f IH]; simpl; intros s s' wl comp out H; [auto|].
  destruct wl as [|id r]; [auto|].
  destruct (memz id comp); [apply IH; auto|].
  pose proof (lookup_checked_sim k id _ _ H) as L.
  destruct (lookup (checked s) id) as [c|], (lookup (checked s') id) as [c'|]; try contradiction;
    [|simpl; auto].
  destruct L as [Hd L]. pose proof (conj Hd L) as Hc. rewrite <- Hd.
  destruct L as [Hdp _]. rewrite <- Hdp.
  destruct (d_comptime (c_def c) && negb (d_trace_ok (c_def c))); [simpl; auto|].
  destruct (lower_sim k id (d_insts (c_def c)) c c' Hc) as [A B].
  destruct (lower (d_insts (c_def c)) id c) as [c1 fs], (lower (d_insts (c_def c)) id c') as [c1' fs'].
  simpl in A, B. subst fs'. rewrite <- map_app. apply IH. simpl. apply update_sim; auto.
Qed.

Section Cone.
Variable P : Z -> Prop.      (* the DefIds of the cone *)
Variable N : Z -> Prop.      (* the names the cone's definitions look up *)

Definition resolves (s : Sess) (x : Z) : Prop :=
  N x /\ exists i, lookup (ns s) x = Some i /\ P i.
Definition def_ok (s : Sess) (d : Def) : Prop :=
  Forall (resolves s) (d_deps d) /\ forallb wfvar (d_row d) = true.
(* every id of the cone is defined in s, with its dependency names bound to ids of the cone
   and a well-formed row; every name of N is bound *)
Definition closed (s : Sess) : Prop :=
  (forall id, P id -> exists d, lookup (store s) id = Some d /\ def_ok s d) /\
  (forall x, N x -> exists i, lookup (ns s) x = Some i).
(* the two sessions give the cone's ids and names the same meaning *)
Definition agree (s s' : Sess) : Prop :=
  (forall id, P id -> lookup (store s) id = lookup (store s') id) /\
  (forall x, N x -> lookup (ns s) x = lookup (ns s') x).

Lemma agree_env s s' t t' : same_env s t -> same_env s' t' -> agree s s' -> agree t t'.
Proof. intros (S & _ & _ & E) (S' & _ & _ & E') A. unfold agree. rewrite S, S', E, E'. exact A. Qed.
Lemma closed_env s t : same_env s t -> closed s -> closed t.
Proof. intros (S & _ & _ & E) C. unfold closed, def_ok, resolves in *. rewrite S, E. exact C. Qed.

(** Two runs in lockstep.  No check or compile leaves its environment ([same_env]), so the cone
    is a fact about the sessions [e], [e'] the runs start from. *)
Section Envs.
Variables e e' : Sess.
Hypothesis cone_agree : agree e e'.
Hypothesis cone_closed : closed e.

Record R (k : Z) (s s' : Sess) : Prop := mkR {
  R_env : same_env e s; R_env' : same_env e' s';
  R_parsed : parsed s = parsed s';
  R_checked : Forall2 (crel k) (checked s) (checked s');
  R_tc : to_check s = to_check s'; R_tt : types_to_check s = types_to_check s';
  R_P1 : Forall P (to_check s); R_P2 : Forall P (types_to_check s);
  R_const : const_ctr s' = const_ctr s + k }.

Lemma get_parsed_sim k s s' id : R k s s' -> P id ->
  exists d, def_ok e d /\
            snd (get_parsed s id) = Some d /\ snd (get_parsed s' id) = Some d /\
            R k (fst (get_parsed s id)) (fst (get_parsed s' id)).
Proof.
  intros H HP. destruct H. destruct (proj1 cone_closed id HP) as [d [Hl Hok]].
  assert (L : lookup (store s) id = Some d) by (rewrite (proj1 R_env0); exact Hl).
  assert (L' : lookup (store s') id = Some d)
    by (rewrite (proj1 R_env'0), <- (proj1 cone_agree id HP); exact Hl).
  exists d. unfold get_parsed. rewrite <- R_parsed0, L, L'.
  destruct (memz id (parsed s)); simpl.
  - split; [exact Hok|]. split; [reflexivity|]. split; [reflexivity|]. constructor; auto.
  - split; [exact Hok|]. split; [reflexivity|]. split; [reflexivity|].
    constructor; simpl; auto; destruct (d_type d); auto; congruence.
Qed.

Lemma visit_deps_sim k deps : forall s s', R k s s' -> Forall (resolves e) deps ->
  snd (visit_deps s deps) = None /\ snd (visit_deps s' deps) = None /\
  R k (fst (visit_deps s deps)) (fst (visit_deps s' deps)).
Proof.
  induction deps as [|x r IH]; simpl; intros s s' H HF; [auto|].
  inversion HF as [|? ? [HN [i [Hi HP]]] HF']; subst.
  destruct (R_env _ _ _ H) as (_ & _ & _ & ->). destruct (R_env' _ _ _ H) as (_ & _ & _ & ->).
  rewrite <- (proj2 cone_agree x HN), Hi.
  destruct (get_parsed_sim k s s' i H HP) as [d [_ [A [B C]]]].
  destruct (get_parsed s i) as [s1 o], (get_parsed s' i) as [s1' o']. simpl in *. subst.
  apply IH; auto.
Qed.

Lemma resolve_all_sim s s' deps : same_env e s -> same_env e' s' -> Forall N deps ->
  resolve_all s deps = resolve_all s' deps.
Proof.
  intros (_ & _ & _ & En) (_ & _ & _ & En') HF. unfold resolve_all. rewrite En, En'.
  apply map_ext_in. intros x Hx. rewrite Forall_forall in HF.
  rewrite (proj2 cone_agree x (HF x Hx)). reflexivity.
Qed.

Lemma get_checked_sim k s s' id : R k s s' -> P id ->
  snd (get_checked s id) = snd (get_checked s' id) /\
  R k (fst (get_checked s id)) (fst (get_checked s' id)).
Proof.
  intros H HP. pose proof (checked_mem_sim k id _ _ (R_checked _ _ _ H)) as M.
  destruct (existsb (fun p : Z * Checked => fst p =? id) (checked s')) eqn:C'.
  { unfold get_checked. rewrite M, C'. auto. }
  destruct (get_parsed_sim k s s' id H HP) as [d [[Hdeps Hw] [A [B C1]]]].
  destruct (get_parsed s id) as [s1 o] eqn:G, (get_parsed s' id) as [s1' o'] eqn:G'.
  simpl in A, B, C1. subst o o'.
  destruct (visit_deps_sim k (d_deps d) s1 s1' C1 Hdeps) as [A2 [B2 C2]].
  destruct (visit_deps s1 (d_deps d)) as [s2 b] eqn:V, (visit_deps s1' (d_deps d)) as [s2' b'] eqn:V'.
  simpl in A2, B2, C2. subst b b'.
  destruct (get_checked_spec s id s1 d s2 M G V) as (F1 & F2 & F3 & F4 & F5 & F6 & F7).
  destruct (get_checked_spec s' id s1' d s2' C' G' V') as (F1' & F2' & F3' & F4' & F5' & F6' & F7').
  split; [congruence|]. destruct C2.
  constructor; try congruence;
    [exact (same_env_trans _ _ _ R_env0 F1) | exact (same_env_trans _ _ _ R_env'0 F1') | | ].
  - (* the new entry differs only in where its constants are numbered from *)
    rewrite F5, F5'. destruct (d_check_ok d); [constructor|]; auto.
    split; [reflexivity|]. repeat split; auto. cbn.
    apply resolve_all_sim; auto. exact (Forall_impl _ (fun x => @proj1 _ _) Hdeps).
  - rewrite F6, F6'. lia.
Qed.

Lemma R_set_worklists k s s' tc tt : R k s s' -> Forall P tc -> Forall P tt ->
  R k (set_worklists s tc tt) (set_worklists s' tc tt).
Proof. intros [] ? ?. constructor; simpl; auto. Qed.

Lemma check_loop_sim k f : forall s s', R k s s' ->
  snd (check_loop f s) = snd (check_loop f s') /\
  R k (fst (check_loop f s)) (fst (check_loop f s')).
Proof.
  induction f as [|f IH]; simpl; intros s s' H; [auto|].
  rewrite <- (R_tt _ _ _ H), <- (R_tc _ _ _ H).
  assert (J : forall tc tt id, Forall P tc -> Forall P tt -> P id ->
    let x := match get_checked (set_worklists s tc tt) id with (s1, Ok) => check_loop f s1 | x => x end in
    let x' := match get_checked (set_worklists s' tc tt) id with (s1, Ok) => check_loop f s1 | x => x end in
    snd x = snd x' /\ R k (fst x) (fst x')).
  { intros tc tt id Htc Htt HP.
    destruct (get_checked_sim k _ _ id (R_set_worklists k s s' tc tt H Htc Htt) HP) as [A B].
    destruct (get_checked (set_worklists s tc tt) id) as [s1 r1],
             (get_checked (set_worklists s' tc tt) id) as [s1' r1']. simpl in A, B. subst. destruct r1'; simpl; auto. }
  pose proof (R_P1 _ _ _ H) as P1. pose proof (R_P2 _ _ _ H) as P2.
  destruct (types_to_check s) as [|id r]; [destruct (to_check s) as [|id r]; [auto|]|].
  - inversion P1; subst. apply J; auto.
  - inversion P2; subst. apply J; auto.
Qed.

End Envs.

Lemma check_sim f s s' id : agree s s' -> closed s -> P id ->
  snd (check f s id) = snd (check f s' id) /\
  R s s' (const_ctr s' - const_ctr s) (fst (check f s id)) (fst (check f s' id)).
Proof.
  intros Ha Hc HP. unfold check. simpl. rewrite <- (proj1 Ha id HP).
  destruct (proj1 Hc id HP) as [d [Hl _]]. rewrite Hl.
  apply check_loop_sim; auto. constructor; simpl; auto; [repeat split | repeat split | lia].
Qed.

Lemma compile_sim f s s' id : agree s s' -> closed s -> P id -> exts s = exts s' ->
  outcome f s id = outcome f s' id.
Proof.
  intros Ha Hc HP He. unfold outcome, compile.
  destruct (check_sim f s s' id Ha Hc HP) as [A B].
  destruct (check f s id) as [s1 r1], (check f s' id) as [s1' r1']. simpl in *. subst r1'.
  destruct r1; [|reflexivity].
  destruct (R_env _ _ _ _ _ B) as [_ [E1 _]]. destruct (R_env' _ _ _ _ _ B) as [_ [E1' _]].
  pose proof (compile_loop_sim (const_ctr s' - const_ctr s) f s1 s1' [id] [] []
                (R_checked _ _ _ _ _ B)) as [C1 C3].
  pose proof (compile_loop_env f s1 [id] [] []) as [_ [E2 _]].
  pose proof (compile_loop_env f s1' [id] [] []) as [_ [E2' _]].
  simpl in C1, C3.
  destruct (compile_loop f s1 [id] [] []) as [[[s2 r2] cp] o],
           (compile_loop f s1' [id] [] []) as [[[s2' r2'] cp'] o']. simpl in *. subst.
  destruct r2'; [|reflexivity]. simpl.
  change (@nil Z) with (map (Z.add (const_ctr s' - const_ctr s)) []) at 2.
  rewrite (canon_frags_shift _ o []).
  assert (exts s2 = exts s2') as -> by congruence. reflexivity.
Qed.

Lemma grows_agree s t : closed s -> grows s t -> agree s t.
Proof.
  intros [C1 C2] (ex & nx & Hs & _ & _ & Hn). split.
  - intros id HP. destruct (C1 id HP) as [d [Hl _]]. rewrite Hs, Hl. symmetry. apply lookup_app_found, Hl.
  - intros x Hx. destruct (C2 x Hx) as [i Hi]. rewrite Hn, Hi. symmetry. apply lookup_app_found, Hi.
Qed.

End Cone.

Lemma reset_idem s : reset (reset s) = reset s. Proof. reflexivity. Qed.

(** a checked CFG that no lowering has touched *)
Definition fresh_cfg (p : Z * Checked) : Prop :=
  c_exit (snd p) = init_exit (c_def (snd p)) /\ c_input_tys (snd p) = 0.
Lemma get_parsed_checked s id : checked (fst (get_parsed s id)) = checked s.
Proof.
  unfold get_parsed. destruct (memz id (parsed s)); [reflexivity|].
  destruct (lookup (store s) id); reflexivity.
Qed.
Lemma visit_deps_checked deps : forall s, checked (fst (visit_deps s deps)) = checked s.
Proof.
  intros s. apply (visit_deps_inv (fun t => checked t = checked s)); [|reflexivity].
  intros t id H. rewrite get_parsed_checked. exact H.
Qed.
Lemma get_checked_fresh s id : Forall fresh_cfg (checked s) ->
  Forall fresh_cfg (checked (fst (get_checked s id))).
Proof.
  intros H. unfold get_checked. destruct (existsb _ _); [exact H|].
  pose proof (get_parsed_checked s id) as A. destruct (get_parsed s id) as [s1 [d|]]; simpl in *;
    [|rewrite A; exact H].
  pose proof (visit_deps_checked (d_deps d) s1) as B.
  destruct (visit_deps s1 (d_deps d)) as [s2 [b|]]; simpl in *; [rewrite B, A; exact H|].
  destruct (d_check_ok d); simpl; rewrite B, A; auto.
  constructor; auto. split; reflexivity.
Qed.

