(** What the verdict [Accept] gives (the per-block scopes, the liveness fixpoint equation, the per-block
    checks); soundness over [TokenG], from kinds alone; a [Token] run read as a [TokenG] run when kinds are
    uniform. *)
From Coq Require Import List Bool Arith Lia.
From V.C09 Require Import Analysis SetLemmas Generic Spec ProofsLive ProofsTop.
From V.C06 Require Import Linearity Token TokenG ProofsBlock ProofsBlockG.
Import ListNotations.

(* a fixpoint of the transfer function: the invariant of the C09 work-list run says so of a block that is not
   queued, and at the end none is *)
Lemma live_eq : forall g I sched b x, wf_cfg g = true -> b < nblocks g ->
  (In x (getv (liveness Repaired false g I sched) b) <->
   In x (b_use (blk g b)) \/
   (~ In x (b_def (blk g b)) /\
    exists c, In c (b_succ (blk g b)) /\ In x (getv (liveness Repaired false g I sched) c))).
Proof.
  intros g I sched b x W Hb. destruct (live_run_terminates false g I W sched) as [_ R].
  pose proof (ai_fix _ _ _ _ _ _ _ _ _ _ (live_terminal false g I W _ R) b Hb (fun H => H) x) as E.
  rewrite <- transfer_F in E. unfold alpha, live_transfer, live_join, flow_succ in E. rewrite app_nil_r in E.
  fold (liveness Repaired false g I sched) in E. split; intros H.
  - apply memb_In in H. rewrite E in H. apply memb_In, in_app_or in H. destruct H as [H | H]; [left; exact H | right].
    apply filter_In in H. destruct H as [Hs Hd]. split; [apply memb_false, negb_true_iff, Hd | apply in_flat_map, Hs].
  - apply memb_In. rewrite E. apply memb_In, in_or_app. destruct H as [H | [Hd Hs]]; [left; exact H | right].
    apply filter_In. split; [apply in_flat_map, Hs | apply negb_true_iff, memb_false, Hd].
Qed.

Lemma use_all_fields : forall ls s s', s_vars s = [] -> use_all s ls = Some s' ->
  s_vars s' = [] /\ (forall x, In x (s_up s') <-> In x (map l_id ls) \/ In x (s_up s)) /\
  (forall l, In l ls -> has_leaf (l_id l) (s_pvars s) = true).
Proof.
  induction ls as [|l r IH]; intros s s' Hv H; simpl in H.
  - inversion H; subst. split; auto. split; [intros x; simpl; tauto | intros l []].
  - destruct (use_leaf s (l_id l)) as [s1|] eqn:E; [|discriminate].
    unfold use_leaf in E. rewrite Hv in E. simpl in E.
    destruct (s_entry s); [discriminate|]. destruct (has_leaf (l_id l) (s_pvars s)) eqn:Hp; [|discriminate].
    inversion E; subst s1. clear E.
    apply IH in H; [|reflexivity]. destruct H as [A [B C]]. split; auto. split.
    + intros x. rewrite B. simpl. tauto.
    + intros l' [<- | Hl']; [exact Hp | exact (C l' Hl')].
Qed.

Lemma stats_blk : forall c ss b, length ss = length (c_blocks c) -> b < length (c_blocks c) ->
  blk (stats_cfg c ss) b =
  mkBlock (lb_succ (nth_block c b)) [] (s_up (nth_scope ss b)) (map l_id (s_vars (nth_scope ss b))).
Proof.
  intros c ss b Hl Hb. unfold blk, stats_cfg, nth_block, nth_scope.
  set (f := fun bs : lblock * scope => mkBlock (lb_succ (fst bs)) [] (s_up (snd bs)) (map l_id (s_vars (snd bs)))).
  rewrite (nth_indep _ empty_block (f (mkLB [] [] [], dummy_scope))).
  - rewrite map_nth. rewrite combine_nth by auto. reflexivity.
  - rewrite map_length, combine_length. lia.
Qed.

Lemma stats_nblocks : forall c ss, length ss = length (c_blocks c) -> nblocks (stats_cfg c ss) = length (c_blocks c).
Proof. intros. unfold nblocks, stats_cfg. rewrite map_length, combine_length. lia. Qed.

Lemma nth_blk : forall c b, b < length (c_blocks c) -> nth_error (c_blocks c) b = Some (nth_block c b).
Proof. intros c b Hb. unfold nth_block. apply nth_error_nth'. exact Hb. Qed.

Lemma len1 : forall c ss0 ss, check_blocks (c_inputs c) (c_entry c) 0 (c_blocks c) = inl ss0 ->
  exit_used c ss0 = Some ss -> length ss = length (c_blocks c).
Proof.
  intros c ss0 ss H1 H2. unfold exit_used in H2. destruct (use_all _ _); [|discriminate]. inversion H2.
  rewrite setv_length. apply (check_blocks_spec _ _ _ _ _ H1).
Qed.

Lemma exit_scope0 : forall c ss0, wf_shape c -> check_blocks (c_inputs c) (c_entry c) 0 (c_blocks c) = inl ss0 ->
  c_exit c < length (c_blocks c) ->
  nth_scope ss0 (c_exit c) = init_scope false (lb_in (nth_block c (c_exit c))).
Proof.
  intros c ss0 [We [_ [Wn _]]] H1 H4. destruct (check_blocks_spec _ _ _ _ _ H1) as [_ B].
  specialize (B _ _ (nth_blk c _ H4)). unfold check_block in B. cbn [Nat.add] in B.
  rewrite We, (proj2 (Nat.eqb_neq _ _) (not_eq_sym Wn)) in B. injection B as B. symmetry. exact B.
Qed.

(* the exit block after the implicit RETURN use of the borrowed leaves *)
Lemma exit_fields : forall c ss0 ss, wf_shape c -> check_blocks (c_inputs c) (c_entry c) 0 (c_blocks c) = inl ss0 ->
  exit_used c ss0 = Some ss -> c_exit c < length (c_blocks c) ->
  s_vars (nth_scope ss (c_exit c)) = [] /\
  (forall x, In x (s_up (nth_scope ss (c_exit c))) <-> In x (borrowed_ids c)) /\
  (forall l, In l (borrowed_leaves (c_inputs c)) ->
     has_leaf (l_id l) (s_pvars (init_scope false (lb_in (nth_block c (c_exit c))))) = true).
Proof.
  intros c ss0 ss HW H1 H2 H4. unfold exit_used in H2. rewrite (exit_scope0 c ss0 HW H1 H4) in H2.
  destruct (use_all _ _) as [sx|] eqn:U; [|discriminate]. inversion H2. subst ss.
  unfold nth_scope. rewrite nth_setv by (rewrite (proj1 (check_blocks_spec _ _ _ _ _ H1)); exact H4).
  rewrite Nat.eqb_refl. apply use_all_fields in U; [|reflexivity]. destruct U as [A [B C]].
  split; [exact A|]. split; [|exact C]. intros x. rewrite B. simpl. unfold borrowed_ids. tauto.
Qed.

Lemma succ_not_exit : forall c, wf_shape c -> forall b n, In n (lb_succ (nth_block c b)) -> b <> c_exit c.
Proof. intros c [_ [Ws _]] b n Hn E. subst b. rewrite Ws in Hn. destruct Hn. Qed.

Lemma succ_not_entry : forall c, wf_shape c -> forall b n, In n (lb_succ (nth_block c b)) -> n <> c_entry c.
Proof. intros c [_ [_ [_ W]]] b n Hn E. subst n. apply (W b). exact Hn. Qed.

Definition phase1 (c : lcfg) (ss0 ss : list scope) : Prop :=
  check_blocks (c_inputs c) (c_entry c) 0 (c_blocks c) = inl ss0 /\ exit_used c ss0 = Some ss /\
  wf_cfg (stats_cfg c ss) = true /\ c_exit c < length (c_blocks c).

Lemma accept_phase1 : forall fx c sched, check_cfg fx c sched = Accept ->
  exists ss0 ss, phase1 c ss0 ss /\ c_entry c < length (c_blocks c) /\
    check_dataflow fx c ss (live_of c ss sched) 0 (c_blocks c) = Accept.
Proof.
  intros fx c sched H. unfold check_cfg in H.
  destruct (check_blocks (c_inputs c) (c_entry c) 0 (c_blocks c)) as [ss0 | [b e]] eqn:E1; [|discriminate].
  destruct (exit_used c ss0) as [ss|] eqn:E2; [|discriminate].
  destruct (wf_cfg (stats_cfg c ss) && (c_exit c <? length (c_blocks c)) && (c_entry c <? length (c_blocks c))) eqn:E3; [|discriminate].
  apply andb_true_iff in E3. destruct E3 as [E3 E5]. apply andb_true_iff in E3. destruct E3 as [E3 E4].
  apply Nat.ltb_lt in E4. apply Nat.ltb_lt in E5.
  exists ss0, ss. repeat split; auto.
Qed.

Section Phase1.
Context {c : lcfg} (sched : list nat) {ss0 ss : list scope} (A : phase1 c ss0 ss).
Let H1 := proj1 A.
Let H2 := proj1 (proj2 A).
Let H3 := proj1 (proj2 (proj2 A)).
Let H4 := proj2 (proj2 (proj2 A)).

Notation fin := (c_inputs c).
Notation N := (length (c_blocks c)).
Notation L := (live_of c ss sched).
Notation evs b := (lb_events (nth_block c b)).
Notation succs b := (lb_succ (nth_block c b)).
Notation init b := (init_scope (Nat.eqb b (c_entry c)) (lb_in (nth_block c b))).

Definition ph_exit_lt : c_exit c < N := H4.
Definition ph_len : length ss = N := len1 c ss0 ss H1 H2.
Definition ph_exit_up (HW : wf_shape c) := proj1 (proj2 (exit_fields c ss0 ss HW H1 H2 H4)).
Definition ph_exit_row (HW : wf_shape c) := proj2 (proj2 (exit_fields c ss0 ss HW H1 H2 H4)).

Lemma ph_ss : forall b, b <> c_exit c -> nth_scope ss b = nth_scope ss0 b.
Proof.
  intros b Hb. pose proof H2 as E. unfold exit_used in E. destruct (use_all _ _); [|discriminate]. inversion E.
  unfold nth_scope. rewrite nth_setv by (rewrite (proj1 (check_blocks_spec _ _ _ _ _ H1)); exact H4).
  apply Nat.eqb_neq in Hb. rewrite Hb. reflexivity.
Qed.

Lemma ph_run : forall b, b < N -> b <> c_exit c -> run_events fin (init b) (evs b) = Ok (nth_scope ss b).
Proof.
  intros b Hb Hex. rewrite (ph_ss b Hex). destruct (check_blocks_spec _ _ _ _ _ H1) as [_ B].
  specialize (B b _ (nth_blk c b Hb)). simpl in B. exact B.
Qed.

Lemma ph_reads : forall b, b < N -> b <> c_exit c -> reads_in (nth_scope ss b).
Proof. intros b Hb Hex. exact (run_events_reads_in _ _ _ _ (ph_run b Hb Hex) (init_reads_in _ _)). Qed.

Lemma ph_scope : forall b, b < N -> b <> c_exit c ->
  s_entry (nth_scope ss b) = Nat.eqb b (c_entry c) /\ s_pvars (nth_scope ss b) = s_pvars (init b).
Proof.
  intros b Hb Hex. destruct (run_events_ext _ _ _ _ (ph_run b Hb Hex)) as [_ [_ [_ [Ee Ep]]]].
  rewrite Ee, (proj1 (init_scope_fields _ _)). auto.
Qed.

Lemma ph_scopeK : forall K, uniform K c -> forall b, b < N -> b <> c_exit c -> scopeK K (nth_scope ss b).
Proof.
  intros K HK b Hb Hex. destruct (blockK K c HK b) as [KI KE].
  exact (run_events_P _ _ _ _ _ (ph_run b Hb Hex) KE (init_scope_P _ _ _ KI)).
Qed.

Lemma ph_succ_lt : forall b n, b < N -> In n (succs b) -> n < N.
Proof.
  intros b n Hb Hn. rewrite <- (stats_nblocks c ss ph_len).
  apply (wf_succ_lt false (stats_cfg c ss) b n H3).
  - rewrite (stats_nblocks c ss ph_len). exact Hb.
  - unfold flow_succ. rewrite (stats_blk c ss b ph_len Hb). simpl. rewrite app_nil_r. exact Hn.
Qed.

Lemma ph_live_eq : forall b x, b < N ->
  (In x (getv L b) <->
   In x (s_up (nth_scope ss b)) \/
   (~ In x (map l_id (s_vars (nth_scope ss b))) /\ exists n, In n (succs b) /\ In x (getv L n))).
Proof.
  intros b x Hb. unfold live_of.
  rewrite (live_eq (stats_cfg c ss) (live_default c) sched b x H3) by (rewrite (stats_nblocks c ss ph_len); exact Hb).
  rewrite (stats_blk c ss b ph_len Hb). simpl. reflexivity.
Qed.

Lemma ph_live_through : forall b n x, b < N -> In n (succs b) -> In x (getv L n) ->
  find_leaf x (s_vars (nth_scope ss b)) = None -> In x (getv L b).
Proof.
  intros b n x Hb Hn Hx Hv. apply (ph_live_eq b x Hb). right. split; [|eauto].
  intros Hd. apply in_map_iff in Hd. destruct Hd as [l [E Hl]].
  assert (H : has_leaf x (s_vars (nth_scope ss b)) = true) by (apply has_leaf_true; eauto).
  unfold has_leaf in H. rewrite Hv in H. discriminate.
Qed.

(* with a reachable exit the initial set is empty: liveness is the least fixpoint *)
Lemma ph_live_path : c_exit_reachable c = true -> forall b x, b < N -> In x (getv L b) ->
  live_on_path false (stats_cfg c ss) x b.
Proof.
  intros HER b x Hb Hx. unfold live_of in Hx.
  destruct (liveness_correct_lemma false (stats_cfg c ss) (live_default c) H3 sched b x) as [P _].
  - rewrite (stats_nblocks c ss ph_len). exact Hb.
  - apply P; auto. unfold live_default. rewrite HER. intros [].
Qed.

Lemma ph_not_live : forall b x, b < N -> ~ In x (getv L b) ->
  ~ In x (s_up (nth_scope ss b)) /\
  (has_leaf x (s_vars (nth_scope ss b)) = true \/ forall n, In n (succs b) -> ~ In x (getv L n)).
Proof.
  intros b x Hb Hn. split.
  - intros H. apply Hn. apply (ph_live_eq b x Hb). auto.
  - unfold has_leaf. destruct (find_leaf x (s_vars (nth_scope ss b))) eqn:Hv; auto. right.
    intros n Hin Hx. exact (Hn (ph_live_through b n x Hb Hin Hx Hv)).
Qed.

Lemma ph_unused_linear : forall fx, check_dataflow fx c ss L 0 (c_blocks c) = Accept ->
  forall b x l n, b < N -> In n (succs b) ->
  lookup (nth_scope ss b) x = Some l -> is_linear (l_kind l) = true -> used (nth_scope ss b) x = Some false ->
  (find_leaf x (s_vars (nth_scope ss b)) = None -> In x (getv L b)) -> In x (getv L n).
Proof.
  intros fx H6 b x l n Hb Hn El Hlin Hu Hlb.
  destruct (in_dec Nat.eq_dec x (getv L n)) as [Hin | Hnin]; [exact Hin|]. exfalso.
  destruct (check_dataflow_spec _ _ _ _ _ _ H6 b _ (nth_blk c b Hb)) as [_ [C2 _]]. simpl in C2.
  assert (H : In x (check2 fx (nth_scope ss b) L b (succs b))); [|rewrite C2 in H; destruct H].
  apply check2_In. exists l.
  destruct (lookup_cases _ _ _ El) as [[Hv _] | [Hv [_ [Hp _]]]].
  - destruct (find_leaf_some _ _ _ Hv) as [Hl Hid]. split; [exact Hid|]. split; [apply scope_entries_vars; exact Hl|].
    split; [unfold has_leaf; rewrite Hv; apply orb_true_r | eauto].
  - destruct (find_leaf_some _ _ _ Hp) as [Hl Hid]. split; [exact Hid|]. split.
    + apply scope_entries_pvars; auto. rewrite Hid. unfold has_leaf. rewrite Hv. reflexivity.
    + split; [rewrite (proj2 (memb_In x (getv L b)) (Hlb Hv)); reflexivity | eauto].
Qed.

Lemma succ_rows_agree : forall K fx, uniform K c -> wf_shape c -> check_dataflow fx c ss L 0 (c_blocks c) = Accept ->
  forall b n m x, b < N -> In n (succs b) -> In m (succs b) -> K x = KLinear -> In x (getv L n) -> In x (getv L m).
Proof.
  intros K fx HK HW H6 b n m x Hb Hn Hm Kl Hx.
  destruct (check_dataflow_spec _ _ _ _ _ _ H6 b _ (nth_blk c b Hb)) as [C1 _]. simpl in C1.
  destruct (check1_nil _ _ _ C1 n x Hn Hx) as [l [El Hcopy]].
  assert (Hk : l_kind l = KLinear)
    by (rewrite <- Kl; exact (lookup_K K _ _ _ (ph_scopeK K HK b Hb (succ_not_exit c HW b n Hn)) El)).
  apply (ph_unused_linear fx H6 b x l m Hb Hm El); [rewrite Hk; reflexivity | |].
  - destruct (lookup_cases _ _ _ El) as [[_ [Hu _]] | [_ [_ [_ [Hu _]]]]]; rewrite Hu in *;
      match goal with |- Some ?u = _ => destruct u end; auto; rewrite Hk in Hcopy; discriminate (Hcopy eq_refl).
  - intros Hv. exact (ph_live_through b n x Hb Hn Hx Hv).
Qed.

End Phase1.

Section Sound.
Variable fx : bool.
Variable c : lcfg.
Variable sched : list nat.
Variables ss0 ss : list scope.
Hypothesis HW : wf_shape c.
Hypothesis H1 : check_blocks (c_inputs c) (c_entry c) 0 (c_blocks c) = inl ss0.
Hypothesis H2 : exit_used c ss0 = Some ss.
Hypothesis H4 : c_exit c < length (c_blocks c).
Hypothesis H6 : check_dataflow fx c ss (live_of c ss sched) 0 (c_blocks c) = Accept.

Notation N := (length (c_blocks c)).
Notation L := (live_of c ss sched).
Notation succs b := (lb_succ (nth_block c b)).

Lemma dataflow : forall b, b < N ->
  check1 (nth_scope ss b) L (succs b) = Some [] /\
  check2 fx (nth_scope ss b) L b (succs b) = [] /\
  row_ok c (nth_scope ss b) L b = true.
Proof. intros b Hb. apply (check_dataflow_spec _ _ _ _ _ _ H6 b _ (nth_blk c b Hb)). Qed.

Lemma exit_vars : s_vars (nth_scope ss (c_exit c)) = [].
Proof. exact (proj1 (exit_fields c ss0 ss HW H1 H2 H4)). Qed.

End Sound.

Definition kinded (c : lcfg) : Prop :=
  forall b, b < length (c_blocks c) -> kinded_run (c_inputs c) (block_init c b) (lb_events (nth_block c b)).
Definition exit_row_kinded (c : lcfg) : Prop :=
  forall l l', In l (borrowed_leaves (c_inputs c)) ->
    find_leaf (l_id l) (row_leaves c (c_exit c)) = Some l' -> l_kind l' = l_kind l.

Lemma typed_kinded_cfg : forall c, typed c -> kinded c.
Proof. intros c HT b Hb. exact (typed_kinded _ _ _ (HT b Hb)). Qed.

Lemma typed_exit_row_kinded : forall c, exit_row_ok c -> exit_row_kinded c.
Proof. intros c HX l l' Hl Hf. destruct (HX l Hl) as [l1 [Hf1 Hk]]. congruence. Qed.

Section SoundG.
Variable fx : bool.
Variable c : lcfg.
Variable sched : list nat.
Variables ss0 ss : list scope.
Hypothesis HW : wf_shape c.
Hypothesis HKd : kinded c.
Hypothesis HXk : exit_row_kinded c.
Hypothesis P1 : phase1 c ss0 ss.
Hypothesis H6 : check_dataflow fx c ss (live_of c ss sched) 0 (c_blocks c) = Accept.

Notation fin := (c_inputs c).
Notation N := (length (c_blocks c)).
Notation L := (live_of c ss sched).
Notation evs b := (lb_events (nth_block c b)).
Notation succs b := (lb_succ (nth_block c b)).

(* the kinds of [edges_ok], for the places live in the successor *)
Hypothesis HE : forall b n x l l0, b < N -> In n (succs b) -> In x (getv L n) ->
  find_leaf x (row_leaves c n) = Some l -> lookup (nth_scope ss b) x = Some l0 -> l_kind l0 = l_kind l.

(* the invariant at the boundary of block [b]: a place of its row that is live holds a value of the row's kind
   (nothing, if that kind is copyable), and a linear token sits only in a live place; [GJb]: no tokens at all
   when the entry block is entered *)
Definition GJ (b : nat) (t : gstate) : Prop :=
  (forall x l, find_leaf x (row_leaves c b) = Some l -> In x (getv L b) -> t x = l_kind l) /\
  (forall x, t x = KLinear -> In x (getv L b)).
Definition GJb (b : nat) (t : gstate) : Prop :=
  if Nat.eqb b (c_entry c) then (forall x, t x = KCopy) else GJ b t.

Lemma gblock_step : forall b t, b < N -> GJb b t ->
  exists t', gsem_events fin (gblock_start c b t) (evs b) = GFine t' /\
    forall n, In n (succs b) -> n < N /\ GJb n t'.
Proof.
  intros b t Hb HJ.
  destruct (Nat.eq_dec b (c_exit c)) as [Hex | Hex].
  { subst b. destruct HW as [We [Ws _]]. rewrite We, Ws. simpl. eexists. split; [reflexivity|]. intros n []. }
  pose proof (ph_run P1 b Hb Hex) as Hrun.
  destruct (ph_scope P1 b Hb Hex) as [Hent Hpv]. destruct (ph_reads P1 b Hb Hex) as [Iup _].
  set (sf := nth_scope ss b) in *.
  assert (Hcase : if s_entry sf then (forall x, t x = KCopy) /\ s_pvars sf = []
                  else GJ b t /\ s_pvars sf = row_leaves c b).
  { unfold GJb in HJ. rewrite Hpv, Hent. destruct (Nat.eqb b (c_entry c)); auto. }
  assert (Hup : forall x, In x (s_pul sf) -> In x (getv L b)).
  { intros x Hx. apply (ph_live_eq sched P1 b x Hb). left. fold sf. rewrite Iup. exact Hx. }
  assert (HF : fits t sf).
  { destruct (s_entry sf).
    - destruct Hcase as [E Ep]. split; [rewrite Ep; discriminate | intros x Tx; rewrite E in Tx; discriminate].
    - destruct Hcase as [[J1 J2] Er]. split.
      + intros x l0 Hx Hf. rewrite Er in Hf. rewrite (J1 x l0 Hf (Hup x Hx)). reflexivity.
      + intros x Tx Hv. pose proof (J2 x Tx) as Hl. apply (ph_live_eq sched P1 b x Hb) in Hl. fold sf in Hl.
        destruct Hl as [Hl | [Hl _]]; [rewrite <- Iup; exact Hl|]. exfalso. apply Hl.
        apply has_leaf_true in Hv. destruct Hv as [l [A B]]. apply in_map_iff. exists l. auto. }
  (* the checker went on and the state fits: the semantics goes on *)
  pose proof (run_events_table fin (evs b) t _ (gblock_start c b t) (HKd b Hb) (init_tracks _ _ t)) as T.
  unfold block_init in T. rewrite Hrun in T.
  destruct (gsem_events fin (gblock_start c b t) (evs b)) as [t'|]; [|destruct (T HF)].
  destruct T as [HR _].
  exists t'. split; [reflexivity|]. intros n Hn.
  split; [exact (ph_succ_lt P1 b n Hb Hn)|].
  unfold GJb. rewrite (proj2 (Nat.eqb_neq _ _) (succ_not_entry c HW b n Hn)).
  destruct (dataflow fx c sched ss H6 b Hb) as [C1 [_ C3]]. fold sf in C1, C3. split.
  - intros x l Hf Hx. destruct (check1_nil _ _ _ C1 n x Hn Hx) as [l0 [Hlk Hcopy]].
    rewrite <- (HE b n x l l0 Hb Hn Hx Hf Hlk).
    destruct (tracks_bound _ _ _ _ _ HR Hlk) as [u [Hu E]]. rewrite E.
    replace (u && negb (is_copy (l_kind l0))) with false by (destruct u; [rewrite (Hcopy Hu)|]; reflexivity).
    destruct (lookup_cases _ _ _ Hlk) as [[Hv _] | [Hv [He [Hp _]]]]; rewrite Hv; [reflexivity|].
    rewrite He in Hcase. destruct Hcase as [[J1 _] Er]. rewrite Er in Hp. apply (J1 x l0 Hp).
    exact (ph_live_through sched P1 b n x Hb Hn Hx Hv).
  - (* a linear token: its place is bound, linear and not marked, so the second loop saw it *)
    intros x Tx. pose proof (HR x) as HRx.
    destruct (find_leaf x (s_vars sf)) as [lv|] eqn:Hv.
    + destruct (memb x (s_ul sf)) eqn:Hm; rewrite HRx in Tx; [discriminate|].
      destruct (lookup_vars _ _ _ Hv) as [Hlk Hu]. rewrite Hm in Hu.
      apply (ph_unused_linear sched fx H6 b x lv n Hb Hn Hlk); auto.
      * rewrite Tx. reflexivity.
      * fold sf. rewrite Hv. discriminate.
    + rewrite (tracks_unbound _ _ _ x HR HF Hv) in Tx. destruct (memb x (s_pul sf)) eqn:Hm; [discriminate|].
      destruct (s_entry sf) eqn:He; [destruct Hcase as [E _]; rewrite E in Tx; discriminate|].
      destruct Hcase as [[J1 J2] Er]. pose proof (J2 x Tx) as Hlb.
      assert (Hp : has_leaf x (s_pvars sf) = true).
      { unfold row_ok in C3. rewrite <- Hent, (proj2 (Nat.eqb_neq _ _) Hex) in C3. simpl in C3.
        rewrite forallb_forall in C3. exact (C3 x Hlb). }
      destruct (has_leaf_find _ _ Hp) as [l Hf].
      destruct (lookup_pvars _ _ _ Hv He Hf) as [Hlk Hu]. rewrite Hm in Hu. rewrite Er in Hf.
      apply (ph_unused_linear sched fx H6 b x l n Hb Hn Hlk); auto.
      rewrite <- (J1 x l Hf Hlb), Tx. reflexivity.
Qed.

Lemma GJb_entry : GJb (c_entry c) g_empty.
Proof. unfold GJb. rewrite Nat.eqb_refl. reflexivity. Qed.

Lemma gpath : forall rest b t k, b < N -> GJb b t -> is_walk c b rest ->
  exists t', grun_path c t b rest k = GFine t' /\ (last rest b = c_exit c -> gfinal_ok c t').
Proof.
  induction rest as [|n r IH]; intros b t k Hb HJ Hw; cbn [grun_path]; destruct (gblock_step b t Hb HJ) as [t1 [A B]].
  - destruct (gsem_events_prefix fin _ k _ _ A) as [t' E]. exists t'. split; [exact E|]. intros Hlast. simpl in Hlast.
    subst b. destruct HW as [We [Ws [Wn _]]]. rewrite We, firstn_nil in E. simpl in E.
    unfold gblock_start in E. assert (Nat.eqb (c_exit c) (c_entry c) = false) by (apply Nat.eqb_neq; auto).
    rewrite H in E. inversion E; subst t'. unfold GJb in HJ. rewrite H in HJ.
    destruct HJ as [J1 J2]. split.
    + intros l Hl _. destruct (has_leaf_find _ _ (ph_exit_row P1 HW l Hl)) as [l' Hf].
      rewrite <- (HXk l l' Hl Hf). apply (J1 _ l' Hf).
      apply (ph_live_eq sched P1 _ _ (ph_exit_lt P1)). left. apply (ph_exit_up P1 HW).
      unfold borrowed_ids. apply in_map. exact Hl.
    + intros x Tx. pose proof (J2 x Tx) as Hl. apply (ph_live_eq sched P1 _ x (ph_exit_lt P1)) in Hl.
      destruct Hl as [Hl | [_ [m [Hm _]]]]; [apply (ph_exit_up P1 HW); exact Hl|].
      rewrite Ws in Hm. destruct Hm.
  - rewrite A, last_cons_default. destruct Hw as [Hn Hw]. destruct (B n Hn) as [Hn' HJ']. exact (IH n t1 k Hn' HJ' Hw).
Qed.

Theorem sound_live_edges : c_entry c < N ->
  (forall rest k, is_walk c (c_entry c) rest ->
     exists t, grun_path c g_empty (c_entry c) rest k = GFine t) /\
  (forall rest k t, is_walk c (c_entry c) rest -> last rest (c_entry c) = c_exit c ->
     grun_path c g_empty (c_entry c) rest k = GFine t -> gfinal_ok c t).
Proof.
  intros H5. split.
  - intros rest k Hw. destruct (gpath rest _ g_empty k H5 GJb_entry Hw) as [t [A _]]. eauto.
  - intros rest k t Hw Hl Hr. destruct (gpath rest _ g_empty k H5 GJb_entry Hw) as [t' [A F]].
    rewrite A in Hr. inversion Hr; subst t'. exact (F Hl).
Qed.

End SoundG.

Section Uniform.
Variable K : nat -> kind.

(* [t] is [g] with the kinds forgotten, and what [g] holds in [x] is of kind [K x] *)
Definition sameK (t : tstate) (g : gstate) : Prop :=
  forall x, (g x = KCopy \/ g x = K x) /\ t x = negb (is_copy (g x)).
Definition same_out (o : outcome) (go : goutcome) : Prop :=
  match o, go with
  | Fine t, GFine g => sameK t g
  | Bad v, GBad w => v = w
  | _, _ => False
  end.

Lemma sameK_empty : sameK empty_tokens g_empty.
Proof. intros x. split; [left|]; reflexivity. Qed.

Lemma sameK_set : forall t g x k t', sameK t g -> k = KCopy \/ k = K x ->
  (forall y, t' y = if Nat.eqb y x then negb (is_copy k) else t y) -> sameK t' (gupd g x k).
Proof.
  intros t g x k t' H Hk Ht y. rewrite Ht. unfold gupd. destruct (Nat.eqb y x) eqn:E; [|apply H].
  apply Nat.eqb_eq in E. subst y. auto.
Qed.

Lemma sameK_bind : forall t g l, sameK t g -> l_kind l = K (l_id l) ->
  sameK (if is_copy (l_kind l) then t else upd t (l_id l) true) (gupd g (l_id l) (l_kind l)).
Proof.
  intros t g l H Hl. apply (sameK_set t g); auto. intros y. destruct (is_copy (l_kind l)) eqn:Hc; [|reflexivity].
  destruct (Nat.eqb y (l_id l)) eqn:E; auto. apply Nat.eqb_eq in E. subst y.
  destruct (H (l_id l)) as [Eg T]. rewrite T. rewrite <- Hl, (copy_kind _ Hc) in Eg. destruct Eg as [-> | ->]; reflexivity.
Qed.

Lemma sem_use_same : forall ls t g, sameK t g -> same_out (sem_use t ls) (gsem_use g ls).
Proof.
  induction ls as [|l r IH]; intros t g H; simpl; [exact H|].
  destruct (is_copy (l_kind l)); [apply IH; auto|].
  rewrite (proj2 (H (l_id l))). destruct (is_copy (g (l_id l))); simpl; [reflexivity|].
  apply IH. apply (sameK_set t g); auto.
Qed.

Lemma sem_assign_same : forall ls t g, leavesK K ls -> sameK t g -> same_out (sem_assign t ls) (gsem_assign g ls).
Proof.
  induction ls as [|l r IH]; intros t g HK H; simpl; [exact H|].
  assert (Hl : l_kind l = K (l_id l)) by (apply HK; simpl; auto).
  assert (HK' : leavesK K r) by (intros l' Hl'; apply HK; simpl; auto).
  assert (Hlin : t (l_id l) && is_linear (l_kind l) = is_linear (g (l_id l))).
  { rewrite Hl. destruct (H (l_id l)) as [[E | E] T]; rewrite T, E; destruct (K (l_id l)); reflexivity. }
  pose proof (sameK_bind t g l H Hl) as H'.
  destruct (is_copy (l_kind l)) eqn:Hc.
  - rewrite (copy_kind _ Hc), andb_false_r in Hlin. rewrite <- Hlin. apply IH; auto.
  - rewrite Hlin. destruct (is_linear (g (l_id l))); [reflexivity | apply IH; auto].
Qed.

Lemma sem_fill_same : forall ls t g, leavesK K ls -> sameK t g -> sameK (sem_fill t ls) (gsem_fill g ls).
Proof.
  induction ls as [|l r IH]; intros t g HK H; simpl; [exact H|].
  apply IH; [intros l' Hl'; apply HK; simpl; auto|]. apply sameK_bind; auto. apply HK. simpl. auto.
Qed.

Lemma sem_events_same : forall fin es t g, eventsK K es -> sameK t g ->
  same_out (sem_events fin t es) (gsem_events fin g es).
Proof.
  intros fin. induction es as [|e r IH]; intros t g HK H; simpl; [exact H|].
  assert (S : same_out (sem_event fin t e) (gsem_event fin g e)).
  { pose proof (HK e (or_introl eq_refl)) as Ke. destruct e as [p k | p | p | p | e]; simpl in *.
    - destruct (p_inout p && negb (is_borrow k)); [reflexivity | apply sem_use_same; auto].
    - apply sem_assign_same; auto.
    - destruct (input_is_borrowed fin (p_id p)); [reflexivity | exact H].
    - apply sem_fill_same; auto.
    - reflexivity. }
  destruct (sem_event fin t e), (gsem_event fin g e); simpl in S; try contradiction; [|exact S].
  apply IH; auto. intros e' He'. apply HK. simpl. auto.
Qed.

Variable c : lcfg.
Hypothesis HK : uniform K c.

Lemma run_path_same : forall rest b t g k, sameK t g ->
  same_out (run_path c t b rest k) (grun_path c g b rest k).
Proof.
  induction rest as [|n r IH]; intros b t g k H; simpl; destruct (blockK K c HK b) as [KI KE].
  - apply sem_events_same.
    + intros e He. apply KE. rewrite <- (firstn_skipn k). apply in_or_app. auto.
    + unfold block_start, gblock_start. destruct (Nat.eqb b (c_entry c)); [apply sem_fill_same|]; auto.
  - assert (S : same_out (sem_events (c_inputs c) (block_start c b t) (lb_events (nth_block c b)))
                         (gsem_events (c_inputs c) (gblock_start c b g) (lb_events (nth_block c b)))).
    { apply sem_events_same; auto.
      unfold block_start, gblock_start. destruct (Nat.eqb b (c_entry c)); [apply sem_fill_same|]; auto. }
    destruct (sem_events _ _ _), (gsem_events _ _ _); simpl in S; try contradiction; [apply IH; exact S | exact S].
Qed.

Lemma final_same : forall t g, sameK t g -> gfinal_ok c g -> final_ok K c t.
Proof.
  intros t g H [G1 G2] x Kx. destruct (H x) as [Eg T]. split.
  - intros Hx. unfold borrowed_ids in Hx. apply in_map_iff in Hx. destruct Hx as [l [Hid Hl]]. subst x.
    assert (Hk : l_kind l = K (l_id l)) by (apply HK; unfold all_leaves; apply in_or_app; auto).
    assert (Hc : is_copy (l_kind l) = false) by (rewrite Hk; destruct (K (l_id l)); simpl; congruence).
    rewrite T, (G1 l Hl Hc), Hc. reflexivity.
  - intros Tx Kl. apply G2. rewrite T in Tx. destruct Eg as [E | E]; [rewrite E in Tx; discriminate | congruence].
Qed.

Lemma rowK : forall n x l, find_leaf x (row_leaves c n) = Some l -> l_kind l = K x.
Proof.
  intros n x l Hf. destruct (find_leaf_some _ _ _ Hf) as [Hin <-].
  exact (proj2 (init_scope_P _ false _ (proj1 (blockK K c HK n))) l Hin).
Qed.

Lemma uniform_kinded : kinded c.
Proof.
  intros b Hb. destruct (blockK K c HK b) as [KI KE]. exact (scopeK_kinded _ K _ _ (init_scope_P _ _ _ KI) KE).
Qed.

Lemma uniform_exit_row_kinded : exit_row_kinded c.
Proof.
  intros l l' Hl Hf. rewrite (rowK _ _ _ Hf). symmetry. apply HK. unfold all_leaves. apply in_or_app. auto.
Qed.

Lemma uniform_edge_kinds : forall ss0 ss, phase1 c ss0 ss -> forall b n x l l0, b < length (c_blocks c) ->
  b <> c_exit c -> find_leaf x (row_leaves c n) = Some l -> lookup (nth_scope ss b) x = Some l0 -> l_kind l0 = l_kind l.
Proof.
  intros ss0 ss P1 b n x l l0 Hb Hex Hf Hlk. rewrite (rowK n x l Hf).
  exact (lookup_K K _ _ _ (ph_scopeK P1 K HK b Hb Hex) Hlk).
Qed.

End Uniform.
