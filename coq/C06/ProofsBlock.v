(** The scope operations of one block: how a place is found, what every event
    keeps, and what the two loops of the dataflow phase say when they pass or reject. *)
From Coq Require Import List Bool Arith Lia.
From V.C09 Require Import Analysis SetLemmas.
From V.C06 Require Import Linearity Token.
Import ListNotations.

Lemma memb_cons : forall y x l, memb y (x :: l) = Nat.eqb y x || memb y l.
Proof. reflexivity. Qed.

Lemma forallb_false_intro : forall (A : Type) (f : A -> bool) l a, In a l -> f a = false -> forallb f l = false.
Proof.
  intros A f l a Hin Hf. destruct (forallb f l) eqn:E; auto.
  rewrite forallb_forall in E. rewrite (E a Hin) in Hf. discriminate.
Qed.

Lemma filter_nil_false : forall (A : Type) (f : A -> bool) l a, filter f l = [] -> In a l -> f a = false.
Proof.
  intros A f l a H Hin. destruct (f a) eqn:E; auto.
  assert (In a (filter f l)) by (apply filter_In; auto). rewrite H in H0. destruct H0.
Qed.

Lemma find_leaf_cons : forall x l ls, find_leaf x (l :: ls) = if Nat.eqb (l_id l) x then Some l else find_leaf x ls.
Proof. reflexivity. Qed.

Lemma find_leaf_some : forall x ls l, find_leaf x ls = Some l -> In l ls /\ l_id l = x.
Proof.
  intros x ls l H. unfold find_leaf in H. apply find_some in H. destruct H as [H1 H2].
  apply Nat.eqb_eq in H2. auto.
Qed.

Lemma has_leaf_unfold : forall x ls, has_leaf x ls = match find_leaf x ls with Some _ => true | None => false end.
Proof. reflexivity. Qed.

Lemma has_leaf_cons : forall x l ls, has_leaf x (l :: ls) = Nat.eqb (l_id l) x || has_leaf x ls.
Proof.
  intros. unfold has_leaf. rewrite find_leaf_cons. destruct (Nat.eqb (l_id l) x); reflexivity.
Qed.

Lemma has_leaf_true : forall x ls, has_leaf x ls = true <-> exists l, In l ls /\ l_id l = x.
Proof.
  intros x ls. induction ls as [|a r IH].
  - split; [discriminate | intros [l [[] _]]].
  - rewrite has_leaf_cons. rewrite orb_true_iff, IH, Nat.eqb_eq. split.
    + intros [H | [l [H1 H2]]]; [exists a | exists l]; simpl; auto.
    + intros [l [[H1 | H1] H2]]; subst; auto. right. exists l. auto.
Qed.

Lemma has_leaf_find : forall x ls, has_leaf x ls = true -> exists l, find_leaf x ls = Some l.
Proof. intros x ls H. unfold has_leaf in H. destruct (find_leaf x ls); [eauto | discriminate]. Qed.

Lemma find_leaf_remove : forall y x ls, y <> x -> find_leaf y (remove_leaf x ls) = find_leaf y ls.
Proof.
  intros y x ls N. unfold remove_leaf. induction ls as [|a r IH]; auto. simpl filter.
  destruct (Nat.eqb (l_id a) x) eqn:E; simpl; rewrite ?find_leaf_cons, IH; auto.
  apply Nat.eqb_eq in E. destruct (Nat.eqb (l_id a) y) eqn:E2; auto. apply Nat.eqb_eq in E2. congruence.
Qed.

Lemma has_leaf_remove : forall y x ls, y <> x -> has_leaf y (remove_leaf x ls) = has_leaf y ls.
Proof. intros. unfold has_leaf. rewrite find_leaf_remove; auto. Qed.

Lemma memb_remove_id : forall y x l, memb y (remove_id x l) = memb y l && negb (Nat.eqb y x).
Proof. intros. unfold remove_id. rewrite memb_filter. reflexivity. Qed.

Lemma lookup_cases : forall s x l, lookup s x = Some l ->
  (find_leaf x (s_vars s) = Some l /\ used s x = Some (memb x (s_ul s)) /\
   use_leaf s x = Some (mkScope (s_entry s) (s_vars s) (x :: s_ul s) (s_up s) (s_pvars s) (s_pul s))) \/
  (find_leaf x (s_vars s) = None /\ s_entry s = false /\ find_leaf x (s_pvars s) = Some l /\
   used s x = Some (memb x (s_pul s)) /\
   use_leaf s x = Some (mkScope false (s_vars s) (s_ul s) (x :: s_up s) (s_pvars s) (x :: s_pul s))).
Proof.
  intros s x l H. unfold lookup in H. unfold used, use_leaf, has_leaf.
  destruct (find_leaf x (s_vars s)) as [l0|].
  - left. inversion H. auto.
  - destruct (s_entry s); [discriminate|]. rewrite H. right. auto.
Qed.

Lemma lookup_vars : forall s x l, find_leaf x (s_vars s) = Some l ->
  lookup s x = Some l /\ used s x = Some (memb x (s_ul s)).
Proof. intros s x l H. unfold lookup, used, has_leaf. rewrite H. auto. Qed.

Lemma lookup_pvars : forall s x l, find_leaf x (s_vars s) = None -> s_entry s = false ->
  find_leaf x (s_pvars s) = Some l -> lookup s x = Some l /\ used s x = Some (memb x (s_pul s)).
Proof. intros s x l Hv He Hp. unfold lookup, used, has_leaf. rewrite Hv, He, Hp. auto. Qed.

Lemma used_bound : forall s x u, used s x = Some u -> exists l, lookup s x = Some l.
Proof.
  unfold used, lookup, has_leaf. intros s x u H. destruct (find_leaf x (s_vars s)); [eauto|].
  destruct (s_entry s); [discriminate|]. destruct (find_leaf x (s_pvars s)); [eauto | discriminate].
Qed.

Lemma use_leaf_bound : forall s x s', use_leaf s x = Some s' -> exists l, lookup s x = Some l.
Proof.
  unfold use_leaf, lookup, has_leaf. intros s x s' H. destruct (find_leaf x (s_vars s)); [eauto|].
  destruct (s_entry s); [discriminate|]. destruct (find_leaf x (s_pvars s)); [eauto | discriminate].
Qed.

Lemma lookup_use_leaf : forall s x s', use_leaf s x = Some s' -> forall y, lookup s' y = lookup s y.
Proof.
  intros s x s' H y. destruct (use_leaf_bound _ _ _ H) as [l Hl].
  destruct (lookup_cases _ _ _ Hl) as [[_ [_ E]] | [_ [He [_ [_ E]]]]]; rewrite E in H; inversion H; subst s'.
  - reflexivity.
  - unfold lookup. simpl. rewrite He. reflexivity.
Qed.

(* the premise about [assign_leaf] is asked only of the leaves the events name, as [scopeK] and [scopeIO] need *)
Section Keeps.
Variable P : scope -> Prop.
Hypothesis Puse : forall s x s', use_leaf s x = Some s' -> P s -> P s'.

Lemma use_leaves_keeps : forall ls s s', use_leaves s ls = Ok s' -> P s -> P s'.
Proof.
  induction ls as [|l r IH]; intros s s' H Hs; simpl in H.
  - inversion H; subst; exact Hs.
  - destruct (used s (l_id l)); [|discriminate].
    destruct (b && negb (is_copy (l_kind l))); [discriminate|].
    destruct (use_leaf s (l_id l)) as [s1|] eqn:E; [|discriminate].
    exact (IH _ _ H (Puse _ _ _ E Hs)).
Qed.

Lemma assign_checked_keeps : forall ls s s', (forall s l, In l ls -> P s -> P (assign_leaf s l)) ->
  assign_leaves_checked s ls = Ok s' -> P s -> P s'.
Proof.
  induction ls as [|l r IH]; intros s s' Pa H Hs; simpl in H.
  - inversion H; subst; exact Hs.
  - match type of H with (if ?b then _ else _) = _ => destruct b end; [discriminate|].
    apply (IH _ _ (fun s0 l0 Hl => Pa s0 l0 (or_intror Hl)) H). apply Pa; simpl; auto.
Qed.

Lemma assign_leaves_keeps : forall ls s, (forall s l, In l ls -> P s -> P (assign_leaf s l)) ->
  P s -> P (assign_leaves s ls).
Proof.
  unfold assign_leaves. induction ls as [|l r IH]; intros s Pa Hs; simpl; [exact Hs|].
  apply (IH _ (fun s0 l0 Hl => Pa s0 l0 (or_intror Hl))). apply Pa; simpl; auto.
Qed.

Lemma step_event_keeps : forall fin e s s', (forall s l, In l (event_place e) -> P s -> P (assign_leaf s l)) ->
  step_event fin s e = Ok s' -> P s -> P s'.
Proof.
  intros fin e s s' Pa H Hs. destruct e as [p k | p | p | p | e]; simpl in H, Pa.
  - destruct (p_inout p && negb (is_borrow k)); [discriminate|]. exact (use_leaves_keeps _ _ _ H Hs).
  - match type of H with (if ?b then _ else _) = _ => destruct b end; [discriminate|].
    exact (assign_checked_keeps _ _ _ Pa H Hs).
  - destruct (input_is_borrowed fin (p_id p)); [discriminate|]. inversion H; subst; exact Hs.
  - inversion H; subst. exact (assign_leaves_keeps _ _ Pa Hs).
  - discriminate.
Qed.

Lemma run_events_keeps : forall fin es s s',
  (forall e s l, In e es -> In l (event_place e) -> P s -> P (assign_leaf s l)) ->
  run_events fin s es = Ok s' -> P s -> P s'.
Proof.
  intros fin. induction es as [|e r IH]; intros s s' Pa H Hs; simpl in H.
  - inversion H; subst; exact Hs.
  - destruct (step_event fin s e) as [s1|] eqn:E; [|discriminate].
    apply (IH _ _ (fun e0 s0 l0 He => Pa e0 s0 l0 (or_intror He)) H).
    exact (step_event_keeps _ _ _ _ (fun s0 l0 => Pa e s0 l0 (or_introl eq_refl)) E Hs).
Qed.
End Keeps.

(* [s'] comes after [s] in the run of one block: bindings stay, the input scope's marks only grow, and a new
   mark in the input scope is of a place that [s] does not bind; entry flag and input row are those of [s] *)
Definition ext (s s' : scope) : Prop :=
  (forall x, has_leaf x (s_vars s) = true -> has_leaf x (s_vars s') = true) /\
  (forall x, In x (s_pul s') -> In x (s_pul s) \/ has_leaf x (s_vars s) = false) /\
  incl (s_pul s) (s_pul s') /\
  s_entry s' = s_entry s /\ s_pvars s' = s_pvars s.

Lemma ext_refl : forall s, ext s s.
Proof. intros s. repeat split; auto. apply incl_refl. Qed.

Lemma ext_trans : forall a b c, ext a b -> ext b c -> ext a c.
Proof.
  intros a b c [A1 [A2 [A3 [A4 A5]]]] [B1 [B2 [B3 [B4 B5]]]]. repeat split.
  - intros x H. auto.
  - intros x H. destruct (B2 x H) as [H1 | H1]; auto.
    destruct (has_leaf x (s_vars a)) eqn:E; auto. rewrite (A1 x E) in H1. discriminate.
  - eapply incl_tran; eauto.
  - congruence.
  - congruence.
Qed.

Lemma use_leaf_ext : forall s x s', use_leaf s x = Some s' -> ext s s'.
Proof.
  intros s x s' H. destruct (use_leaf_bound _ _ _ H) as [l Hl].
  destruct (lookup_cases _ _ _ Hl) as [[_ [_ E]] | [Hv [He [_ [_ E]]]]]; rewrite E in H; inversion H; subst s'.
  - repeat split; simpl; auto. apply incl_refl.
  - repeat split; simpl; auto.
    + intros y [Hy | Hy]; subst; auto. right. unfold has_leaf. rewrite Hv. reflexivity.
    + apply incl_tl, incl_refl.
Qed.

Lemma assign_leaf_ext : forall s l, ext s (assign_leaf s l).
Proof.
  intros s l. repeat split; simpl; auto; try apply incl_refl.
  intros x H. rewrite has_leaf_cons. destruct (Nat.eqb (l_id l) x) eqn:E; auto. simpl.
  rewrite has_leaf_remove; auto. apply Nat.eqb_neq in E. auto.
Qed.

Lemma ext_use : forall s0 s x s', use_leaf s x = Some s' -> ext s0 s -> ext s0 s'.
Proof. intros s0 s x s' H E. exact (ext_trans _ _ _ E (use_leaf_ext _ _ _ H)). Qed.
Lemma ext_assign : forall s0 s l, ext s0 s -> ext s0 (assign_leaf s l).
Proof. intros s0 s l E. exact (ext_trans _ _ _ E (assign_leaf_ext s l)). Qed.

Lemma use_leaves_ext : forall ls s s', use_leaves s ls = Ok s' -> ext s s'.
Proof. intros ls s s' H. exact (use_leaves_keeps _ (ext_use s) _ _ _ H (ext_refl s)). Qed.

Lemma assign_checked_ext : forall ls s s', assign_leaves_checked s ls = Ok s' -> ext s s'.
Proof.
  intros ls s s' H. exact (assign_checked_keeps _ ls _ _ (fun s1 l _ => ext_assign s s1 l) H (ext_refl s)).
Qed.

Lemma step_event_ext : forall fin e s s', step_event fin s e = Ok s' -> ext s s'.
Proof.
  intros fin e s s' H.
  exact (step_event_keeps _ (ext_use s) fin e _ _ (fun s1 l _ => ext_assign s s1 l) H (ext_refl s)).
Qed.

Lemma run_events_ext : forall fin es s s', run_events fin s es = Ok s' -> ext s s'.
Proof.
  intros fin es s s' H.
  exact (run_events_keeps _ (ext_use s) fin es _ _ (fun _ s1 l _ _ => ext_assign s s1 l) H (ext_refl s)).
Qed.

Lemma step_event_pvars : forall fin e s s', step_event fin s e = Ok s' -> s_pvars s' = s_pvars s.
Proof. intros fin e s s' H. apply (step_event_ext fin e s s' H). Qed.

Lemma use_leaves_vars : forall ls s s', use_leaves s ls = Ok s' -> s_vars s' = s_vars s.
Proof.
  intros ls s s' H. apply (use_leaves_keeps (fun s1 => s_vars s1 = s_vars s)) with (2 := H); [|reflexivity].
  intros s0 x s1 Hs1 Hv. destruct (use_leaf_bound _ _ _ Hs1) as [l Hl].
  destruct (lookup_cases _ _ _ Hl) as [[_ [_ E]] | [_ [_ [_ [_ E]]]]]; rewrite E in Hs1; inversion Hs1; subst s1;
    exact Hv.
Qed.

Lemma use_leaves_marks : forall ls s s', use_leaves s ls = Ok s' ->
  forall l, In l ls -> has_leaf (l_id l) (s_vars s') = true \/ In (l_id l) (s_pul s').
Proof.
  induction ls as [|a r IHr]; intros s0 s' H l Hl; [destruct Hl|]. simpl in H.
  destruct (used s0 (l_id a)); [|discriminate].
  destruct (b && negb (is_copy (l_kind a))); [discriminate|].
  destruct (use_leaf s0 (l_id a)) as [s1|] eqn:E; [|discriminate].
  destruct Hl as [Hl | Hl]; [subst a | exact (IHr _ _ H l Hl)].
  destruct (use_leaves_ext _ _ _ H) as [E1 [_ [E3 _]]]. destruct (use_leaf_bound _ _ _ E) as [l0 Hlk].
  destruct (lookup_cases _ _ _ Hlk) as [[Hv [_ E']] | [_ [_ [_ [_ E']]]]]; rewrite E' in E; inversion E; subst s1.
  - left. apply E1. simpl. unfold has_leaf. rewrite Hv. reflexivity.
  - right. apply E3. simpl. auto.
Qed.

Lemma assign_leaves_has : forall x ls s, has_leaf x (s_vars (assign_leaves s ls)) = true ->
  has_leaf x (s_vars s) = true \/ exists l, In l ls /\ l_id l = x.
Proof.
  intros x. unfold assign_leaves. induction ls as [|l r IH]; intros s H; simpl in H; auto.
  destruct (IH _ H) as [Hq | [l' [A B]]].
  - simpl in Hq. rewrite has_leaf_cons in Hq. destruct (Nat.eqb (l_id l) x) eqn:E.
    + apply Nat.eqb_eq in E. right. exists l. simpl. auto.
    + simpl in Hq. rewrite has_leaf_remove in Hq; auto. apply Nat.eqb_neq in E. auto.
  - right. exists l'. simpl. auto.
Qed.

Lemma step_event_pul_eq : forall fin e s s', step_event fin s e = Ok s' ->
  (forall p k, e <> EUse p k) -> s_pul s' = s_pul s.
Proof.
  intros fin e s s' H Hne. destruct e as [p k | p | p | p | e]; simpl in H.
  - exfalso. apply (Hne p k). reflexivity.
  - match type of H with (if ?b then _ else _) = _ => destruct b end; [discriminate|].
    apply (assign_checked_keeps (fun s1 => s_pul s1 = s_pul s)) with (2 := H); auto.
  - destruct (input_is_borrowed fin (p_id p)); [discriminate|]. inversion H; auto.
  - inversion H. apply (assign_leaves_keeps (fun s1 => s_pul s1 = s_pul s)); auto.
  - discriminate.
Qed.

(* what the block has read through its input scope ([used_parent]) is what is marked there, and is in the row *)
Definition reads_in (s : scope) : Prop :=
  s_up s = s_pul s /\ forall x, In x (s_pul s) -> has_leaf x (s_pvars s) = true.

Lemma run_events_reads_in : forall fin es s s', run_events fin s es = Ok s' -> reads_in s -> reads_in s'.
Proof.
  intros fin es s s' H. apply (run_events_keeps reads_in) with (3 := H).
  - intros s0 x s1 Hs1 [A P]. destruct (use_leaf_bound _ _ _ Hs1) as [l Hl].
    destruct (lookup_cases _ _ _ Hl) as [[_ [_ E]] | [_ [_ [Hp [_ E]]]]]; rewrite E in Hs1; inversion Hs1; subst s1;
      [exact (conj A P)|].
    split; simpl; [congruence|]. intros y [Hy | Hy]; [subst y; unfold has_leaf; rewrite Hp; reflexivity | exact (P y Hy)].
  - intros e s0 l _ _ P. exact P.
Qed.

(* the scope [init_scope] starts from *)
Definition e0 : scope := mkScope true [] [] [] [] [].

Lemma assign_leaves_fields : forall ls s,
  s_entry (assign_leaves s ls) = s_entry s /\ s_up (assign_leaves s ls) = s_up s /\
  s_pvars (assign_leaves s ls) = s_pvars s /\ s_pul (assign_leaves s ls) = s_pul s /\
  (s_ul s = [] -> s_ul (assign_leaves s ls) = []).
Proof.
  unfold assign_leaves. induction ls as [|l r IH]; intros s; simpl; [tauto|].
  destruct (IH (assign_leaf s l)) as [A [B [C [D E]]]]. simpl in *.
  repeat split; auto. intros H. apply E. rewrite H. reflexivity.
Qed.

Lemma init_scope_entry : forall row, init_scope true row = assign_leaves e0 (flat_map leaves row).
Proof.
  intros row. unfold init_scope. change (mkScope true [] [] [] [] []) with e0.
  destruct (assign_leaves_fields (flat_map leaves row) e0) as [A [B [C [D E]]]].
  destruct (assign_leaves e0 (flat_map leaves row)) as [en va ul up pv pu]; simpl in *.
  rewrite A, B, C, D, (E eq_refl). reflexivity.
Qed.

Lemma init_scope_fields : forall e row,
  s_entry (init_scope e row) = e /\ s_ul (init_scope e row) = [] /\ s_up (init_scope e row) = [] /\
  s_pul (init_scope e row) = [] /\
  (e = true -> s_pvars (init_scope e row) = []) /\ (e = false -> s_vars (init_scope e row) = []).
Proof. intros [] row; unfold init_scope; simpl; repeat split; auto; discriminate. Qed.

Lemma init_reads_in : forall e row, reads_in (init_scope e row).
Proof.
  intros e row. destruct (init_scope_fields e row) as [_ [_ [A [B _]]]]. split; [congruence | rewrite B; intros x []].
Qed.

Section Leaves.
Variable Pl : leaf -> Prop.

Definition leavesP (ls : list leaf) : Prop := forall l, In l ls -> Pl l.
Definition scopeP (s : scope) : Prop := leavesP (s_vars s) /\ leavesP (s_pvars s).
Definition eventsP (es : list event) : Prop := forall e, In e es -> leavesP (event_place e).

Lemma assign_leaf_P : forall s l, scopeP s -> Pl l -> scopeP (assign_leaf s l).
Proof.
  intros s l [A B] H. split; simpl; auto. intros l' [E | E]; [subst; auto|].
  unfold remove_leaf in E. apply filter_In in E. apply A. tauto.
Qed.

Lemma use_leaf_P : forall s x s', use_leaf s x = Some s' -> scopeP s -> scopeP s'.
Proof.
  intros s x s' H HS. destruct (use_leaf_bound _ _ _ H) as [l Hl].
  destruct (lookup_cases _ _ _ Hl) as [[_ [_ E]] | [_ [_ [_ [_ E]]]]]; rewrite E in H; inversion H; subst s';
    exact HS.
Qed.

Lemma step_event_P : forall fin e s s', step_event fin s e = Ok s' -> leavesP (event_place e) ->
  scopeP s -> scopeP s'.
Proof.
  intros fin e s s' H HK. apply (step_event_keeps _ use_leaf_P fin e _ _) with (2 := H).
  intros s0 l Hl HS. apply assign_leaf_P; auto.
Qed.

Lemma run_events_P : forall fin es s s', run_events fin s es = Ok s' -> eventsP es -> scopeP s -> scopeP s'.
Proof.
  intros fin es s s' H HK. apply (run_events_keeps _ use_leaf_P fin es _ _) with (2 := H).
  intros e s0 l He Hl HS. apply assign_leaf_P; auto. exact (HK e He l Hl).
Qed.

Lemma init_scope_P : forall e row, leavesP (flat_map leaves row) -> scopeP (init_scope e row).
Proof.
  intros e row HK. assert (S0 : scopeP e0) by (split; intros l []).
  destruct (assign_leaves_keeps scopeP _ e0 (fun s0 l Hl HS => assign_leaf_P s0 l HS (HK l Hl)) S0) as [A _].
  unfold init_scope. change (mkScope true [] [] [] [] []) with e0.
  destruct e; split; simpl; auto; intros l [].
Qed.

End Leaves.

Section Kinds.
Variable K : nat -> kind.

Definition leavesK : list leaf -> Prop := leavesP (fun l => l_kind l = K (l_id l)).
Definition scopeK : scope -> Prop := scopeP (fun l => l_kind l = K (l_id l)).
Definition eventsK : list event -> Prop := eventsP (fun l => l_kind l = K (l_id l)).

Lemma lookup_K : forall s x l, scopeK s -> lookup s x = Some l -> l_kind l = K x.
Proof.
  intros s x l [A B] H.
  destruct (lookup_cases _ _ _ H) as [[Hf _] | [_ [_ [Hf _]]]]; destruct (find_leaf_some _ _ _ Hf) as [Hin <-];
    [exact (A l Hin) | exact (B l Hin)].
Qed.

End Kinds.

(* a loop over [bs], the blocks from index [k] on, stopped at block [i], of which [P] holds *)
Definition stops_at (bs : list lblock) (k i : nat) (P : lblock -> Prop) : Prop :=
  exists j blk, i = k + j /\ nth_error bs j = Some blk /\ P blk.

Lemma stops_here : forall blk r k (P : lblock -> Prop), P blk -> stops_at (blk :: r) k k P.
Proof. intros blk r k P H. exists 0, blk. rewrite Nat.add_0_r. auto. Qed.

Lemma stops_later : forall blk r k i P, stops_at r (S k) i P -> stops_at (blk :: r) k i P.
Proof. intros blk r k i P [j [b' [A B]]]. exists (S j), b'. split; [lia | exact B]. Qed.

Lemma nth_error_block : forall c j blk, nth_error (c_blocks c) j = Some blk ->
  j < length (c_blocks c) /\ blk = nth_block c j.
Proof.
  intros c j blk H. assert (j < length (c_blocks c)) by (apply nth_error_Some; congruence). split; auto.
  unfold nth_block. rewrite (nth_error_nth' _ (mkLB [] [] []) H0) in H. congruence.
Qed.

Lemma stops_at_top : forall c i P, stops_at (c_blocks c) 0 i P -> i < length (c_blocks c) /\ P (nth_block c i).
Proof. intros c i P [j [blk [A [B C]]]]. simpl in A. subst j. destruct (nth_error_block c _ _ B) as [Hb ->]. auto. Qed.

Lemma check_blocks_cases : forall fin entry bs k,
  match check_blocks fin entry k bs with
  | inl ss => length ss = length bs /\
      forall j b, nth_error bs j = Some b -> check_block fin (Nat.eqb (k + j) entry) b = Ok (nth j ss dummy_scope)
  | inr (i, e) => stops_at bs k i (fun blk => check_block fin (Nat.eqb i entry) blk = Err e)
  end.
Proof.
  induction bs as [|b r IH]; intros k; simpl.
  - split; auto. intros [|j] b Hj; discriminate.
  - destruct (check_block fin (Nat.eqb k entry) b) as [s|e] eqn:E; [|apply stops_here; exact E].
    specialize (IH (S k)). destruct (check_blocks fin entry (S k) r) as [ss'|[i e]]; [|apply stops_later; exact IH].
    destruct IH as [A B]. split; [simpl; congruence|].
    intros [|j] b' Hj; simpl in *.
    + inversion Hj; subst. rewrite Nat.add_0_r. exact E.
    + replace (k + S j) with (S k + j) by lia. apply B. exact Hj.
Qed.

Lemma check_blocks_spec : forall fin entry bs k ss, check_blocks fin entry k bs = inl ss ->
  length ss = length bs /\
  forall j b, nth_error bs j = Some b ->
    check_block fin (Nat.eqb (k + j) entry) b = Ok (nth j ss dummy_scope).
Proof. intros fin entry bs k ss H. pose proof (check_blocks_cases fin entry bs k) as P. rewrite H in P. exact P. Qed.

Lemma check_blocks_err : forall c b e, check_blocks (c_inputs c) (c_entry c) 0 (c_blocks c) = inr (b, e) ->
  b < length (c_blocks c) /\ check_block (c_inputs c) (Nat.eqb b (c_entry c)) (nth_block c b) = Err e.
Proof.
  intros c b e H. pose proof (check_blocks_cases (c_inputs c) (c_entry c) (c_blocks c) 0) as P. rewrite H in P.
  exact (stops_at_top c b _ P).
Qed.

Lemma check_dataflow_cases : forall fx c ss L bs k,
  match check_dataflow fx c ss L k bs with
  | Accept => forall j b, nth_error bs j = Some b ->
      check1 (nth_scope ss (k + j)) L (lb_succ b) = Some [] /\
      check2 fx (nth_scope ss (k + j)) L (k + j) (lb_succ b) = [] /\
      row_ok c (nth_scope ss (k + j)) L (k + j) = true
  | RejBlock _ _ => False
  | RejUsed i xs => stops_at bs k i (fun blk => check1 (nth_scope ss i) L (lb_succ blk) = Some xs /\ xs <> [])
  | RejUnused i xs => stops_at bs k i (fun blk => check1 (nth_scope ss i) L (lb_succ blk) = Some [] /\
      check2 fx (nth_scope ss i) L i (lb_succ blk) = xs /\ xs <> [])
  | Crash i => stops_at bs k i (fun blk => check1 (nth_scope ss i) L (lb_succ blk) = None \/
      row_ok c (nth_scope ss i) L i = false)
  end.
Proof.
  intros fx c ss L. induction bs as [|blk r IH]; intros k; simpl; [intros [|j] b Hj; discriminate|].
  destruct (check1 (nth_scope ss k) L (lb_succ blk)) as [[|x xs]|] eqn:E1.
  - destruct (check2 fx (nth_scope ss k) L k (lb_succ blk)) as [|y ys] eqn:E2.
    + destruct (row_ok c (nth_scope ss k) L k) eqn:E3; [|apply stops_here; auto].
      specialize (IH (S k)). destruct (check_dataflow fx c ss L (S k) r); try (apply stops_later; exact IH); [|exact IH].
      intros [|j] b Hj; simpl in Hj.
      * inversion Hj; subst. rewrite Nat.add_0_r. auto.
      * replace (k + S j) with (S k + j) by lia. apply IH; exact Hj.
    + apply stops_here. repeat split; auto. discriminate.
  - apply stops_here. split; [exact E1 | discriminate].
  - apply stops_here. auto.
Qed.

Lemma check_dataflow_spec : forall fx c ss L bs k, check_dataflow fx c ss L k bs = Accept ->
  forall j b, nth_error bs j = Some b ->
    check1 (nth_scope ss (k + j)) L (lb_succ b) = Some [] /\
    check2 fx (nth_scope ss (k + j)) L (k + j) (lb_succ b) = [] /\
    row_ok c (nth_scope ss (k + j)) L (k + j) = true.
Proof. intros fx c ss L bs k H. pose proof (check_dataflow_cases fx c ss L bs k) as P. rewrite H in P. exact P. Qed.

Lemma check1_nil : forall s L succs, check1 s L succs = Some [] ->
  forall n x, In n succs -> In x (getv L n) ->
  exists l, lookup s x = Some l /\ (used s x = Some true -> is_copy (l_kind l) = true).
Proof.
  intros s L succs H n x Hn Hx. unfold check1 in H.
  assert (Hfl : In x (flat_map (getv L) succs)) by (apply in_flat_map; eauto).
  destruct (forallb _ (flat_map (getv L) succs)) eqn:Hall; [|discriminate].
  rewrite forallb_forall in Hall. specialize (Hall x Hfl). inversion H as [H'].
  pose proof (filter_nil_false _ _ _ x H' Hfl) as Hp. simpl in Hp.
  destruct (lookup s x) as [l|]; [|discriminate]. exists l. split; auto.
  intros Hu. rewrite Hu in Hp. apply negb_false_iff. exact Hp.
Qed.

Lemma check1_cons : forall s L succs x xs, check1 s L succs = Some (x :: xs) ->
  exists n l, In n succs /\ In x (getv L n) /\ lookup s x = Some l /\ used s x = Some true /\
    is_copy (l_kind l) = false.
Proof.
  intros s L succs x xs H. unfold check1 in H.
  destruct (forallb _ (flat_map (getv L) succs)); [|discriminate]. inversion H as [H'].
  assert (Hx : In x (x :: xs)) by (simpl; auto). rewrite <- H' in Hx. apply filter_In in Hx.
  destruct Hx as [Hfl Hp]. apply in_flat_map in Hfl. destruct Hfl as [n [Hn Hxn]].
  destruct (lookup s x) as [l|]; [|discriminate]. destruct (used s x) as [[|]|]; try discriminate.
  exists n, l. repeat split; auto. apply negb_true_iff. exact Hp.
Qed.

Lemma check2_In : forall fx s L b succs x, In x (check2 fx s L b succs) <->
  exists l, l_id l = x /\ In l (scope_entries fx s) /\
    (memb x (getv L b) || has_leaf x (s_vars s)) = true /\ is_linear (l_kind l) = true /\
    used s x = Some false /\ exists n, In n succs /\ ~ In x (getv L n).
Proof.
  intros fx s L b succs x. unfold check2. rewrite in_map_iff. split.
  - intros [l [Hid Hl]]. apply filter_In in Hl. destruct Hl as [Hent Hp]. rewrite Hid in Hp.
    apply andb_true_iff in Hp. destruct Hp as [Hp Hp4]. apply andb_true_iff in Hp. destruct Hp as [Hp Hp3].
    apply andb_true_iff in Hp. destruct Hp as [Hp1 Hp2].
    exists l. repeat split; auto.
    + destruct (used s x) as [[|]|]; try discriminate. reflexivity.
    + apply negb_true_iff in Hp4. clear - Hp4. induction succs as [|a r IH]; simpl in Hp4; [discriminate|].
      apply andb_false_iff in Hp4. destruct Hp4 as [H | H].
      * exists a. split; simpl; auto. apply memb_false. exact H.
      * destruct (IH H) as [n [A B]]. exists n. simpl. auto.
  - intros [l [Hid [Hent [H1 [H2 [H3 [n [Hn Hnl]]]]]]]]. exists l. split; auto. apply filter_In. split; auto.
    rewrite Hid, H1, H2, H3. simpl. rewrite (forallb_false_intro _ _ _ n Hn); auto. apply memb_false. exact Hnl.
Qed.

Lemma scope_entries_vars : forall fx s l, In l (s_vars s) -> In l (scope_entries fx s).
Proof. intros. unfold scope_entries. apply in_or_app. auto. Qed.

Lemma scope_entries_pvars : forall fx s l, In l (s_pvars s) -> has_leaf (l_id l) (s_vars s) = false ->
  In l (scope_entries fx s).
Proof.
  intros fx s l Hin Hv. unfold scope_entries. apply in_or_app. right. destruct fx; auto.
  apply filter_In. rewrite Hv. auto.
Qed.

Lemma last_cons_default : forall (r : list nat) n b, last (n :: r) b = last r n.
Proof.
  induction r as [|a r IH]; intros n b; [reflexivity|].
  change (last (n :: a :: r) b) with (last (a :: r) b). rewrite !IH. reflexivity.
Qed.

(* also for an index that is no block: then there are no leaves *)
Lemma block_leaves_all : forall c b l,
  In l (flat_map leaves (lb_in (nth_block c b))) \/
  (exists e, In e (lb_events (nth_block c b)) /\ In l (event_place e)) -> In l (all_leaves c).
Proof.
  intros c b l H. destruct (Nat.lt_ge_cases b (length (c_blocks c))) as [Hb | Hb].
  - unfold all_leaves. apply in_or_app. left. apply in_flat_map. exists (nth_block c b).
    split; [apply nth_In; exact Hb|]. unfold block_leaves. apply in_or_app.
    destruct H as [H | [e [He Hl]]]; [left; exact H | right; apply in_flat_map; eauto].
  - unfold nth_block in H. rewrite nth_overflow in H by exact Hb. simpl in H. destruct H as [[] | [e [[] _]]].
Qed.

Lemma block_P : forall (Pl : leaf -> Prop) c, (forall l, In l (all_leaves c) -> Pl l) -> forall b,
  leavesP Pl (flat_map leaves (lb_in (nth_block c b))) /\ eventsP Pl (lb_events (nth_block c b)).
Proof.
  intros Pl c HP b. split.
  - intros l Hl. apply HP. apply (block_leaves_all c b). auto.
  - intros e He l Hl. apply HP. apply (block_leaves_all c b). eauto.
Qed.

Lemma blockK : forall K c, uniform K c -> forall b,
  leavesK K (flat_map leaves (lb_in (nth_block c b))) /\ eventsK K (lb_events (nth_block c b)).
Proof. intros K c. exact (block_P _ c). Qed.
