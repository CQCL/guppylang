(** The event lists produced from the checked AST ([flat_map ev_stmt]) have
    the structure assumed by the completeness theorem ([shadow_wf], [reassign_wf]). *)
From Coq Require Import List.
From V.C06 Require Import Linearity ProofsComplete.
Import ListNotations.

(** induction over the nested type [expr] *)
Fixpoint expr_rect' (P : expr -> Prop)
  (HP : forall p, P (XPlace p))
  (HC : forall fl args, Forall P args -> P (XCall fl args))
  (HN : forall cs, Forall P cs -> P (XNode cs))
  (HD : forall e ok, P e -> P (XDrop e ok)) (e : expr) : P e :=
  match e with
  | XPlace p => HP p
  | XCall fl args =>
      HC fl args ((fix go (l : list expr) : Forall P l :=
                     match l with
                     | [] => Forall_nil P
                     | a :: r => Forall_cons a (expr_rect' P HP HC HN HD a) (go r)
                     end) args)
  | XNode cs =>
      HN cs ((fix go (l : list expr) : Forall P l :=
                match l with
                | [] => Forall_nil P
                | a :: r => Forall_cons a (expr_rect' P HP HC HN HD a) (go r)
                end) cs)
  | XDrop e0 ok => HD e0 ok (expr_rect' P HP HC HN HD e0)
  end.

Fixpoint args_use (az : list expr) (fs : list (bool * bool)) : list event :=
  match az, fs with
  | a :: ar, f :: fr =>
      match a with
      | XPlace p => [EUse p (if fst f then UBorrow else UConsume)]
      | _ => ev_expr a
      end ++ args_use ar fr
  | _, _ => []
  end.

Lemma ev_call : forall fl args, ev_expr (XCall fl args) = args_use args fl ++ args_back fl args.
Proof.
  intros fl args. reflexivity.
Qed.
Lemma ev_node : forall cs, ev_expr (XNode cs) = flat_map ev_expr cs.
Proof. intros cs. simpl. induction cs as [|a r IH]; [reflexivity|]. simpl. rewrite IH. reflexivity. Qed.

(* The traversal concatenates single events, but for two places where events belong together: the hand-backs
   that follow the arguments of a call, and the tests that follow the targets of an assignment. *)
Section Traversal.
Variable P : list event -> Prop.
Hypothesis P_nil : P [].
Hypothesis P_app : forall a b, P a -> P b -> P (a ++ b).
Hypothesis P_use : forall p k, P [EUse p k].
Hypothesis P_fail : forall e, P [EFail e].
Hypothesis P_call : forall fl args, P (args_use args fl) -> P (args_use args fl ++ args_back fl args).
Hypothesis P_assign : forall tg, P (map EAssign tg ++ map EShadow tg).

Lemma ev_expr_P : forall e, P (ev_expr e).
Proof.
  apply expr_rect'.
  - intros p. apply P_use.
  - intros fl args HF. rewrite ev_call. apply P_call. revert fl.
    induction HF as [|a r Ha HF IH]; intros [|f fr]; simpl; auto. apply P_app; [|apply IH]. destruct a; auto.
  - intros cs HF. rewrite ev_node. induction HF; simpl; auto.
  - intros e ok He. simpl. apply P_app; [exact He|]. destruct ok; auto.
Qed.

Lemma ev_stmt_P : forall st, P (ev_stmt st).
Proof.
  intros [tg v | e d | es | e]; simpl.
  - apply P_app; [apply ev_expr_P | apply P_assign].
  - apply P_app; [apply ev_expr_P|]. destruct d; auto.
  - induction es as [|a r IH]; simpl; auto. apply P_app; [|exact IH]. destruct a; try apply ev_expr_P. apply P_use.
  - apply ev_expr_P.
Qed.

Lemma flatten_P : forall sts, P (flat_map ev_stmt sts).
Proof. induction sts as [|st r IH]; simpl; auto using ev_stmt_P. Qed.

End Traversal.

Lemma shadow_wf_app : forall a b, shadow_wf a -> shadow_wf b -> shadow_wf (a ++ b).
Proof.
  induction a as [|e r IH]; intros b Ha Hb; simpl; [exact Hb|]. destruct Ha as [He Hr]. split; [|exact (IH b Hr Hb)].
  destruct e; auto. destruct He as [p' [Hin Hid]]. exists p'. split; [apply in_or_app; auto | exact Hid].
Qed.

Lemma args_back_shadow : forall fl args, shadow_wf (args_back fl args).
Proof.
  induction fl as [|f fr IH]; intros [|a ar]; simpl; auto. apply shadow_wf_app; [|apply IH].
  unfold arg_back. destruct (fst f); [|exact I]. destruct a; try destruct (snd f); simpl; auto.
Qed.

Lemma shadow_wf_assigns : forall tg tg', incl tg tg' -> shadow_wf (map EAssign tg ++ map EShadow tg').
Proof.
  induction tg as [|p r IH]; intros tg' Hi; simpl.
  - clear Hi. induction tg'; simpl; auto.
  - split; [|apply IH; intros q Hq; apply Hi; simpl; auto].
    exists p. split; [|reflexivity]. apply in_or_app. right. apply in_map, Hi. simpl. auto.
Qed.

Lemma flatten_shadow_wf : forall sts, shadow_wf (flat_map ev_stmt sts).
Proof.
  apply (flatten_P shadow_wf); simpl; auto using shadow_wf_app.
  - intros fl args H. exact (shadow_wf_app _ _ H (args_back_shadow fl args)).
  - intros tg. apply shadow_wf_assigns, incl_refl.
Qed.

Lemma reassign_wf_mono : forall es B B', incl B B' -> reassign_wf B es -> reassign_wf B' es.
Proof.
  induction es as [|e r IH]; intros B B' Hi H; simpl in *; auto.
  destruct e as [p k | p | p | p | e]; try (eapply IH; eauto; fail).
  - destruct k; try (eapply IH; eauto; fail).
    eapply IH; [|exact H]. apply incl_app; [apply incl_appl, incl_refl | apply incl_appr; exact Hi].
  - destruct H as [A C]. split; [intros l Hl; apply Hi; auto | eapply IH; eauto].
Qed.

(* the ids borrowed so far ([reassign_wf]'s [B]) after the events [es] *)
Fixpoint after (B : list nat) (es : list event) : list nat :=
  match es with
  | [] => B
  | EUse p UBorrow :: r => after (map l_id (leaves (p_tree p)) ++ B) r
  | _ :: r => after B r
  end.

Lemma reassign_wf_app : forall a b B, reassign_wf B a -> reassign_wf (after B a) b -> reassign_wf B (a ++ b).
Proof.
  induction a as [|e r IH]; intros b B Ha Hb; simpl in *; [exact Hb|].
  destruct e as [p k | p | p | p | e]; try (apply IH; auto; fail).
  - destruct k; apply IH; auto.
  - destruct Ha as [A C]. split; auto.
Qed.

Lemma after_borrow : forall es B p l, In (EUse p UBorrow) es -> In l (leaves (p_tree p)) -> In (l_id l) (after B es).
Proof.
  assert (M : forall es B x, In x B -> In x (after B es)).
  { induction es as [|e r IH]; intros B x Hx; simpl; auto.
    destruct e as [p k | | | | ]; auto. destruct k; auto. apply IH, in_or_app. auto. }
  induction es as [|e r IH]; intros B p l Hin Hl; [destruct Hin|]. destruct Hin as [He | Hin]; simpl.
  - subst e. apply M, in_or_app. left. apply in_map, Hl.
  - destruct e as [p' k | | | | ]; eauto. destruct k; eauto.
Qed.

Lemma args_back_wf : forall fl args B,
  (forall p l, In (EUse p UBorrow) (args_use args fl) -> In l (leaves (p_tree p)) -> In (l_id l) B) ->
  reassign_wf B (args_back fl args).
Proof.
  induction fl as [|f fr IH]; intros [|a ar] B H; simpl; auto.
  assert (Hr : reassign_wf B (args_back fr ar)) by (apply IH; intros p l Hp; apply H; simpl; apply in_or_app; auto).
  unfold arg_back. destruct (fst f) eqn:Ef; [|exact Hr].
  destruct a; try (destruct (snd f); exact Hr).
  simpl. split; [|exact Hr]. intros l Hl. apply (H p l); [|exact Hl]. simpl. rewrite Ef. auto.
Qed.

Lemma flatten_reassign_wf : forall sts B, reassign_wf B (flat_map ev_stmt sts).
Proof.
  apply (flatten_P (fun es => forall B, reassign_wf B es)).
  - intros B. exact I.
  - intros a b Ha Hb B. apply reassign_wf_app; auto.
  - intros p k B. destruct k; exact I.
  - intros e B. exact I.
  - intros fl args H B. apply reassign_wf_app; [apply H|]. apply args_back_wf. intros p l. apply after_borrow.
  - intros tg B. apply reassign_wf_app; [induction tg | induction tg]; simpl; auto.
Qed.

Lemma flatten_events_wf : forall bs entry exit_ reach fin,
  events_wf (mkLC (map flatten_block bs) entry exit_ reach fin).
Proof.
  intros bs entry exit_ reach fin blk Hb. simpl in Hb. apply in_map_iff in Hb.
  destruct Hb as [ab [E _]]. subst blk. simpl. split; [apply flatten_shadow_wf | apply flatten_reassign_wf].
Qed.
