(** What completeness is stated with: the structure of event lists, violation
    of the [Token] discipline, H_exit, a crashed verdict. *)
From Coq Require Import List.
From V.C06 Require Import Linearity Token ProofsBlock.
Import ListNotations.

(* an assignment to a place is followed by the test of visit_Assign for that place *)
Fixpoint shadow_wf (es : list event) : Prop :=
  match es with
  | [] => True
  | e :: r =>
      match e with
      | EAssign p => exists p', In (EShadow p') r /\ p_id p' = p_id p
      | _ => True
      end /\ shadow_wf r
  end.
(* a place is handed back only after it was borrowed in the same block; [B] = ids borrowed so far *)
Fixpoint reassign_wf (B : list nat) (es : list event) : Prop :=
  match es with
  | [] => True
  | e :: r =>
      match e with
      | EUse p UBorrow => reassign_wf (map l_id (leaves (p_tree p)) ++ B) r
      | EReassign p => (forall l, In l (leaves (p_tree p)) -> In (l_id l) B) /\ reassign_wf B r
      | _ => reassign_wf B r
      end
  end.

Section BlockC.
Variable fin : finputs.

Definition leafIO (l : leaf) : Prop := l_inout l = true -> input_is_borrowed fin (l_id l) = true.
Definition leavesIO : list leaf -> Prop := leavesP leafIO.
Definition eventsIO : list event -> Prop := eventsP leafIO.
Definition scopeIO : scope -> Prop := scopeP leafIO.

End BlockC.

Section Global.
Variable K : nat -> kind.
Variable c : lcfg.

Notation fin := (c_inputs c).
Notation evs b := (lb_events (nth_block c b)).

Definition bad_walk : Prop :=
  exists rest k v, is_walk c (c_entry c) rest /\ run_path c empty_tokens (c_entry c) rest k = Bad v.
Definition bad_final : Prop :=
  exists rest k t, is_walk c (c_entry c) rest /\ last rest (c_entry c) = c_exit c /\
    run_path c empty_tokens (c_entry c) rest k = Fine t /\ ~ final_ok K c t.
Definition violated : Prop := bad_walk \/ bad_final.

Definition greach (b : nat) : Prop := exists rest, is_walk c (c_entry c) rest /\ last rest (c_entry c) = b.

Definition io_ok : Prop :=
  forall l, In l (all_leaves c) -> l_inout l = true -> input_is_borrowed fin (l_id l) = true.
Hypothesis HIO : io_ok.

Lemma blockIO : forall b, leavesIO fin (flat_map leaves (lb_in (nth_block c b))) /\ eventsIO fin (evs b).
Proof. exact (block_P _ c HIO). Qed.

End Global.

Definition crashed (v : verdict) : Prop := (exists b, v = Crash b) \/ (exists b, v = RejBlock b ErrCrash).

Definition events_wf (c : lcfg) : Prop :=
  forall blk, In blk (c_blocks c) -> shadow_wf (lb_events blk) /\ reassign_wf [] (lb_events blk).
Definition all_reach (c : lcfg) : Prop :=
  forall b, b < length (c_blocks c) -> greach c b /\ reaches_exit c b.
