(** One block, general kinds: the checker's scope [tracks] the [TokenG] state, and the tables set the outcome
    of the checker against that of the semantics. *)
From Coq Require Import List Bool Arith.
From V.C09 Require Import Analysis SetLemmas.
From V.C06 Require Import Linearity TokenG ProofsBlock ProofsComplete.
Import ListNotations.

Lemma copy_kind : forall k, is_copy k = true -> k = KCopy.
Proof. intros []; simpl; congruence. Qed.

Section BlockG.
Variable fin : finputs.

(* [typed_run] without the binding: all the token discipline needs; that a used leaf is bound only keeps the
   checker from crashing *)
Definition kinded_use (s : scope) (ls : list leaf) : Prop :=
  forall l l0, In l ls -> lookup s (l_id l) = Some l0 -> l_kind l0 = l_kind l.
Definition kinded_event (s : scope) (e : event) : Prop :=
  match e with EUse p _ => kinded_use s (leaves (p_tree p)) | _ => True end.
Fixpoint kinded_run (s : scope) (es : list event) : Prop :=
  match es with
  | [] => True
  | e :: r => kinded_event s e /\
              match step_event fin s e with Ok s' => kinded_run s' r | Err _ => True end
  end.

Lemma kinded_use_tail : forall s l r s1, use_leaf s (l_id l) = Some s1 -> kinded_use s (l :: r) -> kinded_use s1 r.
Proof.
  intros s l r s1 Hs1 HT l' l0 Hl' Hlk. rewrite (lookup_use_leaf _ _ _ Hs1) in Hlk. exact (HT l' l0 (or_intror Hl') Hlk).
Qed.

Lemma typed_kinded : forall es s, typed_run fin s es -> kinded_run s es.
Proof.
  induction es as [|e r IH]; intros s H; simpl in *; [exact I|]. destruct H as [He Hr]. split.
  - destruct e; simpl in *; auto. intros l l0 Hl Hlk. destruct (He l Hl) as [l1 [A B]]. congruence.
  - destruct (step_event fin s e); auto.
Qed.

Lemma scopeK_kinded : forall K es s, scopeK K s -> eventsK K es -> kinded_run s es.
Proof.
  intros K. induction es as [|e r IH]; intros s HS HE; simpl; [exact I|].
  pose proof (HE e (or_introl eq_refl)) as Ke. split.
  - destruct e; simpl in *; auto. intros l l0 Hl Hlk. rewrite (lookup_K K _ _ _ HS Hlk). symmetry. exact (Ke l Hl).
  - destruct (step_event fin s e) as [s1|] eqn:E; auto.
    exact (IH _ (step_event_P _ _ _ _ _ E Ke HS) (fun e0 H0 => HE e0 (or_intror H0))).
Qed.

Lemma lookup_usable : forall s x l0, lookup s x = Some l0 ->
  exists u s1, used s x = Some u /\ use_leaf s x = Some s1.
Proof.
  intros s x l0 H. destruct (lookup_cases _ _ _ H) as [[_ [A B]] | [_ [_ [_ [A B]]]]]; eauto.
Qed.

Lemma typed_use_tail : forall s l r s1, use_leaf s (l_id l) = Some s1 -> typed_use s (l :: r) -> typed_use s1 r.
Proof.
  intros s l r s1 Hs1 HT l' Hl'. destruct (HT l' (or_intror Hl')) as [l1 [A B]]. exists l1.
  rewrite (lookup_use_leaf _ _ _ Hs1). auto.
Qed.

Lemma use_leaves_no_crash : forall ls s, typed_use s ls -> use_leaves s ls <> Err ErrCrash.
Proof.
  induction ls as [|l r IH]; intros s HT; simpl; [discriminate|].
  destruct (HT l (or_introl eq_refl)) as [l0 [Hlk _]].
  destruct (lookup_usable s _ l0 Hlk) as [u [s1 [A B]]]. rewrite A, B.
  destruct (u && negb (is_copy (l_kind l))); [discriminate|]. apply IH.
  exact (typed_use_tail _ _ _ _ B HT).
Qed.

Lemma assign_checked_no_crash : forall ls s, assign_leaves_checked s ls <> Err ErrCrash.
Proof.
  induction ls as [|l r IH]; intros s; simpl; [discriminate|].
  match goal with |- (if ?b then _ else _) <> _ => destruct b end; [discriminate | apply IH].
Qed.

Lemma run_events_no_crash : forall es s, typed_run fin s es -> run_events fin s es <> Err ErrCrash.
Proof.
  induction es as [|e r IH]; intros s HT; simpl in *; [discriminate|].
  destruct HT as [HTe HTr]. destruct (step_event fin s e) as [s1|e1] eqn:E; [apply IH; exact HTr|].
  intros Hc. inversion Hc; subst e1. clear Hc.
  destruct e as [p k | p | p | p | e]; simpl in *.
  - destruct (p_inout p && negb (is_borrow k)); [discriminate|]. eapply use_leaves_no_crash; eauto.
  - destruct (match find_leaf (p_id p) (s_vars s) with Some l0 => l_inout l0 | None => false end); [discriminate|].
    eapply assign_checked_no_crash; eauto.
  - destruct (input_is_borrowed fin (p_id p)); discriminate.
  - discriminate.
  - inversion E. congruence.
Qed.

(* the block took the token that came in ([None] does not arise: what is read through the input scope is in it) *)
Definition taken (s : scope) (x : nat) : bool :=
  memb x (s_pul s) &&
  match find_leaf x (s_pvars s) with Some l0 => negb (is_copy (l_kind l0)) | None => true end.

(* [t0]: the state in which the block was entered *)
Definition tracks (t0 : gstate) (s : scope) (t : gstate) : Prop :=
  forall x,
    match find_leaf x (s_vars s) with
    | Some l0 => t x = if memb x (s_ul s) then KCopy else l_kind l0
    | None => t x = if taken s x then KCopy else t0 x
    end.

Lemma assign_leaf_tracks : forall t0 s t l, tracks t0 s t -> tracks t0 (assign_leaf s l) (gupd t (l_id l) (l_kind l)).
Proof.
  intros t0 s t l HR y. specialize (HR y). cbn [assign_leaf s_vars s_ul].
  change (taken (assign_leaf s l) y) with (taken s y).
  rewrite find_leaf_cons. unfold gupd. destruct (Nat.eqb (l_id l) y) eqn:E.
  - apply Nat.eqb_eq in E. subst y. rewrite Nat.eqb_refl, memb_remove_id, Nat.eqb_refl, andb_false_r. reflexivity.
  - apply Nat.eqb_neq in E. assert (E' : Nat.eqb y (l_id l) = false) by (apply Nat.eqb_neq; auto).
    rewrite E', find_leaf_remove by auto. rewrite memb_remove_id, E'. simpl. rewrite andb_true_r. exact HR.
Qed.

Lemma assign_leaves_tracks : forall ls t0 s t, tracks t0 s t -> tracks t0 (assign_leaves s ls) (gsem_fill t ls).
Proof.
  unfold assign_leaves. induction ls as [|l r IH]; intros t0 s t HR; simpl; auto.
  apply IH. apply assign_leaf_tracks. exact HR.
Qed.

Lemma init_tracks : forall e row t, tracks t (init_scope e row) (if e then gsem_fill t (flat_map leaves row) else t).
Proof.
  intros [] row t.
  - rewrite init_scope_entry. apply assign_leaves_tracks. intros x. reflexivity.
  - intros x. reflexivity.
Qed.

Lemma tracks_bound : forall t0 s t x l0, tracks t0 s t -> lookup s x = Some l0 ->
  exists u, used s x = Some u /\
    t x = if u && negb (is_copy (l_kind l0)) then KCopy
          else match find_leaf x (s_vars s) with Some _ => l_kind l0 | None => t0 x end.
Proof.
  intros t0 s t x l0 HR Hlk. specialize (HR x). unfold taken in HR.
  destruct (lookup_cases _ _ _ Hlk) as [[Hv [Hu _]] | [Hv [_ [Hp [Hu _]]]]]; rewrite Hv in *; [|rewrite Hp in HR];
    eexists; (split; [exact Hu|]); [|exact HR].
  rewrite HR. destruct (memb x (s_ul s)); [|reflexivity]. simpl.
  destruct (is_copy (l_kind l0)) eqn:C; [symmetry; apply copy_kind, C | reflexivity].
Qed.

Lemma used_true_empty : forall t0 s t x l0, tracks t0 s t -> lookup s x = Some l0 -> used s x = Some true ->
  is_copy (l_kind l0) = false -> t x = KCopy.
Proof.
  intros t0 s t x l0 HR Hlk Hu Hc. destruct (tracks_bound _ _ _ _ _ HR Hlk) as [u [Hu' E]]. rewrite Hu in Hu'.
  inversion Hu'; subst u. rewrite E, Hc. reflexivity.
Qed.

Lemma use_leaf_tracks : forall t0 s t x l0 s1, lookup s x = Some l0 -> use_leaf s x = Some s1 -> tracks t0 s t ->
  tracks t0 s1 (if is_copy (l_kind l0) then t else gupd t x KCopy).
Proof.
  intros t0 s t x l0 s1 Hlk Hs1 HR y. pose proof (HR y) as HRy. unfold taken in *.
  destruct (lookup_cases _ _ _ Hlk) as [[Hv [_ E]] | [Hv [_ [Hp [_ E]]]]]; rewrite E in Hs1; inversion Hs1; subst s1;
    cbn [s_vars s_ul s_pul s_pvars]; rewrite memb_cons; destruct (Nat.eqb y x) eqn:Ey.
  - apply Nat.eqb_eq in Ey. subst y. rewrite Hv in *. simpl. destruct (is_copy (l_kind l0)) eqn:C.
    + rewrite HRy. destruct (memb x (s_ul s)); [reflexivity | apply copy_kind, C].
    + unfold gupd. rewrite Nat.eqb_refl. reflexivity.
  - simpl. destruct (is_copy (l_kind l0)); [exact HRy|]. unfold gupd. rewrite Ey. exact HRy.
  - apply Nat.eqb_eq in Ey. subst y. rewrite Hv, Hp in *. simpl. destruct (is_copy (l_kind l0)); simpl.
    + rewrite andb_false_r in HRy. exact HRy.
    + unfold gupd. rewrite Nat.eqb_refl. reflexivity.
  - simpl. destruct (is_copy (l_kind l0)); [exact HRy|]. unfold gupd. rewrite Ey. exact HRy.
Qed.

(* what the block has asked of [t0] so far: a place read through the input scope held a token or none as the row
   says, a place bound held no linear token unless read first.  Tested not here but by the two dataflow loops. *)
Definition fits (t0 : gstate) (s : scope) : Prop :=
  (forall x l0, In x (s_pul s) -> find_leaf x (s_pvars s) = Some l0 -> is_copy (t0 x) = is_copy (l_kind l0)) /\
  (forall x, t0 x = KLinear -> has_leaf x (s_vars s) = true -> In x (s_pul s)).

Lemma fits_ext : forall t0 s s', ext s s' -> fits t0 s' -> fits t0 s.
Proof.
  intros t0 s s' [E1 [E2 [E3 [_ E5]]]] [HU HD]. split.
  - intros x l0 Hx Hf. rewrite <- E5 in Hf. exact (HU x l0 (E3 x Hx) Hf).
  - intros x Tx Hv. destruct (E2 x (HD x Tx (E1 x Hv))) as [H | H]; [exact H | congruence].
Qed.

Lemma fits_assign : forall t0 s l,
  fits t0 (assign_leaf s l) <-> fits t0 s /\ (t0 (l_id l) = KLinear -> In (l_id l) (s_pul s)).
Proof.
  intros t0 s l. assert (Hnew : has_leaf (l_id l) (s_vars (assign_leaf s l)) = true)
    by (simpl; rewrite has_leaf_cons, Nat.eqb_refl; reflexivity).
  split.
  - intros F. split; [exact (fits_ext _ _ _ (assign_leaf_ext s l) F)|]. intros Tx. exact (proj2 F _ Tx Hnew).
  - intros [[HU HD] Hx]. split; [exact HU|]. intros y Ty Hy. simpl in Hy |- *. rewrite has_leaf_cons in Hy.
    destruct (Nat.eqb (l_id l) y) eqn:E; [apply Nat.eqb_eq in E; subst y; exact (Hx Ty)|].
    simpl in Hy. rewrite has_leaf_remove in Hy by (apply Nat.eqb_neq in E; auto). exact (HD y Ty Hy).
Qed.

Lemma fits_read : forall t0 s x l0, find_leaf x (s_vars s) = None -> find_leaf x (s_pvars s) = Some l0 ->
  fits t0 (mkScope false (s_vars s) (s_ul s) (x :: s_up s) (s_pvars s) (x :: s_pul s)) <->
  fits t0 s /\ is_copy (t0 x) = is_copy (l_kind l0).
Proof.
  intros t0 s x l0 Hv Hp. split.
  - intros [HU HD]. split; [|apply HU; simpl; auto]. split.
    + intros y ly Hy. apply HU. simpl. auto.
    + intros y Ty Hy. destruct (HD y Ty Hy) as [<- | H]; [|exact H]. rewrite has_leaf_unfold, Hv in Hy. discriminate.
  - intros [[HU HD] Hx]. split.
    + intros y ly [<- | Hy] Hf; [|exact (HU y ly Hy Hf)]. simpl in Hf. congruence.
    + intros y Ty Hy. right. exact (HD y Ty Hy).
Qed.

Lemma tracks_unbound : forall t0 s t x, tracks t0 s t -> fits t0 s -> find_leaf x (s_vars s) = None ->
  t x = if memb x (s_pul s) then KCopy else t0 x.
Proof.
  intros t0 s t x HR [HU _] Hv. specialize (HR x). rewrite Hv in HR. unfold taken in HR. rewrite HR.
  destruct (memb x (s_pul s)) eqn:Hm; [|reflexivity]. simpl.
  destruct (find_leaf x (s_pvars s)) as [l0|] eqn:Hp; [|reflexivity].
  destruct (is_copy (l_kind l0)) eqn:Hc; [|reflexivity]. simpl. apply copy_kind.
  rewrite (HU x l0 (proj1 (memb_In _ _) Hm) Hp). exact Hc.
Qed.

(* a place that the input row has at a copyable kind came in without a token *)
Definition GHcopy (t0 : gstate) (sf : scope) : Prop :=
  forall x l0, find_leaf x (s_pvars sf) = Some l0 -> is_copy (l_kind l0) = true -> t0 x = KCopy.

Lemma use_leaf_fits : forall t0 s t x l0 u s1, tracks t0 s t -> lookup s x = Some l0 -> used s x = Some u ->
  u && negb (is_copy (l_kind l0)) = false -> use_leaf s x = Some s1 ->
  if is_copy (l_kind l0) || negb (is_copy (t x)) then GHcopy t0 s -> fits t0 s -> fits t0 s1 else ~ fits t0 s1.
Proof.
  intros t0 s t x l0 u s1 HR Hlk Hu Hbad Hs1.
  destruct (tracks_bound _ _ _ _ _ HR Hlk) as [u' [Hu' Et]]. rewrite Hu in Hu'. inversion Hu'; subst u'. rewrite Hbad in Et.
  destruct (lookup_cases _ _ _ Hlk) as [[Hv [_ E]] | [Hv [_ [Hp [_ E]]]]]; rewrite E in Hs1; inversion Hs1; subst s1;
    rewrite Hv in Et.
  - replace (is_copy (l_kind l0) || negb (is_copy (t x))) with true; [exact (fun _ F => F)|].
    rewrite Et. destruct (is_copy (l_kind l0)); reflexivity.
  - pose proof (fits_read t0 s x l0 Hv Hp) as FR. rewrite Et. destruct (is_copy (l_kind l0)) eqn:Hc; simpl.
    + intros HC F. apply FR. split; [exact F|]. rewrite (HC x l0 Hp Hc). reflexivity.
    + destruct (is_copy (t0 x)); simpl; [intros F; apply FR in F; destruct F; discriminate | intros _ F; apply FR; auto].
Qed.

Lemma assign_leaf_fits : forall t0 s t l, tracks t0 s t ->
  let bad := match find_leaf (l_id l) (s_vars s) with
             | Some old => negb (memb (l_id l) (s_ul s)) && is_linear (l_kind old)
             | None => false
             end in
  if is_linear (t (l_id l)) then bad = false -> ~ fits t0 (assign_leaf s l)
  else bad = false /\ (fits t0 s -> fits t0 (assign_leaf s l)).
Proof.
  intros t0 s t l HR. pose proof (HR (l_id l)) as HRx. pose proof (fits_assign t0 s l) as FA.
  destruct (find_leaf (l_id l) (s_vars s)) as [old|] eqn:Hv; simpl.
  - (* bound here: the checker's test is the test of the semantics *)
    replace (negb (memb (l_id l) (s_ul s)) && is_linear (l_kind old)) with (is_linear (t (l_id l)))
      by (rewrite HRx; destruct (memb (l_id l) (s_ul s)); reflexivity).
    destruct (is_linear (t (l_id l))); [discriminate|]. split; [reflexivity|].
    intros F. apply FA. split; [exact F|]. intros Tx. apply (proj2 F _ Tx). rewrite has_leaf_unfold, Hv. reflexivity.
  - (* not bound here: a linear token is one that came in and was not taken *)
    unfold taken in HRx. destruct (is_linear (t (l_id l))) eqn:Hl.
    + intros _ F. apply FA in F. destruct F as [[HU _] Hx]. rewrite HRx in Hl.
      destruct (memb (l_id l) (s_pul s)) eqn:Hm; simpl in Hl.
      * destruct (find_leaf (l_id l) (s_pvars s)) as [l0|] eqn:Hp; [|discriminate].
        pose proof (HU _ l0 (proj1 (memb_In _ _) Hm) Hp) as E. destruct (is_copy (l_kind l0)); [|discriminate].
        destruct (t0 (l_id l)); discriminate.
      * assert (Tx : t0 (l_id l) = KLinear) by (destruct (t0 (l_id l)); simpl in Hl; congruence).
        apply Hx, memb_In in Tx. congruence.
    + split; [reflexivity|]. intros F. apply FA. split; [exact F|]. intros Tx. rewrite HRx, Tx in Hl.
      destruct (memb (l_id l) (s_pul s)) eqn:Hm; [apply memb_In; exact Hm | discriminate].
Qed.

(* The tables.  The checker stops alone only by crashing (or by its scope-based test of [EAssign]); it goes on
   alone only where [t0] does not fit.  Where both go on, [fits] is kept -- given [GHcopy], because the semantics
   does not look at a place that is read at a copyable kind. *)
Lemma use_leaves_table : forall ls t0 s t, kinded_use s ls -> tracks t0 s t ->
  match use_leaves s ls, gsem_use t ls with
  | Ok s', GFine t' => tracks t0 s' t' /\ (GHcopy t0 s -> fits t0 s -> fits t0 s')
  | Ok s', GBad _ => ~ fits t0 s'
  | Err e, GFine _ => e = ErrCrash
  | Err _, GBad _ => True
  end.
Proof.
  induction ls as [|l r IH]; intros t0 s t HT HR; simpl; [auto|].
  destruct (used s (l_id l)) as [u|] eqn:Hu; [|destruct (if is_copy (l_kind l) then _ else _); auto].
  destruct (used_bound _ _ _ Hu) as [l0 Hlk]. pose proof (HT l l0 (or_introl eq_refl) Hlk) as Hk. rewrite <- Hk.
  destruct (u && negb (is_copy (l_kind l0))) eqn:Hbad.
  { apply andb_true_iff in Hbad. destruct Hbad as [-> Hc]. apply negb_true_iff in Hc.
    rewrite Hc, (used_true_empty _ _ _ _ _ HR Hlk Hu Hc). exact I. }
  destruct (use_leaf s (l_id l)) as [s1|] eqn:Hs1; [|destruct (if is_copy (l_kind l0) then _ else _); auto].
  pose proof (use_leaf_fits _ _ _ _ _ _ _ HR Hlk Hu Hbad Hs1) as Hfit.
  specialize (IH t0 s1 _ (kinded_use_tail _ _ _ _ Hs1 HT) (use_leaf_tracks t0 s t _ l0 s1 Hlk Hs1 HR)).
  assert (HC1 : GHcopy t0 s -> GHcopy t0 s1)
    by (unfold GHcopy; rewrite (proj2 (proj2 (proj2 (proj2 (use_leaf_ext _ _ _ Hs1))))); auto).
  destruct (is_copy (l_kind l0)); [|destruct (is_copy (t (l_id l)))]; simpl in Hfit.
  - destruct (use_leaves s1 r), (gsem_use t r); auto. destruct IH as [A B]. auto.
  - destruct (use_leaves s1 r) as [s'|] eqn:Hrun; [|exact I].
    intros F. exact (Hfit (fits_ext _ _ _ (use_leaves_ext _ _ _ Hrun) F)).
  - destruct (use_leaves s1 r), (gsem_use _ r); auto. destruct IH as [A B]. auto.
Qed.

Lemma assign_checked_table : forall ls t0 s t, tracks t0 s t ->
  match assign_leaves_checked s ls, gsem_assign t ls with
  | Ok s', GFine t' => tracks t0 s' t' /\ (fits t0 s -> fits t0 s')
  | Ok s', GBad _ => ~ fits t0 s'
  | Err _, GFine _ => False
  | Err _, GBad _ => True
  end.
Proof.
  induction ls as [|l r IH]; intros t0 s t HR; simpl; [auto|].
  pose proof (assign_leaf_fits t0 s t l HR) as Hfit. cbv zeta in Hfit.
  specialize (IH t0 (assign_leaf s l) _ (assign_leaf_tracks _ _ _ l HR)).
  destruct (is_linear (t (l_id l))).
  - match goal with |- match (if ?b then _ else _) with _ => _ end => destruct b end; [exact I|].
    destruct (assign_leaves_checked _ r) as [s'|] eqn:Hrun; [|exact I].
    intros F. exact (Hfit eq_refl (fits_ext _ _ _ (assign_checked_ext _ _ _ Hrun) F)).
  - destruct Hfit as [-> Hfit]. destruct (assign_leaves_checked _ r), (gsem_assign _ r); auto. destruct IH as [A B]. auto.
Qed.

(* [reassign_wf] read on scopes *)
Definition marked (s : scope) (x : nat) : Prop := has_leaf x (s_vars s) = true \/ In x (s_pul s).
Definition handback_ok (s : scope) (e : event) : Prop :=
  match e with EReassign p => forall l, In l (leaves (p_tree p)) -> marked s (l_id l) | _ => True end.
Fixpoint handback_run (s : scope) (es : list event) : Prop :=
  match es with
  | [] => True
  | e :: r => handback_ok s e /\
              match step_event fin s e with Ok s' => handback_run s' r | Err _ => True end
  end.

Lemma marked_ext : forall s s' x, ext s s' -> marked s x -> marked s' x.
Proof. intros s s' x [E1 [_ [E3 _]]] [H | H]; [left; exact (E1 _ H) | right; exact (E3 _ H)]. Qed.

Lemma reassign_wf_handback : forall es B s, reassign_wf B es -> (forall y, In y B -> marked s y) -> handback_run s es.
Proof.
  induction es as [|e r IH]; intros B s HB Hm; simpl; [exact I|].
  destruct (step_event fin s e) as [s1|] eqn:E.
  2:{ split; [|exact I]. destruct e as [p k | p | p | p | e]; simpl in *; auto. intros l Hl. apply Hm, HB, Hl. }
  assert (Hm1 : forall y, In y B -> marked s1 y)
    by (intros y Hy; exact (marked_ext _ _ _ (step_event_ext _ _ _ _ E) (Hm y Hy))).
  destruct e as [p k | p | p | p | e]; simpl in HB |- *; try (split; [exact I | exact (IH B s1 HB Hm1)]).
  - split; [exact I|]. destruct k; try exact (IH B s1 HB Hm1). apply (IH _ s1 HB).
    intros y Hy. apply in_app_or in Hy. destruct Hy as [Hy | Hy]; [|exact (Hm1 y Hy)].
    apply in_map_iff in Hy. destruct Hy as [l [<- Hl]]. simpl in E. rewrite andb_false_r in E.
    exact (use_leaves_marks _ _ _ E l Hl).
  - destruct HB as [HB1 HB2]. split; [intros l Hl; exact (Hm _ (HB1 l Hl)) | exact (IH B s1 HB2 Hm1)].
Qed.

Lemma fits_handback : forall t0 ls s, (forall l, In l ls -> marked s (l_id l)) -> fits t0 s -> fits t0 (assign_leaves s ls).
Proof.
  unfold assign_leaves. induction ls as [|l r IH]; intros s Hm F; simpl; [exact F|]. apply IH.
  - intros l' Hl'. exact (marked_ext _ _ _ (assign_leaf_ext s l) (Hm l' (or_intror Hl'))).
  - apply fits_assign. split; [exact F|]. intros Tx.
    destruct (Hm l (or_introl eq_refl)) as [H | H]; [exact (proj2 F _ Tx H) | exact H].
Qed.

Definition shadows (s : scope) (e : event) : Prop :=
  match e with
  | EAssign p => exists l0, find_leaf (p_id p) (s_vars s) = Some l0 /\ l_inout l0 = true
  | _ => False
  end.

Lemma step_event_table : forall e t0 s t, kinded_event s e -> tracks t0 s t ->
  match step_event fin s e, gsem_event fin t e with
  | Ok s', GFine t' => tracks t0 s' t' /\ (GHcopy t0 s -> handback_ok s e -> fits t0 s -> fits t0 s')
  | Ok s', GBad _ => ~ fits t0 s'
  | Err er, GFine _ => er = ErrCrash \/ shadows s e
  | Err _, GBad _ => True
  end.
Proof.
  intros e t0 s t HT HR. destruct e as [p k | p | p | p | e]; simpl in *.
  - destruct (p_inout p && negb (is_borrow k)); [exact I|].
    pose proof (use_leaves_table _ t0 s t HT HR) as T.
    destruct (use_leaves s (leaves (p_tree p))), (gsem_use t (leaves (p_tree p))); auto. destruct T as [A B]. auto.
  - pose proof (assign_checked_table (leaves (p_tree p)) t0 s t HR) as T.
    destruct (find_leaf (p_id p) (s_vars s)) as [l0|]; [destruct (l_inout l0) eqn:Hio|].
    + destruct (gsem_assign t (leaves (p_tree p))); eauto.
    + destruct (assign_leaves_checked s (leaves (p_tree p))), (gsem_assign t (leaves (p_tree p))); auto; [|destruct T].
      destruct T as [A B]. auto.
    + destruct (assign_leaves_checked s (leaves (p_tree p))), (gsem_assign t (leaves (p_tree p))); auto; [|destruct T].
      destruct T as [A B]. auto.
  - destruct (input_is_borrowed fin (p_id p)); auto.
  - split; [apply assign_leaves_tracks; exact HR|]. intros _ Hm F. exact (fits_handback t0 _ s Hm F).
  - exact I.
Qed.

Lemma gshadow_bad : forall r p', In (EShadow p') r -> input_is_borrowed fin (p_id p') = true ->
  forall t, exists v, gsem_events fin t r = GBad v.
Proof.
  induction r as [|e r IH]; intros p' Hin Hb t; [destruct Hin|]. simpl.
  destruct Hin as [E | Hin].
  - subst e. simpl. rewrite Hb. eauto.
  - destruct (gsem_event fin t e); [eapply IH; eauto | eauto].
Qed.

(* with [fits_ext], rows 1-2: where the checker goes on, the semantics goes on exactly from the states that fit *)
Lemma run_events_table : forall es t0 s t, kinded_run s es -> tracks t0 s t ->
  match run_events fin s es, gsem_events fin t es with
  | Ok sf, GFine t' => tracks t0 sf t' /\ (GHcopy t0 s -> handback_run s es -> fits t0 s -> fits t0 sf)
  | Ok sf, GBad _ => ~ fits t0 sf
  | Err e, GFine _ => eventsIO fin es -> shadow_wf es -> scopeIO fin s -> e = ErrCrash
  | Err _, GBad _ => True
  end.
Proof.
  induction es as [|e r IH]; intros t0 s t HT HR; simpl in *; [auto|]. destruct HT as [HTe HTr].
  pose proof (step_event_table e t0 s t HTe HR) as T.
  destruct (step_event fin s e) as [s1|er] eqn:E.
  - destruct (gsem_event fin t e) as [t1|].
    + destruct T as [HR1 F1]. specialize (IH t0 s1 t1 HTr HR1).
      destruct (run_events fin s1 r) as [sf|] eqn:Hrun, (gsem_events fin t1 r); auto.
      * destruct IH as [A B]. split; [exact A|]. intros HC [Hb Hbr] F. apply B; auto.
        unfold GHcopy. rewrite (step_event_pvars _ _ _ _ E). exact HC.
      * intros HIO [_ HW] HI. apply IH; auto; [intros e' H; apply HIO; simpl; auto|].
        exact (step_event_P _ fin e s s1 E (HIO e (or_introl eq_refl)) HI).
    + destruct (run_events fin s1 r) as [sf|] eqn:Hrun; [|exact I].
      intros F. exact (T (fits_ext _ _ _ (run_events_ext _ _ _ _ Hrun) F)).
  - destruct (gsem_event fin t e) as [t1|]; [|exact I].
    destruct (gsem_events fin t1 r) eqn:Hs; [|exact I]. intros HIO [HWe _] HI. destruct T as [T | T]; [exact T|]. exfalso.
    (* the scope-based shadow test: the violation is the later [EShadow] *)
    destruct e as [p k | p | p | p | e]; try contradiction. destruct T as [l0 [Hf Hio]].
    destruct (find_leaf_some _ _ _ Hf) as [Hin Hid]. destruct HWe as [p' [Hp' Hid']].
    destruct (gshadow_bad r p' Hp') with (t := t1) as [v Hv]; [|congruence].
    rewrite Hid', <- Hid. exact (proj1 HI l0 Hin Hio).
Qed.

Lemma gsem_events_app : forall a b t, gsem_events fin t (a ++ b) =
  match gsem_events fin t a with GFine t' => gsem_events fin t' b | GBad v => GBad v end.
Proof.
  induction a as [|e r IH]; intros b t; simpl; auto.
  destruct (gsem_event fin t e); auto.
Qed.

Lemma gsem_events_prefix : forall es k t t', gsem_events fin t es = GFine t' ->
  exists t'', gsem_events fin t (firstn k es) = GFine t''.
Proof.
  intros es k t t' H. rewrite <- (firstn_skipn k es) in H. rewrite gsem_events_app in H.
  destruct (gsem_events fin t (firstn k es)); [eauto | discriminate].
Qed.

End BlockG.
