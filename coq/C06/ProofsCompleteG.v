(** Completeness: a rejection other than a crash is matched by a path that violates the [TokenG]
    discipline.  The argument uses kinds only, never that a place is bound: it serves for well-typed CFGs,
    where the crash is excluded too ([no_crash]), and for uniform kinds. *)
From Coq Require Import List Bool Arith Lia.
From V.C09 Require Import Analysis SetLemmas Spec.
From V.C06 Require Import Linearity Token TokenG Hyps ProofsBlock ProofsBlockG ProofsSound ProofsComplete.
Import ListNotations.

Lemma noncopy_kind : forall k, is_copy k = false -> k <> KCopy.
Proof. intros [] H; simpl in H; congruence. Qed.
Lemma is_copy_KCopy : is_copy KCopy = true. Proof. reflexivity. Qed.

(* a place of the row [pv] holds nothing or a value of the row's kind *)
Definition row_agrees (t0 : gstate) (pv : list leaf) : Prop :=
  forall x l, find_leaf x pv = Some l -> t0 x = KCopy \/ t0 x = l_kind l.

Lemma row_agrees_copy : forall t0 s, row_agrees t0 (s_pvars s) -> GHcopy t0 s.
Proof. intros t0 s H x l0 Hf Hc. destruct (H x l0 Hf) as [A | A]; auto. rewrite A. apply copy_kind. exact Hc. Qed.

(* every leaf of the list is the one [find_leaf] finds under its id: no id is bound by two leaves *)
Definition canon (ls : list leaf) : Prop := forall l, In l ls -> find_leaf (l_id l) ls = Some l.

Lemma canon_assign : forall s l, canon (s_vars s) -> canon (s_vars (assign_leaf s l)).
Proof.
  intros s l C l' [<- | Hl']; cbn [assign_leaf s_vars]; rewrite find_leaf_cons; [rewrite Nat.eqb_refl; reflexivity|].
  unfold remove_leaf in Hl'. apply filter_In in Hl'. destruct Hl' as [Hin Hne]. apply negb_true_iff in Hne.
  rewrite Nat.eqb_sym, Hne. apply Nat.eqb_neq in Hne. rewrite find_leaf_remove by exact Hne. exact (C l' Hin).
Qed.

Lemma canon_run : forall fin es s s', run_events fin s es = Ok s' -> canon (s_vars s) -> canon (s_vars s').
Proof.
  intros fin es s s' H. apply (run_events_keeps (fun s0 => canon (s_vars s0))) with (3 := H).
  - intros s0 x s1 Hs1 U. destruct (use_leaf_bound _ _ _ Hs1) as [l Hl].
    destruct (lookup_cases _ _ _ Hl) as [[_ [_ E]] | [_ [_ [_ [_ E]]]]]; rewrite E in Hs1; inversion Hs1; subst s1;
      exact U.
  - intros e s0 l _ _ U. apply canon_assign. exact U.
Qed.

Lemma canon_init : forall b row, canon (s_vars (init_scope b row)) /\ canon (s_pvars (init_scope b row)).
Proof.
  intros b row. assert (U : canon (s_vars (assign_leaves (mkScope true [] [] [] [] []) (flat_map leaves row)))).
  { apply (assign_leaves_keeps (fun s0 => canon (s_vars s0))); [|intros l []]. intros s0 l _. apply canon_assign. }
  unfold init_scope. destruct b; simpl; split; auto; intros l [].
Qed.

Section Paths.
Variable c : lcfg.

Definition gbad_walk : Prop :=
  exists rest k v, is_walk c (c_entry c) rest /\ grun_path c g_empty (c_entry c) rest k = GBad v.
Definition gbad_final : Prop :=
  exists rest k t, is_walk c (c_entry c) rest /\ last rest (c_entry c) = c_exit c /\
    grun_path c g_empty (c_entry c) rest k = GFine t /\ ~ gfinal_ok c t.
Definition gviolated : Prop := gbad_walk \/ gbad_final.

Lemma safe_not_gviolated :
  (forall rest k, is_walk c (c_entry c) rest -> exists t, grun_path c g_empty (c_entry c) rest k = GFine t) ->
  (forall rest k t, is_walk c (c_entry c) rest -> last rest (c_entry c) = c_exit c ->
     grun_path c g_empty (c_entry c) rest k = GFine t -> gfinal_ok c t) -> ~ gviolated.
Proof.
  intros S1 S2 [[rest [k [v [Hw Hb]]]] | [rest [k [t [Hw [Hl [Hf Hn]]]]]]].
  - destruct (S1 rest k Hw) as [t Ht]. congruence.
  - exact (Hn (S2 rest k t Hw Hl Hf)).
Qed.

End Paths.

Section Reached.
Variable c : lcfg.

Notation fin := (c_inputs c).
Notation evs b := (lb_events (nth_block c b)).
Notation succs b := (lb_succ (nth_block c b)).

(* [greachc b t]: some walk from the entry runs fine up to the start of [b] and arrives there with state [t]
   ([ProofsComplete.greach] asks for the walk only) *)
Inductive greachc : nat -> gstate -> Prop :=
| grc_entry : greachc (c_entry c) g_empty
| grc_step b t t' n : greachc b t ->
    gsem_events fin (gblock_start c b t) (evs b) = GFine t' -> In n (succs b) -> greachc n t'.

Lemma greachc_extend : forall b t, greachc b t -> forall suffix k o, is_walk c b suffix ->
  grun_path c t b suffix k = o ->
  exists rest, is_walk c (c_entry c) rest /\ grun_path c g_empty (c_entry c) rest k = o /\
               last rest (c_entry c) = last suffix b.
Proof.
  intros b t H. induction H as [|b t t' n Hr IH Hs Hn]; intros suffix k o Hw Hrun.
  - exists suffix. auto.
  - destruct (IH (n :: suffix) k o) as [rest [A [B C]]].
    + simpl. auto.
    + simpl. rewrite Hs. exact Hrun.
    + exists rest. split; auto. split; auto. rewrite C. apply last_cons_default.
Qed.

Lemma greachc_entry : wf_shape c -> forall b t, greachc b t -> b = c_entry c -> t = g_empty.
Proof.
  intros HW b t H E. destruct H as [|b t t' n Hr Hs Hn]; auto. subst n.
  destruct HW as [_ [_ [_ W]]]. exfalso. apply (W b). exact Hn.
Qed.

Hypothesis HV : ~ gviolated c.

Lemma reached_fine : forall b t, greachc b t -> exists t', gsem_events fin (gblock_start c b t) (evs b) = GFine t'.
Proof.
  intros b t Hr. destruct (gsem_events fin (gblock_start c b t) (evs b)) as [t'|v] eqn:Hs; [eauto|]. elim HV. left.
  destruct (greachc_extend b t Hr [] (length (evs b)) (GBad v) I) as [rest [A [B _]]].
  - simpl. rewrite firstn_all. exact Hs.
  - exists rest, (length (evs b)), v. auto.
Qed.

Lemma gwalk_reach : forall rest b t, greachc b t -> is_walk c b rest -> exists t', greachc (last rest b) t'.
Proof.
  induction rest as [|n r IH]; intros b t Hr Hw; [eauto|].
  destruct Hw as [Hn Hw]. rewrite last_cons_default. destruct (reached_fine b t Hr) as [t' E].
  exact (IH n t' (grc_step b t t' n Hr E Hn) Hw).
Qed.

Lemma greach_greachc : forall b, greach c b -> exists t, greachc b t.
Proof. intros b [rest [Hw Hl]]. rewrite <- Hl. exact (gwalk_reach rest (c_entry c) g_empty grc_entry Hw). Qed.

Lemma greachc_exit : wf_shape c -> forall t, greachc (c_exit c) t -> ~ ~ gfinal_ok c t.
Proof.
  intros HW t Hr Hf. elim HV. right. destruct (greachc_extend _ _ Hr [] 0 (GFine t) I) as [rest [A [B C]]].
  - simpl. unfold gblock_start. destruct HW as [_ [_ [Wn _]]].
    assert (Nat.eqb (c_exit c) (c_entry c) = false) by (apply Nat.eqb_neq; auto). rewrite H. reflexivity.
  - exists rest, 0, t. auto.
Qed.

End Reached.

(* the liveness of x at n, with the kind of the read *)
Inductive needs (c : lcfg) (ss : list scope) (x : nat) : nat -> Prop :=
| needs_use n : In x (s_up (nth_scope ss n)) ->
    (forall l, find_leaf x (row_leaves c n) = Some l -> is_copy (l_kind l) = false) -> needs c ss x n
| needs_step n m : ~ In x (map l_id (s_vars (nth_scope ss n))) -> In m (lb_succ (nth_block c n)) ->
    needs c ss x m -> needs c ss x n.

(* the path invariant: under [typed] it comes from the rows of the edges, under uniform kinds from the kinds *)
Definition paths_agree (c : lcfg) : Prop :=
  forall ss0 ss, phase1 c ss0 ss -> forall b t, greachc c b t -> row_agrees t (s_pvars (block_init c b)).
(* a live place that cannot be copied -- by its binding where the edge leaves, or by the row of the block -- is
   one that [needs] a token *)
Definition live_needs (c : lcfg) (ss : list scope) : Prop :=
  (forall b n x l0, b < length (c_blocks c) -> In n (lb_succ (nth_block c b)) ->
     live_on_path false (stats_cfg c ss) x n -> lookup (nth_scope ss b) x = Some l0 ->
     is_copy (l_kind l0) = false -> needs c ss x n) /\
  (forall b x l, b < length (c_blocks c) -> b <> c_entry c -> live_on_path false (stats_cfg c ss) x b ->
     find_leaf x (row_leaves c b) = Some l -> is_copy (l_kind l) = false -> needs c ss x b).

Lemma rej_used_inv : forall fx c ss L b xs, check_dataflow fx c ss L 0 (c_blocks c) = RejUsed b xs ->
  b < length (c_blocks c) /\ exists x n l, In n (lb_succ (nth_block c b)) /\ In x (getv L n) /\
    lookup (nth_scope ss b) x = Some l /\ used (nth_scope ss b) x = Some true /\ is_copy (l_kind l) = false.
Proof.
  intros fx c ss L b xs H. pose proof (check_dataflow_cases fx c ss L (c_blocks c) 0) as P. rewrite H in P.
  destruct (stops_at_top c b _ P) as [Hb [C1 Hne]]. split; [exact Hb|].
  destruct xs as [|x xs]; [congruence|]. exists x. exact (check1_cons _ _ _ _ _ C1).
Qed.

Lemma rej_unused_inv : forall fx c ss L b xs, check_dataflow fx c ss L 0 (c_blocks c) = RejUnused b xs ->
  b < length (c_blocks c) /\ exists x, In x (check2 fx (nth_scope ss b) L b (lb_succ (nth_block c b))).
Proof.
  intros fx c ss L b xs H. pose proof (check_dataflow_cases fx c ss L (c_blocks c) 0) as P. rewrite H in P.
  destruct (stops_at_top c b _ P) as [Hb [_ [C2 Hne]]]. split; [exact Hb|].
  destruct xs as [|x xs]; [congruence|]. exists x. rewrite C2. simpl. auto.
Qed.

Lemma pvars_row : forall c ss0 ss, phase1 c ss0 ss -> forall b, b < length (c_blocks c) -> b <> c_exit c ->
  b <> c_entry c -> s_pvars (nth_scope ss b) = row_leaves c b.
Proof.
  intros c ss0 ss P1 b Hb Hex Hne. rewrite (proj2 (ph_scope P1 b Hb Hex)).
  apply Nat.eqb_neq in Hne. rewrite Hne. reflexivity.
Qed.

Section GlobalG.
Variable c : lcfg.
Hypothesis HW : wf_shape c.
Hypothesis HIO : io_ok c.
Hypothesis HEV : events_wf c.
Hypothesis HKd : kinded c.
Hypothesis HAg : paths_agree c.
Hypothesis HXk : exit_row_kinded c.
Hypothesis HV : ~ gviolated c.

Notation fin := (c_inputs c).
Notation N := (length (c_blocks c)).
Notation evs b := (lb_events (nth_block c b)).
Notation succs b := (lb_succ (nth_block c b)).

Lemma fits_init : forall b t, greachc c b t -> fits t (block_init c b).
Proof.
  intros b t Hr. unfold block_init.
  destruct (init_scope_fields (Nat.eqb b (c_entry c)) (lb_in (nth_block c b))) as [_ [_ [_ [P [_ Fn]]]]].
  split; [rewrite P; intros x l0 []|]. intros x Tx Hv. destruct (Nat.eqb b (c_entry c)) eqn:Ee.
  - apply Nat.eqb_eq in Ee. rewrite (greachc_entry c HW b t Hr Ee) in Tx. discriminate.
  - rewrite (Fn eq_refl) in Hv. discriminate.
Qed.

Lemma cg_run : forall b t, b < N -> greachc c b t ->
  match run_events fin (block_init c b) (evs b) with
  | Ok sf => exists t', gsem_events fin (gblock_start c b t) (evs b) = GFine t' /\ tracks t sf t' /\
              (row_agrees t (s_pvars (block_init c b)) -> fits t sf)
  | Err e => e = ErrCrash
  end.
Proof.
  intros b t Hb Hr.
  pose proof (run_events_table fin (evs b) t _ (gblock_start c b t) (HKd b Hb) (init_tracks _ _ t)) as T.
  destruct (reached_fine c HV b t Hr) as [t' E]. rewrite E in T.
  destruct (blockIO c HIO b) as [II IE]. destruct (HEV _ (nth_In _ (mkLB [] [] []) Hb)) as [HS HB].
  destruct (run_events fin (block_init c b) (evs b)) as [sf|e].
  - destruct T as [HR F]. exists t'. split; [exact E|]. split; [exact HR|]. intros HA. apply F.
    + exact (row_agrees_copy t _ HA).
    + apply (reassign_wf_handback fin _ [] _ HB). intros y [].
    + exact (fits_init b t Hr).
  - exact (T IE HS (init_scope_P _ _ _ II)).
Qed.

Theorem complete_blocksG : forall b e, check_blocks fin (c_entry c) 0 (c_blocks c) = inr (b, e) -> greach c b ->
  e = ErrCrash.
Proof.
  intros b e H Hg. destruct (check_blocks_err c b e H) as [Hb C]. destruct (greach_greachc c HV b Hg) as [t Hr].
  pose proof (cg_run b t Hb Hr) as T. unfold check_block in C. fold (block_init c b) in C. rewrite C in T. exact T.
Qed.

Variable sched : list nat.
Variables ss0 ss : list scope.
Hypothesis P1 : phase1 c ss0 ss.
Hypothesis HER : c_exit_reachable c = true.
Notation L := (live_of c ss sched).

Lemma cg_block : forall b t, b < N -> b <> c_exit c -> greachc c b t ->
  exists t', tracks t (nth_scope ss b) t' /\ fits t (nth_scope ss b) /\
    forall n, In n (succs b) -> greachc c n t' /\ n < N.
Proof.
  intros b t Hb Hex Hr. pose proof (cg_run b t Hb Hr) as T.
  pose proof (HAg ss0 ss P1 b t Hr) as HA.
  unfold block_init in T, HA. rewrite (ph_run P1 b Hb Hex) in T. destruct T as [t' [E [HR F]]].
  exists t'. split; [exact HR|]. split; [exact (F HA)|].
  intros n Hn. exact (conj (grc_step c b t t' n Hr E Hn) (ph_succ_lt P1 b n Hb Hn)).
Qed.

(* with [leak_badG], the invariant [ProofsSound.GJ] at the configurations reached when no path violates the
   discipline: a place that [needs] a token holds one, a linear token sits in a live place *)
Lemma dead_token_badG : forall x n, needs c ss x n ->
  forall t, greachc c n t -> n < N -> t x <> KCopy.
Proof.
  intros x n Hl. induction Hl as [n Hu Hnc | n m Hd Hm Hl IH]; intros t Hr Hb Tx.
  - destruct (Nat.eq_dec n (c_exit c)) as [Hex | Hex].
    + subst n. apply (greachc_exit c HV HW t Hr). intros [F _].
      apply (ph_exit_up P1 HW) in Hu. unfold borrowed_ids in Hu. apply in_map_iff in Hu. destruct Hu as [lb [Eid Hlb]].
      destruct (has_leaf_find _ _ (ph_exit_row P1 HW lb Hlb)) as [l' Hf']. fold (row_leaves c (c_exit c)) in Hf'.
      assert (Hcb : is_copy (l_kind lb) = false).
      { rewrite <- (HXk lb l' Hlb Hf'). apply Hnc. rewrite <- Eid. exact Hf'. }
      pose proof (F lb Hlb Hcb) as Ft. rewrite Eid, Tx in Ft. rewrite <- Ft in Hcb. discriminate.
    + rewrite (proj1 (ph_reads P1 n Hb Hex)) in Hu.
      destruct (cg_block n t Hb Hex Hr) as [t' [_ [[FU _] _]]].
      (* the block read x through its input scope: that is its row, where x cannot be copied, and nothing came in *)
      destruct (has_leaf_find _ _ (proj2 (ph_reads P1 n Hb Hex) x Hu)) as [l0 Hf]. pose proof (FU x l0 Hu Hf) as E.
      rewrite (proj2 (ph_scope P1 n Hb Hex)) in Hf. destruct (Nat.eqb n (c_entry c)); [discriminate Hf|].
      rewrite Tx, (Hnc l0 Hf) in E. discriminate.
  - destruct (cg_block n t Hb (succ_not_exit c HW n m Hm) Hr) as [t' [HR [_ Hnext]]].
    apply (IH t' (proj1 (Hnext m Hm)) (proj2 (Hnext m Hm))).
    pose proof (HR x) as HRx. destruct (find_leaf x (s_vars (nth_scope ss n))) as [lv|] eqn:E.
    + exfalso. apply Hd. destruct (find_leaf_some _ _ _ E) as [A B]. apply in_map_iff. exists lv. auto.
    + rewrite HRx, Tx. destruct (taken (nth_scope ss n) x); reflexivity.
Qed.

Hypothesis Hn : live_needs c ss.
Hypothesis HG : forall b, b < N -> greach c b.

Theorem complete_usedG : forall fx b xs, check_dataflow fx c ss L 0 (c_blocks c) <> RejUsed b xs.
Proof.
  intros fx b xs H. destruct (rej_used_inv _ _ _ _ _ _ H) as [Hb [x [n [l0 [Hnn [Hxn [El [Eu Hp]]]]]]]].
  destruct (greach_greachc c HV b (HG b Hb)) as [t Hr].
  destruct (cg_block b t Hb (succ_not_exit c HW b n Hnn) Hr) as [t' [HR [_ Hnext]]]. destruct (Hnext n Hnn) as [Hr' Hn'].
  apply (dead_token_badG x n (proj1 Hn b n x l0 Hb Hnn (ph_live_path sched P1 HER n x Hn' Hxn) El Hp) t' Hr' Hn').
  exact (used_true_empty t _ t' x l0 HR El Eu Hp).
Qed.

Lemma leak_badG : forall x n, reaches_exit c n ->
  forall t, greachc c n t -> n < N -> t x = KLinear -> ~ In x (getv L n) -> False.
Proof.
  intros x n Hre. induction Hre as [|n m Hm Hre IH]; intros t Hr Hb Tx Hnl.
  - apply (greachc_exit c HV HW t Hr). intros [_ F].
    apply Hnl. apply (ph_live_eq sched P1 _ x (ph_exit_lt P1)). left. apply (ph_exit_up P1 HW). apply F. exact Tx.
  - destruct (ph_not_live sched P1 n x Hb Hnl) as [Hnu Hcase].
    pose proof (succ_not_exit c HW n m Hm) as Hex.
    destruct (cg_block n t Hb Hex Hr) as [t' [HR [[_ FD] Hnext]]].
    rewrite (proj1 (ph_reads P1 n Hb Hex)) in Hnu.
    (* x is not read here, so it is not bound here either: that would overwrite the token *)
    destruct Hcase as [Hc | Hc]; [elim (Hnu (FD x Tx Hc))|].
    apply (IH t' (proj1 (Hnext m Hm)) (proj2 (Hnext m Hm))); [|exact (Hc m Hm)].
    pose proof (HR x) as HRx. destruct (find_leaf x (s_vars (nth_scope ss n))) eqn:Hv.
    + elim Hnu. apply (FD x Tx). rewrite has_leaf_unfold, Hv. reflexivity.
    + unfold taken in HRx. apply memb_false in Hnu. rewrite HRx, Hnu. exact Tx.
Qed.

Lemma unused_entry : forall b t t' l, b < N -> b <> c_exit c -> greachc c b t -> tracks t (nth_scope ss b) t' ->
  In l (scope_entries true (nth_scope ss b)) -> l_kind l = KLinear ->
  used (nth_scope ss b) (l_id l) = Some false ->
  (memb (l_id l) (getv L b) || has_leaf (l_id l) (s_vars (nth_scope ss b))) = true ->
  t' (l_id l) = KLinear.
Proof.
  intros b t t' l Hb Hex Hr HR Hent Kl Hp3 Hp1. set (sf := nth_scope ss b) in *. set (x := l_id l) in *.
  pose proof (canon_run _ _ _ _ (ph_run P1 b Hb Hex) (proj1 (canon_init _ _))) as Uv. fold sf in Uv.
  pose proof (HR x) as HRx. unfold scope_entries in Hent. apply in_app_or in Hent. destruct Hent as [Hin | Hin].
  - pose proof (Uv l Hin) as Hv. fold x in Hv.
    rewrite (proj2 (lookup_vars _ _ _ Hv)) in Hp3. rewrite Hv in HRx.
    destruct (memb x (s_ul sf)); [discriminate|]. rewrite HRx. exact Kl.
  - apply filter_In in Hin. destruct Hin as [Hin Hsh]. fold x in Hsh. apply negb_true_iff in Hsh.
    rewrite Hsh, orb_false_r in Hp1. apply memb_In in Hp1.
    rewrite has_leaf_unfold in Hsh. destruct (find_leaf x (s_vars sf)) eqn:Hv; [discriminate|].
    destruct (used_bound _ _ _ Hp3) as [l1 Hlk].
    destruct (lookup_cases _ _ _ Hlk) as [[Hv' _] | [_ [He [_ [Hu _]]]]]; [congruence|].
    rewrite Hu in Hp3. destruct (memb x (s_pul sf)) eqn:Hm; [discriminate|]. unfold taken in HRx. rewrite HRx, Hm.
    assert (Hbe : b <> c_entry c) by (apply Nat.eqb_neq; rewrite <- (proj1 (ph_scope P1 b Hb Hex)); exact He).
    unfold sf in Hin. rewrite (pvars_row c ss0 ss P1 b Hb Hex Hbe) in Hin.
    pose proof (proj2 (canon_init false _) l Hin) as Hf. fold x in Hf.
    pose proof (HAg ss0 ss P1 b t Hr) as HA. unfold block_init in HA. rewrite (proj2 (Nat.eqb_neq _ _) Hbe) in HA.
    destruct (HA x l Hf) as [T | T]; [|rewrite T; exact Kl].
    assert (Hc : is_copy (l_kind l) = false) by (rewrite Kl; reflexivity).
    elim (dead_token_badG x b (proj2 Hn b x l Hb Hbe (ph_live_path sched P1 HER b x Hb Hp1) Hf Hc) t Hr Hb T).
Qed.

Hypothesis HEX : forall b, b < N -> reaches_exit c b.

Theorem complete_unusedG : forall b xs, check_dataflow true c ss L 0 (c_blocks c) <> RejUnused b xs.
Proof.
  intros b xs H. destruct (rej_unused_inv _ _ _ _ _ _ H) as [Hb [x Hx]].
  apply check2_In in Hx. destruct Hx as [l [Hid [Hent [Hp1 [Hp2 [Hp3 [n [Hnn Hnl]]]]]]]]. subst x.
  pose proof (succ_not_exit c HW b n Hnn) as Hex.
  destruct (greach_greachc c HV b (HG b Hb)) as [t Hr].
  destruct (cg_block b t Hb Hex Hr) as [t' [HR [_ Hnext]]]. destruct (Hnext n Hnn) as [Hr' Hn'].
  assert (Kl : l_kind l = KLinear) by (destruct (l_kind l); simpl in Hp2; congruence).
  exact (leak_badG (l_id l) n (HEX n Hn') t' Hr' Hn' (unused_entry b t t' l Hb Hex Hr HR Hent Kl Hp3 Hp1) Hnl).
Qed.

End GlobalG.

Lemma complete_or_crash : forall c sched, wf_shape c -> io_ok c -> events_wf c ->
  kinded c -> paths_agree c -> exit_row_kinded c ->
  (forall ss0 ss, phase1 c ss0 ss -> live_needs c ss) ->
  c_exit_reachable c = true -> all_reach c -> ~ gviolated c ->
  check_cfg true c sched = Accept \/ crashed (check_cfg true c sched).
Proof.
  intros c sched HW HIO HEV HKd HAg HXk HLn HER HR HV. unfold check_cfg.
  destruct (check_blocks (c_inputs c) (c_entry c) 0 (c_blocks c)) as [ss0 | [b e]] eqn:E1.
  - destruct (exit_used c ss0) as [ss|] eqn:E2; [|right; left; eauto].
    destruct (wf_cfg (stats_cfg c ss) && (c_exit c <? length (c_blocks c)) && (c_entry c <? length (c_blocks c))) eqn:E3;
      [|right; left; eauto].
    apply andb_true_iff in E3. destruct E3 as [E3 _]. apply andb_true_iff in E3. destruct E3 as [E3 E4].
    apply Nat.ltb_lt in E4. assert (P1 : phase1 c ss0 ss) by (repeat split; assumption).
    pose proof (HLn ss0 ss P1) as Hn.
    assert (HG : forall b0, b0 < length (c_blocks c) -> greach c b0) by (intros b0 Hb0; apply HR; exact Hb0).
    destruct (check_dataflow true c ss (live_of c ss sched) 0 (c_blocks c)) as [ | b e | b xs | b xs | b] eqn:E6.
    + left. reflexivity.
    + exfalso. pose proof (check_dataflow_cases true c ss (live_of c ss sched) (c_blocks c) 0) as P.
      rewrite E6 in P. exact P.
    + elim (complete_usedG c HW HIO HEV HKd HAg HXk HV sched ss0 ss P1 HER Hn HG true b xs E6).
    + apply (complete_unusedG c HW HIO HEV HKd HAg HXk HV sched ss0 ss P1 HER Hn HG) in E6; [destruct E6|].
      intros b0 Hb0. apply HR. exact Hb0.
    + right. left. eauto.
  - right. right. exists b. destruct (check_blocks_err c b e E1) as [Hb _].
    rewrite (complete_blocksG c HW HIO HEV HKd HV b e E1 (proj1 (HR b Hb))). reflexivity.
Qed.

Lemma use_all_ok : forall ls s, s_vars s = [] -> s_entry s = false ->
  (forall l, In l ls -> has_leaf (l_id l) (s_pvars s) = true) -> exists s', use_all s ls = Some s'.
Proof.
  induction ls as [|l r IH]; intros s Hv He Hin; simpl; [eauto|].
  unfold use_leaf. rewrite Hv. simpl. rewrite He, (Hin l (or_introl eq_refl)).
  apply IH; simpl; auto. intros l' Hl'. apply Hin. simpl. auto.
Qed.

Section NoCrash.
Variable fx : bool.
Variable c : lcfg.
Variable sched : list nat.
Hypothesis HW : wf_shape c.
Hypothesis HT : typed c.
Hypothesis HE : edges_ok c.
Hypothesis HX : exit_row_ok c.
Hypothesis HI : wf_idx c.
Hypothesis HER : c_exit_reachable c = true.

Notation fin := (c_inputs c).
Notation N := (length (c_blocks c)).

Lemma blocks_no_crash : forall b, check_blocks fin (c_entry c) 0 (c_blocks c) <> inr (b, ErrCrash).
Proof.
  intros b H. destruct (check_blocks_err c b _ H) as [Hb C].
  apply (run_events_no_crash fin _ _ (HT b Hb)). exact C.
Qed.

Section WithScopes.
Variables ss0 ss : list scope.
Hypothesis H1 : check_blocks fin (c_entry c) 0 (c_blocks c) = inl ss0.

Lemma exit_used_ok : exists ss', exit_used c ss0 = Some ss'.
Proof.
  destruct HI as [H5 [H4 _]].
  unfold exit_used. rewrite (exit_scope0 c ss0 HW H1 H4).
  destruct (use_all_ok (borrowed_leaves fin) (init_scope false (lb_in (nth_block c (c_exit c)))) eq_refl eq_refl) as [s' E].
  - intros l Hl. destruct (HX l Hl) as [l' [Hf _]]. unfold row_leaves in Hf.
    rewrite has_leaf_unfold, Hf. reflexivity.
  - rewrite E. eauto.
Qed.

Hypothesis H2 : exit_used c ss0 = Some ss.

Lemma stats_wf : wf_cfg (stats_cfg c ss) = true.
Proof.
  unfold wf_cfg. apply forallb_forall. intros bl Hbl. apply forallb_forall. intros s Hs.
  apply Nat.ltb_lt. rewrite (stats_nblocks c ss (len1 c ss0 ss H1 H2)).
  unfold stats_cfg in Hbl. apply in_map_iff in Hbl. destruct Hbl as [[blk sc] [E Hin]]. subst bl. simpl in Hs.
  rewrite app_nil_r in Hs. apply in_combine_l in Hin. destruct HI as [_ [_ W]]. eapply W; eauto.
Qed.

Notation L := (live_of c ss sched).

Let P1 : phase1 c ss0 ss := conj H1 (conj H2 (conj stats_wf (proj1 (proj2 HI)))).

Lemma row_back : forall n m x l', n < N -> n <> c_entry c -> In m (lb_succ (nth_block c n)) ->
  ~ In x (map l_id (s_vars (nth_scope ss n))) -> find_leaf x (row_leaves c m) = Some l' ->
  exists l, find_leaf x (row_leaves c n) = Some l /\ l_kind l = l_kind l'.
Proof.
  intros n m x l' Hb Hne Hm Hd Hf'. pose proof (succ_not_exit c HW n m Hm) as Hex.
  destruct (HE n m _ Hb Hm (ph_run P1 n Hb Hex) x l' Hf') as [l0 [Hlk Hk]].
  exists l0. split; [|exact Hk]. destruct (lookup_cases _ _ _ Hlk) as [[Hv _] | [_ [_ [Hp _]]]].
  - elim Hd. destruct (find_leaf_some _ _ _ Hv) as [A B]. apply in_map_iff. exists l0. auto.
  - rewrite <- (pvars_row c ss0 ss P1 n Hb Hex Hne). exact Hp.
Qed.

(* by [edges_ok], from the use backwards *)
Lemma live_in_row : forall n x, live_on_path false (stats_cfg c ss) x n -> n < N -> n <> c_entry c ->
  exists l, find_leaf x (row_leaves c n) = Some l /\ (is_copy (l_kind l) = false -> needs c ss x n).
Proof.
  intros n x Hl. pose proof (proj2 (proj2 HI)) as W. pose proof (ph_len P1) as Hlen.
  induction Hl as [n Hn Hu | n m Hn Hd Hm Hl IH]; intros Hb Hne.
  - rewrite (stats_blk c ss n Hlen Hb) in Hu. simpl in Hu.
    assert (Hrow : has_leaf x (row_leaves c n) = true).
    { destruct (Nat.eq_dec n (c_exit c)) as [Hex | Hex].
      - subst n. apply (ph_exit_up P1 HW) in Hu. unfold borrowed_ids in Hu.
        apply in_map_iff in Hu. destruct Hu as [l [A B]]. subst x. destruct (HX l B) as [l' [Hf _]].
        rewrite has_leaf_unfold, Hf. reflexivity.
      - rewrite (proj1 (ph_reads P1 n Hb Hex)) in Hu.
        rewrite <- (pvars_row c ss0 ss P1 n Hb Hex Hne). exact (proj2 (ph_reads P1 n Hb Hex) x Hu). }
    destruct (has_leaf_find _ _ Hrow) as [l Hf]. exists l. split; [exact Hf|]. intros Hc.
    apply needs_use; [exact Hu|]. intros l' Hf'. congruence.
  - unfold flow_succ in Hm. rewrite (stats_blk c ss n Hlen Hb) in Hd, Hm. simpl in Hd, Hm. rewrite app_nil_r in Hm.
    destruct (IH (W _ _ (nth_In _ _ Hb) Hm) (succ_not_entry c HW n m Hm)) as [l' [Hf' Hn']].
    destruct (row_back n m x l' Hb Hne Hm Hd Hf') as [l [Hf Hk]]. exists l. split; [exact Hf|].
    intros Hc. rewrite Hk in Hc. exact (needs_step c ss x n m Hd Hm (Hn' Hc)).
Qed.

Lemma live_row : forall n x, n < N -> n <> c_entry c -> In x (getv L n) -> has_leaf x (row_leaves c n) = true.
Proof.
  intros n x Hb Hne Hx. destruct (live_in_row n x (ph_live_path sched P1 HER n x Hb Hx) Hb Hne) as [l [Hf _]].
  rewrite has_leaf_unfold, Hf. reflexivity.
Qed.

Lemma dataflow_no_crash : forall b, check_dataflow fx c ss L 0 (c_blocks c) <> Crash b.
Proof.
  intros k H. pose proof (check_dataflow_cases fx c ss L (c_blocks c) 0) as P. rewrite H in P.
  destruct (stops_at_top c k _ P) as [Hk [C1 | C3]]; pose proof (proj2 (proj2 HI)) as W.
  - (* the first loop finds every live place: it is in the successor's row, hence bound here *)
    unfold check1 in C1.
    destruct (forallb (fun x => match lookup (nth_scope ss k) x with Some _ => true | None => false end)
                      (flat_map (getv L) (lb_succ (nth_block c k)))) eqn:E; [discriminate|].
    rewrite <- not_true_iff_false in E. apply E. clear E.
    apply forallb_forall. intros x Hx. apply in_flat_map in Hx. destruct Hx as [n [Hn Hx]].
    pose proof (live_row n x (W _ _ (nth_In _ _ Hk) Hn) (succ_not_entry c HW k n Hn) Hx) as Hrow.
    destruct (has_leaf_find _ _ Hrow) as [l Hf].
    destruct (HE k n _ Hk Hn (ph_run P1 k Hk (succ_not_exit c HW k n Hn)) x l Hf) as [l0 [Hlk _]].
    rewrite Hlk. reflexivity.
  - rewrite <- not_true_iff_false in C3. apply C3. unfold row_ok.
    destruct (Nat.eqb k (c_entry c)) eqn:Ee; [reflexivity|].
    destruct (Nat.eqb k (c_exit c)) eqn:Ex; [reflexivity|]. simpl.
    apply Nat.eqb_neq in Ee. apply Nat.eqb_neq in Ex.
    apply forallb_forall. intros x Hx. rewrite (pvars_row c ss0 ss P1 k Hk Ex Ee).
    apply live_row; auto.
Qed.

End WithScopes.

Theorem no_crash : ~ crashed (check_cfg fx c sched).
Proof.
  intros Hc. unfold check_cfg in Hc.
  destruct (check_blocks fin (c_entry c) 0 (c_blocks c)) as [ss0 | [b e]] eqn:E1.
  - destruct (exit_used_ok ss0 E1) as [ss E2]. rewrite E2 in Hc.
    pose proof (stats_wf ss0 ss E1 E2) as W. rewrite W in Hc.
    destruct HI as [H5 [H4 _]]. apply Nat.ltb_lt in H4. apply Nat.ltb_lt in H5. rewrite H4, H5 in Hc. simpl in Hc.
    destruct Hc as [[b Hc] | [b Hc]].
    + exact (dataflow_no_crash ss0 ss E1 E2 b Hc).
    + pose proof (check_dataflow_cases fx c ss (live_of c ss sched) (c_blocks c) 0) as P. rewrite Hc in P. exact P.
  - destruct Hc as [[b' Hc] | [b' Hc]]; [discriminate|]. inversion Hc; subst. eapply blocks_no_crash; eauto.
Qed.

End NoCrash.

Section Typed.
Variable c : lcfg.
Hypothesis HW : wf_shape c.
Hypothesis HT : typed c.
Hypothesis HE : edges_ok c.
Hypothesis HX : exit_row_ok c.
Hypothesis HI : wf_idx c.

Notation fin := (c_inputs c).
Notation N := (length (c_blocks c)).
Notation evs b := (lb_events (nth_block c b)).
Notation succs b := (lb_succ (nth_block c b)).

Lemma succ_idx : forall b n, b < N -> In n (succs b) -> n < N /\ n <> c_entry c.
Proof.
  intros b n Hb Hn. split; [|exact (succ_not_entry c HW b n Hn)].
  destruct HI as [_ [_ W]]. eapply W; [apply nth_In; exact Hb | exact Hn].
Qed.

(* by the rows of the edges: a block leaves in a place nothing or a value of the kind of its binding *)
Lemma typed_paths_agree : paths_agree c.
Proof.
  intros ss0 ss P1.
  assert (G : forall b t, greachc c b t -> b < N /\ row_agrees t (s_pvars (block_init c b))).
  { intros b t H. induction H as [|b t t' n Hr [Hb HA] Hs Hn].
    - split; [apply HI|]. unfold block_init. rewrite Nat.eqb_refl. intros x l Hf. discriminate.
    - destruct (succ_idx b n Hb Hn) as [Hn' Hne]. split; [exact Hn'|].
      pose proof (ph_run P1 b Hb (succ_not_exit c HW b n Hn)) as Hrun.
      pose proof (run_events_table fin (evs b) t _ (gblock_start c b t) (typed_kinded _ _ _ (HT b Hb))
                    (init_tracks _ _ t)) as T.
      unfold block_init in T. rewrite Hs, Hrun in T. destruct T as [HR _].
      unfold block_init at 1. apply Nat.eqb_neq in Hne. rewrite Hne. intros x l Hf.
      destruct (HE b n _ Hb Hn Hrun x l Hf) as [l0 [Hlk Hk]]. rewrite <- Hk.
      destruct (tracks_bound _ _ _ _ _ HR Hlk) as [u [_ E]]. rewrite E.
      destruct (u && negb (is_copy (l_kind l0))); [auto|].
      destruct (lookup_cases _ _ _ Hlk) as [[Hv _] | [Hv [_ [Hp _]]]]; rewrite Hv; [auto|].
      rewrite (proj2 (proj2 (proj2 (proj2 (run_events_ext _ _ _ _ Hrun))))) in Hp. exact (HA x l0 Hp). }
  intros b t Hr. exact (proj2 (G b t Hr)).
Qed.

Variables ss0 ss : list scope.
Hypothesis P1 : phase1 c ss0 ss.

Lemma typed_live_needs : live_needs c ss.
Proof.
  pose proof (live_in_row c HW HE HX HI ss0 ss (proj1 P1) (proj1 (proj2 P1))) as LR. split.
  - intros b n x l0 Hb Hn Hl Hlk Hc. destruct (succ_idx b n Hb Hn) as [Hn' Hne].
    destruct (LR n x Hl Hn' Hne) as [l' [Hf' Hnd]]. apply Hnd.
    destruct (HE b n _ Hb Hn (ph_run P1 b Hb (succ_not_exit c HW b n Hn)) x l' Hf') as [l1 [Hlk1 Hk]]. congruence.
  - intros b x l Hb Hne Hl Hf Hc. destruct (LR b x Hl Hb Hne) as [l' [Hf' Hnd]]. apply Hnd. congruence.
Qed.

End Typed.

Section UniformC.
Variable K : nat -> kind.
Variable c : lcfg.
Hypothesis HK : uniform K c.

Notation N := (length (c_blocks c)).

(* a reached state is what some [Token] run has, with kinds; the entry block has no row *)
Lemma uniform_paths_agree : paths_agree c.
Proof.
  intros ss0 ss _ b g Hr x l Hf. unfold block_init in Hf. destruct (Nat.eqb b (c_entry c)) eqn:Ee; [discriminate Hf|].
  destruct (greachc_extend c b g Hr [] 0 _ I eq_refl) as [rest [_ [E _]]].
  pose proof (run_path_same K c HK rest (c_entry c) _ _ 0 (sameK_empty K)) as S. rewrite E in S.
  unfold grun_path, gblock_start in S. rewrite Ee in S. simpl in S.
  destruct (run_path c empty_tokens (c_entry c) rest 0) as [t|]; [|destruct S]. destruct (S x) as [Eg _].
  destruct (find_leaf_some _ _ _ Hf) as [Hin Hid].
  rewrite (proj2 (init_scope_P _ _ _ (proj1 (blockK K c HK b))) l Hin), Hid. exact Eg.
Qed.

Lemma gviolated_violated : gviolated c -> violated K c.
Proof.
  assert (S : forall rest k, same_out K (run_path c empty_tokens (c_entry c) rest k)
                                        (grun_path c g_empty (c_entry c) rest k))
    by (intros; apply (run_path_same K c HK), sameK_empty).
  intros [[rest [k [v [Hw Hb]]]] | [rest [k [g [Hw [Hl [Hf Hn]]]]]]]; specialize (S rest k).
  - left. exists rest, k, v. split; auto. rewrite Hb in S.
    destruct (run_path c empty_tokens (c_entry c) rest k); [destruct S | congruence].
  - right. rewrite Hf in S. destruct (run_path c empty_tokens (c_entry c) rest k) as [t|] eqn:Hr; [|destruct S].
    exists rest, k, t. repeat split; auto. intros F. apply Hn. split.
    + intros l Hlb Hc. assert (Hk : l_kind l = K (l_id l)) by (apply HK; unfold all_leaves; apply in_or_app; auto).
      assert (Kx : K (l_id l) <> KCopy) by (rewrite <- Hk; apply noncopy_kind, Hc).
      destruct (S (l_id l)) as [Eg T].
      assert (Tt : t (l_id l) = true) by (apply (F _ Kx); unfold borrowed_ids; apply in_map; exact Hlb).
      rewrite T in Tt. destruct Eg as [E | E]; [rewrite E in Tt; discriminate | congruence].
    + intros x Tx. destruct (S x) as [Eg T]. rewrite Tx in T, Eg.
      assert (Kx : K x = KLinear) by (destruct Eg; congruence).
      assert (Kc : K x <> KCopy) by congruence. exact (proj2 (F x Kc) T Kx).
Qed.

Variables ss0 ss : list scope.
Hypothesis P1 : phase1 c ss0 ss.

Lemma uniform_needs : forall x n, K x <> KCopy -> live_on_path false (stats_cfg c ss) x n -> n < N ->
  needs c ss x n.
Proof.
  intros x n Kx Hl. pose proof (ph_len P1) as Hlen.
  induction Hl as [n Hn Hu | n m Hn Hd Hm Hl IH]; intros Hb.
  - rewrite (stats_blk c ss n Hlen Hb) in Hu. apply needs_use; [exact Hu|].
    intros l Hf. rewrite (rowK K c HK _ _ _ Hf). destruct (K x); simpl; congruence.
  - unfold flow_succ in Hm. rewrite (stats_blk c ss n Hlen Hb) in Hd, Hm. simpl in Hd, Hm. rewrite app_nil_r in Hm.
    exact (needs_step c ss x n m Hd Hm (IH (ph_succ_lt P1 n m Hb Hm))).
Qed.

Lemma uniform_live_needs : wf_shape c -> live_needs c ss.
Proof.
  intros HW. split.
  - intros b n x l0 Hb Hn Hl Hlk Hc. apply (uniform_needs x n); auto.
    + rewrite <- (lookup_K K _ _ _ (ph_scopeK P1 K HK b Hb (succ_not_exit c HW b n Hn)) Hlk). apply noncopy_kind, Hc.
    + exact (ph_succ_lt P1 b n Hb Hn).
  - intros b x l Hb _ Hl Hf Hc. apply (uniform_needs x b); auto.
    rewrite <- (rowK K c HK _ _ _ Hf). apply noncopy_kind, Hc.
Qed.

End UniformC.

Lemma keqb_eq : forall a b, keqb a b = true -> a = b.
Proof. intros [] []; simpl; congruence. Qed.

Lemma bound_at_sound : forall s l, bound_at s l = true ->
  exists l0, lookup s (l_id l) = Some l0 /\ l_kind l0 = l_kind l.
Proof.
  intros s l H. unfold bound_at in H. destruct (lookup s (l_id l)) as [l0|]; [|discriminate].
  exists l0. split; auto. apply keqb_eq. exact H.
Qed.

Lemma typed_runb_sound : forall fin es s, typed_runb fin s es = true -> typed_run fin s es.
Proof.
  intros fin. induction es as [|e r IH]; intros s H; simpl in *; auto.
  apply andb_true_iff in H. destruct H as [A B]. split.
  - destruct e as [p k | p | p | p | e]; simpl in *; auto.
    + intros l Hl. rewrite forallb_forall in A. apply bound_at_sound. apply A. exact Hl.
    + destruct e; try discriminate; intros E; discriminate.
  - destruct (step_event fin s e); auto.
Qed.

Lemma typedb_sound : forall c, typedb c = true -> typed c.
Proof.
  intros c H b Hb. unfold typedb in H. rewrite forallb_forall in H.
  apply typed_runb_sound. apply H. apply in_seq. lia.
Qed.

Lemma edges_okb_sound : forall c, edges_okb c = true -> edges_ok c.
Proof.
  intros c H b n s Hb Hn Hrun x l Hf. unfold edges_okb in H. rewrite forallb_forall in H.
  assert (Hin : In b (seq 0 (length (c_blocks c)))) by (apply in_seq; lia).
  specialize (H b Hin). rewrite Hrun in H. rewrite forallb_forall in H. specialize (H n Hn).
  rewrite forallb_forall in H. destruct (find_leaf_some _ _ _ Hf) as [Hl Hid].
  destruct (bound_at_sound s l (H l Hl)) as [l0 [A B]]. exists l0. rewrite <- Hid. auto.
Qed.

Lemma exit_row_okb_sound : forall c, exit_row_okb c = true -> exit_row_ok c.
Proof.
  intros c H l Hl. unfold exit_row_okb in H. rewrite forallb_forall in H. specialize (H l Hl).
  destruct (find_leaf (l_id l) (row_leaves c (c_exit c))) as [l'|]; [|discriminate].
  exists l'. split; auto. apply keqb_eq. exact H.
Qed.

Lemma wf_idxb_sound : forall c, wf_idxb c = true -> wf_idx c.
Proof.
  intros c H. unfold wf_idxb in H. apply andb_true_iff in H. destruct H as [H C].
  apply andb_true_iff in H. destruct H as [A B]. apply Nat.ltb_lt in A. apply Nat.ltb_lt in B.
  split; auto. split; auto. intros blk n Hb Hn. rewrite forallb_forall in C. specialize (C blk Hb).
  rewrite forallb_forall in C. apply Nat.ltb_lt. apply C. exact Hn.
Qed.

(* [Hyps.kind_eqb] is [TokenG.keqb] under another name *)
Lemma uniformb_sound : forall c, uniformb c = true -> uniform (K_of (all_leaves c)) c.
Proof.
  intros c H l Hl. unfold uniformb in H. rewrite forallb_forall in H.
  exact (keqb_eq _ _ (H l Hl)).
Qed.

Lemma wf_shapeb_sound : forall c, wf_shapeb c = true -> wf_shape c.
Proof.
  intros c H. unfold wf_shapeb in H.
  apply andb_true_iff in H. destruct H as [H D]. apply andb_true_iff in H. destruct H as [H C].
  apply andb_true_iff in H. destruct H as [A B].
  unfold wf_shape. repeat split.
  - destruct (lb_events (nth_block c (c_exit c))); [reflexivity | discriminate].
  - destruct (lb_succ (nth_block c (c_exit c))); [reflexivity | discriminate].
  - apply negb_true_iff in C. apply Nat.eqb_neq in C. exact C.
  - intros b Hb. rewrite forallb_forall in D.
    destruct (Nat.lt_ge_cases b (length (c_blocks c))) as [Hlt | Hge].
    + assert (Hin : In (nth_block c b) (c_blocks c)) by (apply nth_In; exact Hlt).
      specialize (D _ Hin). apply negb_true_iff in D. apply memb_false in D. contradiction.
    + unfold nth_block in Hb. rewrite nth_overflow in Hb by exact Hge. destruct Hb.
Qed.

Lemma shadow_wfb_sound : forall es, shadow_wfb es = true -> shadow_wf es.
Proof.
  induction es as [|e r IH]; intros H; simpl in *; auto.
  apply andb_true_iff in H. destruct H as [A B]. split; [|apply IH; exact B].
  destruct e; auto. apply existsb_exists in A. destruct A as [e' [Hin He]].
  destruct e'; try discriminate. apply Nat.eqb_eq in He. eauto.
Qed.

Lemma reassign_wfb_sound : forall es B, reassign_wfb B es = true -> reassign_wf B es.
Proof.
  induction es as [|e r IH]; intros B H; simpl in *; auto.
  destruct e as [p k | p | p | p | e]; auto.
  - destruct k; auto.
  - apply andb_true_iff in H. destruct H as [A C]. split; [|apply IH; exact C].
    rewrite forallb_forall in A. intros l Hl. apply memb_In. apply A. exact Hl.
Qed.

Lemma events_wfb_sound : forall c, events_wfb c = true -> events_wf c.
Proof.
  intros c H blk Hb. unfold events_wfb in H. rewrite forallb_forall in H. specialize (H _ Hb).
  apply andb_true_iff in H. destruct H. split; [apply shadow_wfb_sound | apply reassign_wfb_sound]; auto.
Qed.

Lemma io_okb_sound : forall c, io_okb c = true -> io_ok c.
Proof.
  intros c H l Hl Hio. unfold io_okb in H. rewrite forallb_forall in H. specialize (H _ Hl).
  rewrite Hio in H. exact H.
Qed.
