(** C06 — Linearity: qubits are used exactly once on every path.

    Model: [Linearity.v] (linearity_checker.py on the core fragment, with the place-level
    liveness of C09).  Specification: [TokenG.v], the token discipline along paths when a name
    may be re-bound at another kind, and [Token.v], what it comes to when kinds are uniform.
    All hypotheses are evaluated on every CFG the harness sees ([Hyps.uniformb],
    [Hyps.wf_shapeb], [TokenG.typedb] ...). *)
From Coq Require Import List Arith.
From V.C09 Require Import Analysis.
From V.C06 Require Import Linearity Token TokenG Hyps ProofsBlock ProofsSound ProofsComplete ProofsFlatten.
From V.C06 Require Import ProofsCompleteG.
Import ListNotations.

(** Soundness, unconditional on reachability of the exit, for the code with and without
    fix-1 ([fx]), for every work-list schedule of the liveness analysis: if the checker
    accepts then, starting from no tokens and receiving the arguments in the entry block,
    (1) no path prefix from the entry uses an empty place, overwrites a full linear place,
        uses a borrowed parameter other than by borrowing, assigns one, or drops an unnamed
        linear value;
    (2) every complete path entry -> exit ends with every linear leaf consumed or returned,
        except the leaves of the borrowed parameters, which are all handed back full. *)
Theorem lin_sound : forall fx c sched K, uniform K c -> wf_shape c ->
  check_cfg fx c sched = Accept ->
  (forall rest k, is_walk c (c_entry c) rest ->
     exists t, run_path c empty_tokens (c_entry c) rest k = Fine t) /\
  (forall rest k t, is_walk c (c_entry c) rest -> last rest (c_entry c) = c_exit c ->
     run_path c empty_tokens (c_entry c) rest k = Fine t -> final_ok K c t).
Proof.
  intros fx c sched K HK HW HA.
  destruct (accept_phase1 fx c sched HA) as [ss0 [ss [P1 [H5 H6]]]].
  (* uniform kinds are in order; the [Token] run is the [TokenG] run with the kinds forgotten *)
  destruct (sound_live_edges fx c sched ss0 ss HW (uniform_kinded K c HK) (uniform_exit_row_kinded K c HK) P1 H6
              (fun b n x l l0 Hb Hn _ => uniform_edge_kinds K c HK ss0 ss P1 b n x l l0 Hb (succ_not_exit c HW b n Hn))
              H5) as [G1 G2].
  assert (S : forall rest k, same_out K (run_path c empty_tokens (c_entry c) rest k)
                                        (grun_path c g_empty (c_entry c) rest k))
    by (intros; apply (run_path_same K c HK), sameK_empty).
  split.
  - intros rest k Hw. specialize (S rest k). destruct (G1 rest k Hw) as [g Hg].
    rewrite Hg in S. destruct (run_path c empty_tokens (c_entry c) rest k); [eauto | destruct S].
  - intros rest k t Hw Hl Hr. specialize (S rest k). rewrite Hr in S.
    destruct (grun_path c g_empty (c_entry c) rest k) as [g|] eqn:Hg; [|destruct S].
    exact (final_same K c HK t g S (G2 rest k g Hw Hl Hg)).
Qed.
Print Assumptions lin_sound.

(** the same for the entry point the harness uses (checked AST of every block) *)
Theorem lin_sound_ast : forall fx bs entry exit_ reach fin sched K,
  let c := mkLC (map flatten_block bs) entry exit_ reach fin in
  uniform K c -> wf_shape c -> check_ast fx bs entry exit_ reach fin sched = Accept ->
  (forall rest k, is_walk c entry rest -> exists t, run_path c empty_tokens entry rest k = Fine t) /\
  (forall rest k t, is_walk c entry rest -> last rest entry = exit_ ->
     run_path c empty_tokens entry rest k = Fine t -> final_ok K c t).
Proof. intros fx bs entry exit_ reach fin sched K c HK HW HA. exact (lin_sound fx c sched K HK HW HA). Qed.
Print Assumptions lin_sound_ast.

(** Exported to C01: when the checker accepts, the linear leaves live into the successors of
    a block coincide (so every successor receives the same linear places). *)
Theorem live_rows_agree : forall fx c sched K, uniform K c -> wf_shape c ->
  check_cfg fx c sched = Accept ->
  exists ss, length ss = length (c_blocks c) /\
    forall b n m x, b < length (c_blocks c) ->
      In n (lb_succ (nth_block c b)) -> In m (lb_succ (nth_block c b)) -> K x = KLinear ->
      In x (getv (live_of c ss sched) n) -> In x (getv (live_of c ss sched) m).
Proof.
  intros fx c sched K HK HW HA.
  destruct (accept_phase1 fx c sched HA) as [ss0 [ss [P1 [_ H6]]]].
  exists ss. exact (conj (ph_len P1) (succ_rows_agree sched P1 K fx HK HW H6)).
Qed.
Print Assumptions live_rows_agree.

(** the hypotheses are decidable, and satisfiable on a non-trivial instance: a borrowed
    parameter, a struct with two linear fields, a loop that borrows them, consumption after
    the loop *)
Theorem hyps_decidable : forall c, uniformb c = true -> wf_shapeb c = true ->
  uniform (K_of (all_leaves c)) c /\ wf_shape c.
Proof. intros c A B. split; [apply uniformb_sound | apply wf_shapeb_sound]; assumption. Qed.
Print Assumptions hyps_decidable.

Example ex_accepted : check_cfg true ex_cfg [] = Accept /\ uniformb ex_cfg = true /\ wf_shapeb ex_cfg = true.
Proof. vm_compute. auto. Qed.

Example ex_path_ok :
  exists t, run_path ex_cfg empty_tokens 0 [2; 3; 2; 3; 2; 4; 1] 0 = Fine t /\
            t 0 = true /\ t 3 = false /\ t 4 = false.
Proof. eexists. split; [vm_compute; reflexivity|]. vm_compute. auto. Qed.

(* forgetting `discard(s.b)`: rejected, and indeed the path through block 4 leaks s.b *)
Example ex_leak_rejected :
  check_cfg true ex_leak [] = RejUnused 2 [4] /\
  exists t, run_path ex_leak empty_tokens 0 [2; 4; 1] 0 = Fine t /\ t 4 = true.
Proof. split; [vm_compute; reflexivity|]. eexists. split; [vm_compute; reflexivity|]. vm_compute. reflexivity. Qed.

(** The unused-place loop of 0.21.6 as released ([fx = false]) rejects f1
    (`if c: pass; measure(q); q = 1; return 2`) although q is consumed before it is re-bound;
    with fix-1 it is accepted.  (Replayed on the real code by the corpus.) *)
Theorem released_rejects_rebinding_refuted :
  check_cfg false f1_cfg [] = RejUnused 4 [0] /\ check_cfg true f1_cfg [] = Accept /\
  exists t, run_path f1_cfg empty_tokens 0 [3; 4; 1] 0 = Fine t /\ t 0 = false.
Proof. split; [vm_compute; reflexivity|]. split; [vm_compute; reflexivity|].
  eexists. split; [vm_compute; reflexivity|]. vm_compute. reflexivity. Qed.
Print Assumptions released_rejects_rebinding_refuted.

(** Completeness of the code with fix-1 ([fx = true]) on the core fragment, under
    H_exit ([all_reach]: every block is reachable from the entry and reaches the exit along
    real edges; [c_exit_reachable] is the flag check_cfg_linearity reads): if no path violates
    the token discipline or the ownership rules -- no prefix from the entry is [Bad], and every
    complete path ends in a good exit state -- then the checker accepts, unless it crashes
    (a place in no scope: an ill-typed checked CFG, which the front end never produces).
    [events_wf] is the shape of [flat_map ev_stmt], evaluated by the harness on every CFG as
    [events_wfb]; [io_ok]: a leaf flagged as borrowed variable is a borrowed function input.
    Without H_exit the statement is false, for the real checker too: [complete_needs_h_exit]. *)
Theorem lin_complete : forall c sched K, uniform K c -> wf_shape c -> io_ok c -> events_wf c ->
  c_exit_reachable c = true -> all_reach c -> ~ violated K c ->
  check_cfg true c sched = Accept \/ crashed (check_cfg true c sched).
Proof.
  (* with uniform kinds the kinds are in order, and a [TokenG] violation is a [Token] violation *)
  intros c sched K HK HW HIO HEV HER HR HV.
  apply (complete_or_crash c sched HW HIO HEV (uniform_kinded K c HK) (uniform_paths_agree K c HK)
           (uniform_exit_row_kinded K c HK)); auto.
  - intros ss0 ss P1. exact (uniform_live_needs K c HK ss0 ss P1 HW).
  - intros HG. exact (HV (gviolated_violated K c HK HG)).
Qed.
Print Assumptions lin_complete.

(** for the entry point the harness uses, the structure of the event lists is a theorem, not a
    hypothesis: it is the shape of what BBLinearityChecker's traversal ([ev_stmt]) emits *)
Theorem lin_complete_ast : forall bs entry exit_ reach fin sched K,
  let c := mkLC (map flatten_block bs) entry exit_ reach fin in
  uniform K c -> wf_shape c -> io_ok c -> reach = true -> all_reach c -> ~ violated K c ->
  check_ast true bs entry exit_ reach fin sched = Accept \/
  crashed (check_ast true bs entry exit_ reach fin sched).
Proof.
  intros bs entry exit_ reach fin sched K c HK HW HI HR HA HV.
  apply (lin_complete c sched K HK HW HI (flatten_events_wf bs entry exit_ reach fin) HR HA HV).
Qed.
Print Assumptions lin_complete_ast.

Example ex_complete_hyps : io_ok ex_cfg /\ events_wf ex_cfg /\ c_exit_reachable ex_cfg = true /\ all_reach ex_cfg.
Proof.
  split; [apply io_okb_sound; vm_compute; reflexivity|].
  split; [apply events_wfb_sound; vm_compute; reflexivity|].
  split; [reflexivity|].
  intros b Hb. change (length (c_blocks ex_cfg)) with 5 in Hb.
  assert (R4 : reaches_exit ex_cfg 4) by (apply re_step with (n := 1); [simpl; auto | apply (re_exit ex_cfg)]).
  assert (R2 : reaches_exit ex_cfg 2) by (apply re_step with (n := 4); [simpl; auto | exact R4]).
  destruct b as [|[|[|[|[|b]]]]]; try (exfalso; apply (Nat.lt_irrefl 5); eapply Nat.le_lt_trans; [|exact Hb]; repeat apply le_n_S; apply Nat.le_0_l).
  - split; [exists []; simpl; auto | apply re_step with (n := 2); [simpl; auto | exact R2]].
  - split; [exists [2; 4; 1]; simpl; auto 10 | apply (re_exit ex_cfg)].
  - split; [exists [2]; simpl; auto | exact R2].
  - split; [exists [2; 3]; simpl; auto 10 | apply re_step with (n := 2); [simpl; auto | exact R2]].
  - split; [exists [2; 4]; simpl; auto 10 | exact R4].
Qed.

(* the complete path 0 -> 2 -> 4 -> 1 ends with the linear leaf s.b (id 4) still full *)
Example ex_leak_violates : violated (K_of (all_leaves ex_leak)) ex_leak.
Proof.
  right. exists [2; 4; 1], 0. eexists. split; [simpl; auto 10|]. split; [reflexivity|].
  split; [vm_compute; reflexivity|].
  intros F. destruct (F 4) as [_ G]; [vm_compute; discriminate|].
  assert (In 4 (borrowed_ids ex_leak)) by (apply G; vm_compute; reflexivity).
  vm_compute in H. destruct H as [H | []]. discriminate.
Qed.

(** the boundary: without H_exit completeness fails.  `def f() -> None: q = qubit(); while True: pass`
    (ids: q = 0; blocks 0 entry -> 2, 1 exit (unreachable), 2 loop -> 2): no path prefix
    violates anything and there is no complete path, yet the checker rejects q as leaked. *)
Definition wt_cfg : lcfg :=
  mkLC (map flatten_block
     [mkAB [] [SAssign [var 0 KLinear] (XCall [] [])] [2]; mkAB [] [] []; mkAB [PLeaf (lf 0 KLinear)] [] [2]])
     0 1 false [].
Theorem complete_needs_h_exit :
  check_cfg true wt_cfg [] = RejUnused 0 [0] /\ ~ reaches_exit wt_cfg 0 /\
  (forall rest k, is_walk wt_cfg 0 rest -> exists t, run_path wt_cfg empty_tokens 0 rest k = Fine t /\
                                                   last rest 0 <> 1).
Proof.
  split; [vm_compute; reflexivity|]. split.
  - assert (G : forall b, reaches_exit wt_cfg b -> b = 1).
    { intros b H. induction H as [|b n Hn Hr IH]; [reflexivity|]. subst n.
      destruct b as [|[|[|b]]]; [ | reflexivity | | ].
      - simpl in Hn. destruct Hn as [Hn | []]. discriminate.
      - simpl in Hn. destruct Hn as [Hn | []]. discriminate.
      - unfold nth_block in Hn. simpl in Hn. destruct b; destruct Hn. }
    intros H. apply G in H. discriminate.
  - assert (G : forall rest k, is_walk wt_cfg 2 rest ->
               exists t, run_path wt_cfg (upd empty_tokens 0 true) 2 rest k = Fine t /\ last rest 2 <> 1).
    { induction rest as [|n r IH]; intros k Hw.
      - eexists. split; [destruct k; reflexivity | discriminate].
      - destruct Hw as [Hn Hw]. simpl in Hn. destruct Hn as [Hn | []]. subst n.
        destruct (IH k Hw) as [t [A B]]. exists t. split; [exact A|]. rewrite last_cons_default. exact B. }
    intros rest k Hw. destruct rest as [|n r].
    + destruct k as [|[|[|k]]]; eexists; (split; [reflexivity | discriminate]).
    + destruct Hw as [Hn Hw]. simpl in Hn. destruct Hn as [Hn | []]. subst n.
      destruct (G r k Hw) as [t [A B]]. exists t. split; [exact A|]. rewrite last_cons_default. exact B.
Qed.
Print Assumptions complete_needs_h_exit.

(** Soundness WITHOUT [uniform].  The token state of [TokenG] records per leaf
    id the kind of the value currently held; an assignment at any kind overwrites what is held
    (a linear token: violation), so `q: qubit ... q = 1` is part of the proved fragment -- the
    code paths of fix-1 (cb20387, the unused-place loop and shadowed input places) and fix-2
    (c4fcce6) are inside it.  [uniform] is replaced by the typing invariants of the checked CFG
    ([typed], [edges_ok], [exit_row_ok]: see [TokenG]). *)
Theorem lin_sound_rebind : forall fx c sched, wf_shape c -> typed c -> edges_ok c -> exit_row_ok c ->
  check_cfg fx c sched = Accept ->
  (forall rest k, is_walk c (c_entry c) rest ->
     exists t, grun_path c g_empty (c_entry c) rest k = GFine t) /\
  (forall rest k t, is_walk c (c_entry c) rest -> last rest (c_entry c) = c_exit c ->
     grun_path c g_empty (c_entry c) rest k = GFine t -> gfinal_ok c t).
Proof.
  intros fx c sched HW HT HE HX HA.
  destruct (accept_phase1 fx c sched HA) as [ss0 [ss [P1 [H5 H6]]]].
  apply (sound_live_edges fx c sched ss0 ss HW (typed_kinded_cfg c HT) (typed_exit_row_kinded c HX) P1 H6); [|exact H5].
  intros b n x l l0 Hb Hn _ Hf Hlk.
  destruct (HE b n _ Hb Hn (ph_run P1 b Hb (succ_not_exit c HW b n Hn)) x l Hf) as [l1 [A B]]. congruence.
Qed.
Print Assumptions lin_sound_rebind.

(** A well-typed checked CFG never crashes the checker ("Accept or crashed" becomes "Accept"). *)
Theorem checker_never_crashes : forall fx c sched, wf_shape c -> typed c -> edges_ok c -> exit_row_ok c ->
  wf_idx c -> c_exit_reachable c = true -> ~ crashed (check_cfg fx c sched).
Proof. exact no_crash. Qed.
Print Assumptions checker_never_crashes.

(** [lin_complete] with the crash excluded: for a CFG that is also well typed ([typed], [edges_ok],
    [exit_row_ok], [wf_idx]) the conclusion is [Accept] alone. *)
Theorem lin_complete_strict : forall c sched K, uniform K c -> wf_shape c -> io_ok c -> events_wf c ->
  typed c -> edges_ok c -> exit_row_ok c -> wf_idx c ->
  c_exit_reachable c = true -> all_reach c -> ~ violated K c ->
  check_cfg true c sched = Accept.
Proof.
  intros c sched K HK HW HIO HEV HT HE HX HI HER HR HV.
  destruct (lin_complete c sched K HK HW HIO HEV HER HR HV) as [H | H]; [exact H|].
  exfalso. exact (no_crash true c sched HW HT HE HX HI HER H).
Qed.
Print Assumptions lin_complete_strict.

(** the typing hypotheses follow from their executable versions, which the harness evaluates *)
Theorem typing_decidable : forall c, typedb c = true -> edges_okb c = true -> exit_row_okb c = true ->
  wf_idxb c = true -> typed c /\ edges_ok c /\ exit_row_ok c /\ wf_idx c.
Proof.
  intros c A B C D. split; [apply typedb_sound; exact A|]. split; [apply edges_okb_sound; exact B|].
  split; [apply exit_row_okb_sound; exact C | apply wf_idxb_sound; exact D].
Qed.
Print Assumptions typing_decidable.

(* the two programs of the fixes are non-uniform, satisfy the hypotheses of [lin_sound_rebind],
   and are accepted; the variant that re-binds a qubit that was never consumed is rejected and
   indeed overwrites a linear token *)
Example rebind_programs_covered :
  (uniformb f1_cfg = false /\ wf_shapeb f1_cfg = true /\ typedb f1_cfg = true /\ edges_okb f1_cfg = true /\
   exit_row_okb f1_cfg = true /\ check_cfg true f1_cfg [] = Accept) /\
  (uniformb g1_cfg = false /\ wf_shapeb g1_cfg = true /\ typedb g1_cfg = true /\ edges_okb g1_cfg = true /\
   exit_row_okb g1_cfg = true /\ check_cfg true g1_cfg [] = Accept) /\
  (check_cfg true f1bad_cfg [] = RejUnused 0 [0] /\
   grun_path f1bad_cfg g_empty 0 [3; 4; 1] 0 = GBad (VOverwrite 0)).
Proof. vm_compute. repeat split. Qed.

(** Completeness WITHOUT [uniform], for the code with fix-1: under H_exit, if no path violates the
    [TokenG] discipline (no [GBad] prefix, every complete path ends in [gfinal_ok]) then the
    checker accepts -- also when names are re-bound at other kinds.  This is the statement the
    two repaired defects violated. *)
Theorem lin_complete_rebind : forall c sched, wf_shape c -> typed c -> edges_ok c -> exit_row_ok c ->
  wf_idx c -> io_ok c -> events_wf c -> c_exit_reachable c = true -> all_reach c -> ~ gviolated c ->
  check_cfg true c sched = Accept.
Proof.
  intros c sched HW HT HE HX HI HIO HEV HER HR HV.
  destruct (complete_or_crash c sched HW HIO HEV (typed_kinded_cfg c HT) (typed_paths_agree c HW HT HE HI)
              (typed_exit_row_kinded c HX)
              (typed_live_needs c HW HE HX HI) HER HR HV) as [H | H]; [exact H|].
  exfalso. exact (no_crash true c sched HW HT HE HX HI HER H).
Qed.
Print Assumptions lin_complete_rebind.

(** the same for the entry point the harness uses; [events_wf] is proved ([flatten_events_wf]) *)
Theorem lin_complete_rebind_ast : forall bs entry exit_ reach fin sched,
  let c := mkLC (map flatten_block bs) entry exit_ reach fin in
  wf_shape c -> typed c -> edges_ok c -> exit_row_ok c -> wf_idx c -> io_ok c -> reach = true ->
  all_reach c -> ~ gviolated c -> check_ast true bs entry exit_ reach fin sched = Accept.
Proof.
  intros bs entry exit_ reach fin sched c HW HT HE HX HI HIO HR HA HV.
  apply (lin_complete_rebind c sched HW HT HE HX HI HIO (flatten_events_wf bs entry exit_ reach fin) HR HA HV).
Qed.
Print Assumptions lin_complete_rebind_ast.

(** soundness and completeness together: on well-typed builder-shaped CFGs satisfying H_exit the
    repaired checker accepts exactly the CFGs no path of which violates the discipline *)
Theorem lin_exact_rebind : forall c sched, wf_shape c -> typed c -> edges_ok c -> exit_row_ok c ->
  wf_idx c -> io_ok c -> events_wf c -> c_exit_reachable c = true -> all_reach c ->
  (check_cfg true c sched = Accept <-> ~ gviolated c).
Proof.
  intros c sched HW HT HE HX HI HIO HEV HER HR. split.
  - intros HA. destruct (lin_sound_rebind true c sched HW HT HE HX HA) as [S1 S2]. exact (safe_not_gviolated c S1 S2).
  - apply lin_complete_rebind; auto.
Qed.
Print Assumptions lin_exact_rebind.

(** The released checker (without fix-1) is incomplete on exactly such a program: f1
    (`if c: pass; measure(q); q = 1; return 2`) is well typed, no path violates the discipline
    (by [lin_sound_rebind] applied to the repaired checker), and [fx = false] rejects it. *)
Theorem released_incomplete_refuted :
  typed f1_cfg /\ edges_ok f1_cfg /\ exit_row_ok f1_cfg /\ wf_shape f1_cfg /\
  ~ gviolated f1_cfg /\ check_cfg false f1_cfg [] = RejUnused 4 [0].
Proof.
  assert (HT : typed f1_cfg) by (apply typedb_sound; vm_compute; reflexivity).
  assert (HE : edges_ok f1_cfg) by (apply edges_okb_sound; vm_compute; reflexivity).
  assert (HX : exit_row_ok f1_cfg) by (apply exit_row_okb_sound; vm_compute; reflexivity).
  assert (HW : wf_shape f1_cfg) by (apply wf_shapeb_sound; vm_compute; reflexivity).
  split; [exact HT|]. split; [exact HE|]. split; [exact HX|]. split; [exact HW|]. split; [|vm_compute; reflexivity].
  assert (HA : check_cfg true f1_cfg [] = Accept) by (vm_compute; reflexivity).
  destruct (lin_sound_rebind true f1_cfg [] HW HT HE HX HA) as [S1 S2]. exact (safe_not_gviolated f1_cfg S1 S2).
Qed.
Print Assumptions released_incomplete_refuted.
