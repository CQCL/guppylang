(** What is claimed of one entry of the generated tables against Python's semantics, and the tactic that proves an entry. *)
From Coq Require Import ZArith String List Lia.
From V.C04 Require Import Int64 Int64Facts NumBase GenNumTable ModelNum.
Import ListNotations.
Open Scope Z_scope.

Definition T : tables :=
  mkTables gen_methods gen_unary_table gen_binary_table gen_builtin_table gen_binary_dispatch
           gen_kind_order gen_reversing_prefix gen_reversing_order gen_bool_dunder.

Definition ty_pairs : list (gty * gty) := list_prod all_gty all_gty.
Definition bin_entries : list (pybin * (gty * gty)) := list_prod all_pybin ty_pairs.
Definition un_entries : list (pyun * gty) := list_prod all_pyun all_gty.

Section P.
Variable fm : FloatModel.
Local Notation value := (value fm).
Local Notation pyv := (pyv fm).

(** the reading of these statements is at the head of Props.v *)
Definition claim (r : option typed) (env : list value) (p : option pyv) : Prop :=
  match r with
  | None => True
  | Some (_, rt) =>
      match p with
      | None => True
      | Some p => exists v, encode fm rt p = Some v /\ run fm r env = Some (v, rt)
      end
  end.

Definition bin_ok (op : pybin) (t1 t2 : gty) : Prop :=
  forall a b pa pb, has_ty fm t1 a -> has_ty fm t2 b -> decode fm t1 a = Some pa -> decode fm t2 b = Some pb ->
    py_dom fm op pa pb -> ~ known_bad fm op t1 t2 pa pb ->
    claim (resolve_bin T op t1 t2) [a; b] (py_bin fm op pa pb).

Definition un_ok (op : pyun) (t : gty) : Prop :=
  forall a pa, has_ty fm t a -> decode fm t a = Some pa ->
    claim (resolve_un T op t) [a] (py_un fm op pa).

Definition not_ok (t : gty) : Prop :=
  forall a pa, has_ty fm t a -> decode fm t a = Some pa ->
    claim (resolve_not T t) [a] (option_map (fun b => PB (negb b)) (py_truth fm pa)).

Definition conv_ok (target t : gty) : Prop :=
  forall a pa, has_ty fm t a -> decode fm t a = Some pa -> conv_dom fm target pa ->
    claim (resolve_conv T target t) [a] (py_conv fm target pa).

Definition abs_ok (t : gty) : Prop :=
  forall a pa, has_ty fm t a -> decode fm t a = Some pa ->
    claim (resolve_builtin T "abs" [t]) [a] (py_abs fm pa).

Definition pow_ok (t1 t2 : gty) : Prop :=
  forall a b pa pb, has_ty fm t1 a -> has_ty fm t2 b -> decode fm t1 a = Some pa -> decode fm t2 b = Some pb ->
    py_dom fm Pow pa pb -> ~ known_bad fm Pow t1 t2 pa pb ->
    claim (resolve_builtin T "pow" [t1; t2]) [a; b] (py_bin fm Pow pa pb).

Definition divmod_ok (t1 t2 : gty) : Prop :=
  forall a b pa pb, has_ty fm t1 a -> has_ty fm t2 b -> decode fm t1 a = Some pa -> decode fm t2 b = Some pb ->
    py_dom fm FloorDiv pa pb -> ~ known_bad fm FloorDiv t1 t2 pa pb ->
    claim (resolve_builtin T "divmod" [t1; t2]) [a; b] (py_divmod fm pa pb).

(* the resolved tree compiled: what [entry] evaluates once per entry, and [claim_lowered] turns into a claim *)
Definition lower (r : option typed) : option (cexpr * rty) :=
  match r with
  | Some (e, rt) => option_map (fun c => (c, rt)) (compile e)
  | None => None
  end.

Lemma claim_rejected (r : option typed) env p : r = None -> claim r env p.
Proof. intros ->. exact I. Qed.

Lemma claim_none r env : claim r env None.
Proof. destruct r as [[e rt]|]; exact I. Qed.

Lemma claim_lowered r c rt env p v :
  lower r = Some (c, rt) -> encode fm rt p = Some v -> csem fm c env = Some v -> claim r env (Some p).
Proof.
  destruct r as [[e rt']|]; [|discriminate]. cbn [lower claim run].
  destruct (compile e) as [c'|]; [|discriminate]. intros [= -> ->] Ev Ec.
  exists v. rewrite Ec. split; [exact Ev | reflexivity].
Qed.

(* an operand of type [t]: its HUGR value and the Python value it stands for *)
Definition operand (t : gty) (P : value -> pyv -> Prop) : Prop :=
  match t with
  | TNat | TInt => forall w, word w -> P (VW w) (PZ (rd t w))
  | TFloat => forall f, P (VF f) (PF f)
  | TBool => forall b, P (VB b) (PB b)
  end.

Lemma un_cases t (Q : value -> pyv -> Prop) :
  operand t Q -> forall a pa, has_ty fm t a -> decode fm t a = Some pa -> Q a pa.
Proof.
  intros H a pa Ht E. destruct t, a; cbn in *; try contradiction; injection E as <-; auto.
Qed.

Lemma bin_cases t1 t2 (Q : value -> value -> pyv -> pyv -> Prop) :
  operand t1 (fun a pa => operand t2 (fun b pb => Q a b pa pb)) ->
  forall a b pa pb, has_ty fm t1 a -> has_ty fm t2 b -> decode fm t1 a = Some pa -> decode fm t2 b = Some pb ->
    Q a b pa pb.
Proof.
  intros H a b pa pb Ha Hb Da Db.
  exact (un_cases t2 (fun b pb => Q a b pa pb) (un_cases t1 _ H a pa Ha Da) b pb Hb Db).
Qed.

End P.

(** An operand of the tables is a word [w] read at its type, [rd t w].  An op that respects congruence
    modulo 2^64 agrees with Python's operator on every reading ([wrap_rd]); the others take one reading, and
    outside the known-bad regions the operand's reading at its type is that one. *)

Lemma wrap_rd t w : word w -> w = wrap_u (rd t w).
Proof. intros H. symmetry. destruct t; first [apply wrap_u_to_s | apply wrap_u_id]; exact H. Qed.

Lemma rd_nonneg t w : word w -> 0 <= rd t w -> rd t w = w.
Proof. destruct t; try reflexivity. apply to_s_nonneg. Qed.

(* a count in [0, 64) reads the same either way; [ishr] is a logical shift *)
Lemma ishl_rd t1 t2 x k : word x -> word k -> 0 <= rd t2 k < 64 ->
  ishl x k = wrap_u (py_lshift (rd t1 x) (rd t2 k)).
Proof.
  intros Hx Hk [H0 _]. rewrite (rd_nonneg t2 k Hk H0). apply ishl_ok; [apply wrap_rd, Hx | apply Hk].
Qed.
Lemma ishr_rd t1 t2 x k : word x -> word k -> 0 <= rd t2 k < 64 ->
  ~ known_bad_Z RShift t1 t2 (rd t1 x) (rd t2 k) ->
  ishr x k = wrap_u (py_rshift (rd t1 x) (rd t2 k)).
Proof.
  intros Hx Hk [H0 _] B. rewrite (rd_nonneg t2 k Hk H0).
  rewrite (rd_nonneg t1 x Hx) by (destruct t1; cbn [known_bad_Z rd] in B |- *; unfold word in Hx; lia).
  apply ishr_ok; [exact Hx | apply Hk].
Qed.

(* [idivmod_s] reads the dividend signed and the divisor unsigned; [//] and [%] have the same known-bad regions *)
Lemma div_readings t1 t2 x y : word y ->
  ~ known_bad_Z FloorDiv t1 t2 (rd t1 x) (rd t2 y) -> t1 = TInt \/ t1 = TNat /\ t2 = TInt ->
  rd t1 x = to_s x /\ rd t2 y = y.
Proof.
  intros Hy B [-> | [-> ->]].
  - split; [reflexivity|]. apply (rd_nonneg t2 y Hy).
    destruct t2; cbn [known_bad_Z rd] in B |- *; unfold word in Hy; lia.
  - cbn [known_bad_Z rd] in B |- *.
    split; [symmetry; apply to_s_small; lia | apply to_s_nonneg; [exact Hy | lia]].
Qed.
Lemma idivmod_s_rd t1 t2 x y : word y -> rd t2 y <> 0 ->
  ~ known_bad_Z FloorDiv t1 t2 (rd t1 x) (rd t2 y) -> t1 = TInt \/ t1 = TNat /\ t2 = TInt ->
  idivmod_s x y = Some (wrap_u (py_floordiv (rd t1 x) (rd t2 y)), wrap_u (py_mod (rd t1 x) (rd t2 y))).
Proof.
  intros Hy Hz B S. destruct (div_readings t1 t2 x y Hy B S) as [-> E].
  rewrite E in *. apply idivmod_s_ok; assumption.
Qed.

(* [int.__pow__] first panics on a negative exponent *)
Lemma ipow_rd t1 t2 x e : word x -> word e -> 0 <= rd t2 e -> ipow x e = wrap_u (py_pow (rd t1 x) (rd t2 e)).
Proof. intros Hx He H0. rewrite (rd_nonneg t2 e He H0). apply ipow_ok, wrap_rd, Hx. Qed.
Lemma pow_guard t1 t2 x e : word e -> 0 <= rd t2 e -> ~ known_bad_Z Pow t1 t2 (rd t1 x) (rd t2 e) ->
  t2 = TInt \/ t1 = TInt /\ t2 = TNat -> ilt_s e (wrap_u 0) = false.
Proof.
  intros He H0 B S. apply ilt_s_zero_false.
  destruct S as [-> | [-> ->]]; [exact H0|]. cbn [known_bad_Z rd] in B.
  rewrite to_s_small; unfold word in He; lia.
Qed.

Lemma abs_nat x : word x -> x = wrap_u (Z.abs (rd TNat x)).
Proof. intros H. cbn [rd]. rewrite Z.abs_eq by apply H. symmetry. apply wrap_u_id, H. Qed.

(* in a mixed comparison the nat is coerced to int: same value below 2^63 *)
Lemma nat_signed x : ~ H64 <= rd TNat x -> rd TNat x = to_s x.
Proof. cbn [rd]. intros B. symmetry. apply to_s_small. lia. Qed.

Lemma trunc_in_dom fm lo hi f z : f_trunc fm f = Some z -> lo <= z < hi -> trunc_in fm lo hi f = Some (wrap_u z).
Proof.
  intros E [H1 H2]. unfold trunc_in. rewrite E.
  destruct (Z.leb_spec lo z); [|lia]. destruct (Z.ltb_spec z hi); [reflexivity | lia].
Qed.

(* [idiv_*] and [imod_*] are the components of [idivmod_*] *)
Lemma some_fst {A B} (X : option (A * B)) q r : X = Some (q, r) -> option_map fst X = Some q.
Proof. intros ->. reflexivity. Qed.
Lemma some_snd {A B} (X : option (A * B)) q r : X = Some (q, r) -> option_map snd X = Some r.
Proof. intros ->. reflexivity. Qed.

(* [num]: one lemma per HUGR op ([ieq], [ine] as the [=?] they unfold to), so [eauto with num] takes the lemma
   of the op the tables chose; its side conditions are [wrap_rd], hypotheses of the entry, or core hints. *)
Create HintDb num discriminated.
#[export] Hint Resolve wrap_rd iadd_ok isub_ok imul_ok ineg_ok iand_ok ior_ok ixor_ok inot_ok ishl_rd ishr_rd
  idivmod_u_ok idivmod_s_rd some_fst some_snd ipow_rd pow_guard
  iabs_ok abs_nat is_to_u_ok eqb_to_s eqb_to_s' eqb_to_s_0 trunc_in_dom : num.

Lemma fin_w fm (X : option Z) (Y : Z) : X = Some Y -> option_map (@VW fm) X = Some (VW Y).
Proof. intros ->. reflexivity. Qed.
Lemma fin_id fm (X Y : Z) : X = Y -> Some (@VW fm X) = Some (VW Y).
Proof. intros ->. reflexivity. Qed.
Lemma fin_b fm (X Y : bool) : X = Y -> Some (@VB fm X) = Some (VB Y).
Proof. intros ->. reflexivity. Qed.
Lemma fin_p fm (X : option (Z * Z)) (Y1 Y2 : Z) : X = Some (Y1, Y2) ->
  option_map (fun p => @VP fm (VW (fst p)) (VW (snd p))) X = Some (VP (VW Y1) (VW Y2)).
Proof. intros ->. reflexivity. Qed.
Lemma fin_guard {A} (b : bool) (X v : option A) : b = false -> X = v -> (if b then None else X) = v.
Proof. intros -> ->. reflexivity. Qed.

(* [csem fm c env = Some v]: by computation (floats, bools), or past the constructor of [v] (and the
   panic test of [pow]) by the lemma of the op in [c] *)
Ltac value :=
  first
  [ reflexivity
  | cbn [csem nth_error sem_i2 sem_i1 sem_icmp sem_idm idiv_u imod_u idiv_s imod_s option_map];
    try (apply fin_guard; [solve [eauto with num]|]);
    first [ apply fin_w; solve [eauto with num]
          | apply fin_p; solve [eauto with num]
          | apply fin_id; solve [auto with num]
          | apply fin_b; unfold ieq, ine;
            repeat lazymatch goal with |- negb _ = negb _ => apply (f_equal negb) end;
            first [ rewrite nat_signed by assumption; first [reflexivity | solve [auto with num nocore]]
                  | solve [auto with num nocore] ] ] ].

(* One entry: [resolve_*] evaluates to [None]; or, for each form of the operands, Python's side is
   unfolded and [claim_lowered] on the evaluated tree leaves the equation for [value]. *)
Ltac entry fm :=
  lazymatch goal with |- ?entry =>
  unfold bin_ok, un_ok, not_ok, conv_ok, abs_ok, pow_ok, divmod_ok;
  first
  [ intros; apply claim_rejected; vm_compute; reflexivity
  | first [refine (bin_cases fm _ _ _ _) | refine (un_cases fm _ _ _)]; cbn [operand]; intros;
    cbn [py_bin py_un py_truth py_conv py_abs py_divmod py_cmp_Z py_cmp_F py_arith_Z py_arith_F option_map
         py_dom conv_dom known_bad] in *;
    try match goal with
        | H : match f_trunc ?fm ?f with _ => _ end |- _ =>
            destruct (f_trunc fm f) eqn:?; [|contradiction]; cbn [option_map]
        | b : bool |- claim _ _ [_] _ => destruct b
        end;
    lazymatch goal with
    | |- claim _ _ _ None => apply claim_none
    | _ => eapply claim_lowered; [vm_compute; reflexivity | reflexivity | value]
    end
  | fail 1 "no proof of" entry ]
  end.
