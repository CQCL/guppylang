(** C04 — Numeric operators compute Python's results.

    Every statement is about the tables GENERATED on this run from std/num.py,
    std/bool.py, checker/expr_checker.py, std/_internal/checker.py, std/_internal/util.py
    and tys/ty.py ([Proofs.T]).  [fm] is an arbitrary IEEE float model: float ops are the
    same function on the HUGR side and on the Python side, nothing more is assumed.

    [bin_ok fm op t1 t2] reads: either Guppy rejects `t1 op t2`, or for all operand values
    of those types (64-bit words; an int is read two's-complement) inside the property's
    domain (no division by zero, shift counts in [0,64), non-negative integer exponents) and
    outside the known-bad regions ([known_bad_Z], each shown necessary below), whenever the
    model states Python's result, running the HUGR ops the compiler emits gives that result
    reduced modulo 2^64 into the result type's range.  No claim is made where the abstract float
    model cannot express Python's exactly rounded result: int/int true division,
    int<->float comparisons, float // % divmod (see the _partial / _refuted theorems). *)
From Coq Require Import ZArith String List Lia.
From V.C04 Require Import Int64 Int64Facts NumBase ModelNum Proofs ProofsAll.
From V.C04 Require PropsFloat.
Import ListNotations.
Open Scope Z_scope.

(** all 19 binary operators x 16 operand type pairs *)
Theorem binary_operators_partial : forall fm,
  Forall (fun c => bin_ok fm (fst c) (fst (snd c)) (snd (snd c))) bin_entries.
Proof. intro fm. apply Forall_forall. intros c _. apply bin_ok_all. Qed.
Print Assumptions binary_operators_partial.

(** unary + - ~ on every type *)
Theorem unary_operators : forall fm, Forall (fun c => un_ok fm (fst c) (snd c)) un_entries.
Proof. intro fm. apply Forall_forall. intros c _. apply un_ok_all. Qed.
Print Assumptions unary_operators.

(** `not x` on every type (truth value through __bool__) *)
Theorem not_operator : forall fm, Forall (not_ok fm) all_gty.
Proof. intro fm. apply Forall_forall. intros t _. apply not_ok_all. Qed.
Print Assumptions not_operator.

(** int(x) nat(x) float(x) bool(x) for every source type; float -> int in range *)
Theorem conversions : forall fm, Forall (fun c => conv_ok fm (fst c) (snd c)) ty_pairs.
Proof. intro fm. apply Forall_forall. intros c _. apply conv_ok_all. Qed.
Print Assumptions conversions.

(** abs(x), pow(x, y), divmod(x, y) *)
Theorem builtins_partial : forall fm,
  Forall (abs_ok fm) all_gty /\ Forall (fun c => pow_ok fm (fst c) (snd c)) ty_pairs /\
  Forall (fun c => divmod_ok fm (fst c) (snd c)) ty_pairs.
Proof.
  intro fm. repeat split; apply Forall_forall; intros c _; [apply abs_ok_all | apply pow_ok_all | apply divmod_ok_all].
Qed.
Print Assumptions builtins_partial.

(** the signed reading of the result word is Python's result reduced into [-2^63, 2^63) *)
Theorem int_result_is_signed_reduction : forall z, to_s (wrap_u z) = wrap_s z /\ srange (wrap_s z) /\ word (wrap_u z).
Proof. intro z. split; [apply to_s_wrap_u | split; [apply wrap_s_range | apply wrap_u_word]]. Qed.
Print Assumptions int_result_is_signed_reduction.

(** non-vacuity: the statements above are about accepted combinations *)
Example accepted_counts :
  List.length (filter (fun c => match resolve_bin T (fst c) (fst (snd c)) (snd (snd c)) with Some _ => true | None => false end) bin_entries) = 142%nat
  /\ (exists r, resolve_bin T Add TInt TInt = Some r) /\ (exists r, resolve_bin T FloorDiv TInt TNat = Some r).
Proof. split; [vm_compute; reflexivity | split; eexists; vm_compute; reflexivity]. Qed.

(** hypotheses satisfiable on a non-trivial instance: -7 // 2 = -4 and -7 % 2 = 1 (floor) *)
Example floordiv_instance : idiv_s (of_s (-7)) (of_s 2) = Some (of_s (-4)) /\ imod_s (of_s (-7)) (of_s 2) = Some 1.
Proof. vm_compute. split; reflexivity. Qed.

(** * Refuted entries: the known-bad regions are necessary.  Each witness is evaluated on
    the tree resolved from the generated tables. *)

Section Witness.
(* a float model is irrelevant for integer witnesses; use a trivial one *)
Definition fm0 : FloatModel :=
  mkFloatModel unit tt (fun _ _ => tt) (fun _ _ => tt) (fun _ _ => tt) (fun _ _ => tt) (fun _ _ => tt)
               (fun _ => tt) (fun _ => tt) (fun _ => tt) (fun _ => tt) (fun _ => tt)
               (fun _ _ => true) (fun _ _ => false) (fun _ _ => true) (fun _ => tt) (fun _ => None).

Definition guppy_int (op : pybin) (t1 t2 : gty) (x y : Z) : option Z :=
  match run fm0 (resolve_bin T op t1 t2) [VW (of_s x); VW (of_s y)] with
  | Some (VW w, RScalar TInt) => Some (to_s w)
  | Some (VW w, RScalar TNat) => Some w
  | Some (VB b, _) => Some (if b then 1 else 0)
  | _ => None end.

(* -8 >> 1 : Python -4, Guppy 9223372036854775804 (ishr is logical) *)
Theorem rshift_negative_int_refuted :
  exists x y, 0 <= y < 64 /\ guppy_int RShift TInt TInt x y <> Some (wrap_s (py_rshift x y)).
Proof. exists (-8), 1. split; [lia | vm_compute; discriminate]. Qed.
Example rshift_witness_values : guppy_int RShift TInt TInt (-8) 1 = Some 9223372036854775804 /\ wrap_s (py_rshift (-8) 1) = -4.
Proof. vm_compute. split; reflexivity. Qed.

(* 7 // -2 : Python -4, Guppy 0;  7 % -2 : Python -1, Guppy 7  (divisor read unsigned) *)
Theorem floordiv_negative_divisor_refuted :
  exists x y, y <> 0 /\ guppy_int FloorDiv TInt TInt x y <> Some (wrap_s (py_floordiv x y)).
Proof. exists 7, (-2). split; [lia | vm_compute; discriminate]. Qed.
Theorem mod_negative_divisor_refuted :
  exists x y, y <> 0 /\ guppy_int Mod TInt TInt x y <> Some (wrap_s (py_mod x y)).
Proof. exists 7, (-2). split; [lia | vm_compute; discriminate]. Qed.
Example div_witness_values :
  guppy_int FloorDiv TInt TInt 7 (-2) = Some 0 /\ py_floordiv 7 (-2) = -4 /\
  guppy_int Mod TInt TInt 7 (-2) = Some 7 /\ py_mod 7 (-2) = -1.
Proof. vm_compute. repeat split; reflexivity. Qed.
Theorem divmod_negative_divisor_refuted :
  run fm0 (resolve_builtin T "divmod" [TInt; TInt]) [VW (of_s 7); VW (of_s (-2))]
  <> Some (VP (VW (of_s (py_floordiv 7 (-2)))) (VW (of_s (py_mod 7 (-2)))), RPair TInt TInt).
Proof. vm_compute. discriminate. Qed.

(* coerced forms: a nat >= 2^63 is reinterpreted as a negative int.
   nat(2^63) < int(0): Python False, Guppy True;  nat(2^64-1) == int(-1): Python False, Guppy True;
   nat(2^63) // int(1): Python 2^63 (-> -2^63 as int), fine by accident, but
   nat(2^63+2) // int(2): Python 2^62+1, Guppy -(2^62-1) *)
Theorem mixed_nat_int_compare_refuted :
  exists x y, 0 <= x < M64 /\ srange y /\
    match run fm0 (resolve_bin T Lt TNat TInt) [VW x; VW (of_s y)] with
    | Some (VB b, _) => b <> (x <? y) | _ => False end.
Proof. exists H64, 0. split; [unfold M64, H64; lia | split; [unfold srange, H64; lia | vm_compute; discriminate]]. Qed.
Theorem mixed_nat_int_eq_refuted :
  match run fm0 (resolve_bin T Eq TNat TInt) [VW (M64 - 1); VW (of_s (-1))] with
  | Some (VB b, _) => b = true /\ (M64 - 1 =? -1) = false | _ => False end.
Proof. vm_compute. split; reflexivity. Qed.
Theorem mixed_nat_int_floordiv_refuted :
  match run fm0 (resolve_bin T FloorDiv TNat TInt) [VW (H64 + 2); VW (of_s 2)] with
  | Some (VW w, _) => w <> wrap_u (py_floordiv (H64 + 2) 2) | _ => False end.
Proof. vm_compute. discriminate. Qed.
(* int ** nat with a nat exponent >= 2^63: Python 1 ** 2^63 = 1, Guppy panics (None) *)
Theorem pow_big_nat_exponent_refuted :
  run fm0 (resolve_bin T Pow TInt TNat) [VW 1; VW H64] = None /\ py_pow 1 H64 = 1.
Proof. split; [vm_compute; reflexivity | unfold py_pow; apply Z.pow_1_l; unfold H64; lia]. Qed.
End Witness.
