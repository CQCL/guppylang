(** Each HUGR op of Int64.v against Python's operator on the values the words stand for,
    reduced into the 64-bit range. *)
From Coq Require Import ZArith Bool Lia Zpow_facts.
From V.C04 Require Import Int64.
Open Scope Z_scope.

Lemma M64_eq : M64 = 2 ^ 64. Proof. reflexivity. Qed.
Lemma H64_eq : H64 = 2 ^ 63. Proof. reflexivity. Qed.
Lemma M64_H64 : M64 = 2 * H64. Proof. reflexivity. Qed.
Lemma M64_pos : 0 < M64. Proof. reflexivity. Qed.

Lemma wrap_u_word z : word (wrap_u z).
Proof. unfold word, wrap_u. apply Z.mod_pos_bound. exact M64_pos. Qed.
Lemma wrap_u_id w : word w -> wrap_u w = w.
Proof. unfold word, wrap_u. intros. apply Z.mod_small. assumption. Qed.
Lemma wrap_s_range z : srange (wrap_s z).
Proof.
  unfold srange, wrap_s. pose proof (Z.mod_pos_bound (z + H64) M64 M64_pos).
  rewrite M64_H64 in *. lia.
Qed.

Lemma to_s_cases w : w < H64 /\ to_s w = w \/ H64 <= w /\ to_s w = w - M64.
Proof. unfold to_s. destruct (Z.ltb_spec w H64); [left | right]; split; auto. Qed.

Lemma to_s_range w : word w -> srange (to_s w).
Proof. unfold word, srange. pose proof M64_H64. destruct (to_s_cases w) as [[? ->] | [? ->]]; lia. Qed.

Lemma to_s_cong w : wrap_u (to_s w) = wrap_u w.
Proof.
  unfold wrap_u. destruct (to_s_cases w) as [[_ ->] | [_ ->]]; [reflexivity|].
  replace (w - M64) with (w + (-1) * M64) by ring. apply Z.mod_add. discriminate.
Qed.
Lemma wrap_u_to_s w : word w -> wrap_u (to_s w) = w.
Proof. intros. rewrite to_s_cong. apply wrap_u_id. assumption. Qed.

Lemma to_s_nonneg w : word w -> 0 <= to_s w -> to_s w = w.
Proof. unfold word. pose proof M64_H64. destruct (to_s_cases w) as [[? ->] | [? ->]]; lia. Qed.
Lemma to_s_small w : w < H64 -> to_s w = w.
Proof. destruct (to_s_cases w) as [[? ->] | [? ->]]; lia. Qed.
Lemma to_s_inj a b : word a -> word b -> to_s a = to_s b -> a = b.
Proof. intros Ha Hb E. rewrite <- (wrap_u_to_s a Ha), <- (wrap_u_to_s b Hb), E. reflexivity. Qed.

Lemma wrap_s_id z : srange z -> wrap_s z = z.
Proof.
  unfold srange, wrap_s. intros. rewrite Z.mod_small; [ring | rewrite M64_H64; lia].
Qed.
Lemma to_s_word_wrap_s w : word w -> to_s w = wrap_s w.
Proof.
  intros Hw. unfold wrap_s. unfold word in Hw. pose proof M64_H64.
  destruct (to_s_cases w) as [[? ->] | [? ->]].
  - rewrite Z.mod_small; lia.
  - replace (w + H64) with (w - H64 + 1 * M64) by lia. rewrite Z.mod_add, Z.mod_small; lia.
Qed.
Lemma to_s_wrap_u z : to_s (wrap_u z) = wrap_s z.
Proof.
  rewrite (to_s_word_wrap_s _ (wrap_u_word z)). unfold wrap_s, wrap_u.
  rewrite Zplus_mod_idemp_l. reflexivity.
Qed.
Lemma wrap_u_idem z : wrap_u (wrap_u z) = wrap_u z.
Proof. unfold wrap_u. apply Z.mod_mod. discriminate. Qed.

Lemma iadd_ok x y a b : a = wrap_u x -> b = wrap_u y -> iadd a b = wrap_u (x + y).
Proof. intros -> ->. symmetry. apply Zplus_mod. Qed.
Lemma isub_ok x y a b : a = wrap_u x -> b = wrap_u y -> isub a b = wrap_u (x - y).
Proof. intros -> ->. symmetry. apply Zminus_mod. Qed.
Lemma imul_ok x y a b : a = wrap_u x -> b = wrap_u y -> imul a b = wrap_u (x * y).
Proof. intros -> ->. symmetry. apply Zmult_mod. Qed.
Lemma ineg_ok x a : a = wrap_u x -> ineg a = wrap_u (- x).
Proof. intros ->. exact (isub_ok 0 x 0 _ eq_refl eq_refl). Qed.
Lemma ipow_ok x a e : a = wrap_u x -> ipow a e = wrap_u (x ^ e).
Proof. intros ->. symmetry. apply Zpower_mod, M64_pos. Qed.
Lemma ishl_ok x a k : a = wrap_u x -> 0 <= k -> ishl a k = wrap_u (Z.shiftl x k).
Proof. intros -> Hk. unfold ishl. rewrite !Z.shiftl_mul_pow2 by assumption. apply Zmult_mod_idemp_l. Qed.

(* x mod 2^64 = x land ones, which commutes with a bitwise operation that maps two zero bits to zero *)
Lemma wrap_u_land z : wrap_u z = Z.land z (Z.ones 64).
Proof. unfold wrap_u. rewrite M64_eq. symmetry. apply Z.land_ones. lia. Qed.
Lemma bitwise_wrap (f : Z -> Z -> Z) (g : bool -> bool -> bool) x y :
  (forall a b n, Z.testbit (f a b) n = g (Z.testbit a n) (Z.testbit b n)) -> g false false = false ->
  f (wrap_u x) (wrap_u y) = wrap_u (f x y).
Proof.
  intros Hf Hg. rewrite !wrap_u_land. apply Z.bits_inj'. intros n _. rewrite Z.land_spec, !Hf, !Z.land_spec.
  destruct (Z.testbit (Z.ones 64) n); [rewrite !andb_true_r | rewrite !andb_false_r, Hg]; reflexivity.
Qed.
Lemma iand_ok x y a b : a = wrap_u x -> b = wrap_u y -> iand a b = wrap_u (Z.land x y).
Proof. intros -> ->. exact (bitwise_wrap Z.land andb x y Z.land_spec eq_refl). Qed.
Lemma ior_ok x y a b : a = wrap_u x -> b = wrap_u y -> ior a b = wrap_u (Z.lor x y).
Proof. intros -> ->. exact (bitwise_wrap Z.lor orb x y Z.lor_spec eq_refl). Qed.
Lemma ixor_ok x y a b : a = wrap_u x -> b = wrap_u y -> ixor a b = wrap_u (Z.lxor x y).
Proof. intros -> ->. exact (bitwise_wrap Z.lxor xorb x y Z.lxor_spec eq_refl). Qed.
(* ~x = -x - 1, and 2^64 - 1 - a is already a word *)
Lemma inot_ok x a : a = wrap_u x -> inot a = wrap_u (Z.lnot x).
Proof.
  intros ->. unfold inot, Z.lnot, Z.pred, wrap_u. pose proof (Z.mod_pos_bound x M64 M64_pos).
  apply Z.mod_unique_pos with (q := - (x / M64) - 1); [lia|].
  rewrite (Z.div_mod x M64) at 1 by discriminate. ring.
Qed.

Lemma iabs_ok a : word a -> iabs a = wrap_u (Z.abs (to_s a)).
Proof.
  intros H. unfold iabs. symmetry. apply wrap_u_id. pose proof (to_s_range a H).
  unfold word, srange in *. rewrite M64_H64. lia.
Qed.
Lemma div_word a d : word a -> 0 < d -> word (a / d).
Proof.
  unfold word. intros Ha Hd. split; [apply Z.div_pos; lia|].
  apply Z.le_lt_trans with a; [|lia]. apply Z.div_le_upper_bound; [lia|]. nia.
Qed.
Lemma ishr_ok a k : word a -> 0 <= k -> ishr a k = wrap_u (Z.shiftr a k).
Proof.
  intros H Hk. unfold ishr. rewrite Z.shiftr_div_pow2 by assumption. symmetry.
  apply wrap_u_id, div_word; [exact H | apply Z.pow_pos_nonneg; lia].
Qed.

Lemma idivmod_u_ok a b : word a -> word b -> b <> 0 -> idivmod_u a b = Some (wrap_u (a / b), wrap_u (a mod b)).
Proof.
  intros Ha Hb Hz. unfold idivmod_u. destruct (Z.eqb_spec b 0); [contradiction|].
  assert (0 < b) by (unfold word in Hb; lia).
  rewrite (wrap_u_id (a / b)) by (apply div_word; assumption).
  rewrite (wrap_u_id (a mod b)); [reflexivity|].
  pose proof (Z.mod_pos_bound a b). unfold word in *. lia.
Qed.
Lemma idivmod_s_ok a b : word b -> b <> 0 ->
  idivmod_s a b = Some (wrap_u (to_s a / b), wrap_u (to_s a mod b)).
Proof.
  intros Hb Hz. unfold idivmod_s, of_s. destruct (Z.eqb_spec b 0); [contradiction|].
  rewrite (wrap_u_id (to_s a mod b)); [reflexivity|].
  pose proof (Z.mod_pos_bound (to_s a) b). unfold word in *. lia.
Qed.

Lemma eqb_to_s a b : word a -> word b -> (a =? b) = (to_s a =? to_s b).
Proof.
  intros Ha Hb. destruct (Z.eqb_spec a b) as [-> | N]; [symmetry; apply Z.eqb_refl|].
  destruct (Z.eqb_spec (to_s a) (to_s b)) as [E | _]; [|reflexivity].
  destruct N. exact (to_s_inj a b Ha Hb E).
Qed.
Lemma eqb_to_s' a b : word a -> word b -> (b =? a) = (to_s a =? to_s b).
Proof. intros. rewrite Z.eqb_sym. apply eqb_to_s; assumption. Qed.
Lemma eqb_to_s_0 a : word a -> (a =? 0) = (to_s a =? 0).
Proof. intros H. exact (eqb_to_s a 0 H (conj (Z.le_refl 0) eq_refl)). Qed.

Lemma is_to_u_ok a : word a -> 0 <= to_s a -> is_to_u a = Some (wrap_u (to_s a)).
Proof.
  intros Ha H. unfold is_to_u. destruct (Z.ltb_spec (to_s a) 0); [lia|].
  rewrite wrap_u_to_s by assumption. reflexivity.
Qed.

Lemma ilt_s_zero_false w : 0 <= to_s w -> ilt_s w 0 = false.
Proof. intros H. apply Z.ltb_ge. exact H. Qed.
