(** Every entry of the generated tables: each operator form at every operand type. *)
From V.C04 Require Import Proofs.

Lemma bin_ok_all fm op t1 t2 : bin_ok fm op t1 t2.
Proof. destruct op, t1, t2; entry fm. Qed.
Lemma un_ok_all fm op t : un_ok fm op t.
Proof. destruct op, t; entry fm. Qed.
Lemma not_ok_all fm t : not_ok fm t.
Proof. destruct t; entry fm. Qed.
Lemma conv_ok_all fm target t : conv_ok fm target t.
Proof. destruct target, t; entry fm. Qed.
Lemma abs_ok_all fm t : abs_ok fm t.
Proof. destruct t; entry fm. Qed.
Lemma pow_ok_all fm t1 t2 : pow_ok fm t1 t2.
Proof. destruct t1, t2; entry fm. Qed.
Lemma divmod_ok_all fm t1 t2 : divmod_ok fm t1 t2.
Proof. destruct t1, t2; entry fm. Qed.
