(** C04, float part — concrete IEEE-754 binary64 model on Coq's primitive floats.
    [pfm pw rnd] (Float64.v) gives every HUGR float op of the tables its IEEE definition
    (pow / round stay parameters).  [pyf_bin] is Python's semantics with the entries that
    are not a plain IEEE op made concrete (float // % via CPython's float_divmod, int/int
    true division correctly rounded, int<->float comparison exact); it is validated against
    the real CPython on every run. *)
From Coq Require Import ZArith String List PrimFloat.
From V.C04 Require Import NumBase ModelNum Proofs ProofsAll Float64.
Import ListNotations.
Open Scope Z_scope.

(** Same IEEE operation on both sides, for ALL floats (nan, +-0, inf included): the
    table-wide theorems of Props.v hold for the concrete model, i.e. for the float entries:
    float add sub mul truediv are IEEE add/sub/mul/div, == != < <= > >= are IEEE eq/lt/le (false on
    nan; != true on nan), unary - / abs are sign operations, float(int) is the correctly
    rounded conversion, int(float) the truncation (in range), bool(float) is `x != 0.0`,
    and mixed int/nat with float arithmetic forms convert the integer operand first, exactly
    as CPython does.  For pow and round: the same uninterpreted function. *)
Theorem float_entries_same_ieee_operation : forall pw rnd,
  let fm := pfm pw rnd in
  Forall (fun c => bin_ok fm (fst c) (fst (snd c)) (snd (snd c))) bin_entries /\
  Forall (fun c => un_ok fm (fst c) (snd c)) un_entries /\
  Forall (not_ok fm) all_gty /\
  Forall (fun c => conv_ok fm (fst c) (snd c)) ty_pairs /\
  Forall (abs_ok fm) all_gty /\ Forall (fun c => pow_ok fm (fst c) (snd c)) ty_pairs.
Proof.
  intros pw rnd fm.
  repeat split; apply Forall_forall; intros c _;
    [apply bin_ok_all | apply un_ok_all | apply not_ok_all | apply conv_ok_all | apply abs_ok_all | apply pow_ok_all].
Qed.
Print Assumptions float_entries_same_ieee_operation.

Definition obs {fm : FloatModel} (tob : F fm -> Z) (r : option (value fm * rty)) : option (list Z) :=
  match r with
  | Some (VF f, _) => Some [tob f]
  | Some (VB b, _) => Some [if b then 1 else 0]
  | Some (VP (VF a) (VF b), _) => Some [tob a; tob b]
  | _ => None end.

Section W.
Variable pw : float -> float -> float.
Variable rnd : float -> float.
Local Notation fm := (pfm pw rnd).
Definition gbin (op : pybin) (t1 t2 : gty) (a b : value fm) : option (list Z) :=
  obs (fm := fm) bits_of_float (run fm (resolve_bin T op t1 t2) [a; b]).
Definition pbin (op : pybin) (a b : pyv fm) : option (list Z) :=
  match pyf_bin pw rnd op a b with
  | Some (PF f) => Some [bits_of_float f]
  | Some (PB b) => Some [if b then 1 else 0]
  | _ => None end.
Definition fl (bits : Z) : float := float_of_bits bits.

(* bit patterns: 1.0 = 0x3FF0000000000000, 0.1 = 0x3FB999999999999A, 10.0 = 0x4024..., 9.0 = 0x4022... *)
Definition b_1_0 := 4607182418800017408.
Definition b_0_1 := 4591870180066957722.
(* decoding a bit pattern is long division in binary: done once for the four theorems that start from these two *)
Lemma fl_1_0 : fl b_1_0 = 1%float. Proof. vm_compute. reflexivity. Qed.
Lemma fl_0_1 : fl b_0_1 = 0x1.999999999999ap-4%float. Proof. vm_compute. reflexivity. Qed.

(** 1.0 // 0.1 : Guppy floor(fdiv) = 10.0, Python 9.0 *)
Theorem float_floordiv_refuted :
  gbin FloorDiv TFloat TFloat (VF (fl b_1_0 : F fm)) (VF (fl b_0_1 : F fm)) = Some [4621819117588971520]
  /\ pbin FloorDiv (PF (fl b_1_0 : F fm)) (PF (fl b_0_1 : F fm)) = Some [4621256167635550208].
Proof. rewrite fl_1_0, fl_0_1. split; vm_compute; reflexivity. Qed.

(** 1.0 % 0.1 : Guppy 1.0 - 10.0*0.1 = 0.0, Python 0.09999999999999995 (0x3FB9999999999996) *)
Theorem float_mod_refuted :
  gbin Mod TFloat TFloat (VF (fl b_1_0 : F fm)) (VF (fl b_0_1 : F fm)) = Some [0]
  /\ pbin Mod (PF (fl b_1_0 : F fm)) (PF (fl b_0_1 : F fm)) = Some [4591870180066957718].
Proof. rewrite fl_1_0, fl_0_1. split; vm_compute; reflexivity. Qed.

(** divmod(1.0, 0.1) : Guppy (10.0, 0.0), Python (9.0, 0.09999999999999995) *)
Theorem float_divmod_refuted :
  obs (fm := fm) bits_of_float (run fm (resolve_builtin T "divmod" [TFloat; TFloat]) [VF (fl b_1_0 : F fm); VF (fl b_0_1 : F fm)])
    = Some [4621819117588971520; 0]
  /\ option_map (fun p => [bits_of_float (fst p); bits_of_float (snd p)]) (py_float_divmod (fl b_1_0) (fl b_0_1))
    = Some [4621256167635550208; 4591870180066957718].
Proof. rewrite fl_1_0, fl_0_1. split; vm_compute; reflexivity. Qed.

(** 1 // 0.1 (int // float): same formula after convert_s *)
Theorem int_float_floordiv_refuted :
  gbin FloorDiv TInt TFloat (VW 1) (VF (fl b_0_1 : F fm)) = Some [4621819117588971520]
  /\ pbin FloorDiv (PZ 1) (PF (fl b_0_1 : F fm)) = Some [4621256167635550208].
Proof. rewrite fl_0_1. split; vm_compute; reflexivity. Qed.

(** (3*2^53+3) / 3 : Guppy rounds both operands, then divides = 2^53+2; Python's correctly
    rounded quotient of 2^53+1 is 2^53 *)
Definition big3 := 27021597764222979.
Theorem int_truediv_refuted :
  gbin Div TInt TInt (VW big3) (VW 3) = Some [4845873199050653697]
  /\ pbin Div (PZ big3) (PZ 3) = Some [4845873199050653696].
Proof. split; vm_compute; reflexivity. Qed.
Theorem nat_truediv_refuted :
  gbin Div TNat TNat (VW big3) (VW 3) = Some [4845873199050653697]
  /\ pbin Div (PZ big3) (PZ 3) = Some [4845873199050653696].
Proof. split; vm_compute; reflexivity. Qed.

(** (2^53+1) == 9007199254740992.0 : Guppy converts the int first (True); Python compares
    exactly (False).  9007199254740992.0 < 2^53+1 : Guppy False, Python True *)
Definition p53 := 9007199254740992.
Theorem int_float_eq_refuted :
  gbin Eq TInt TFloat (VW (p53 + 1)) (VF (pf_of_Z p53 : F fm)) = Some [1]
  /\ pbin Eq (PZ (p53 + 1)) (PF (pf_of_Z p53 : F fm)) = Some [0].
Proof. split; vm_compute; reflexivity. Qed.
Theorem float_int_lt_refuted :
  gbin Lt TFloat TInt (VF (pf_of_Z p53 : F fm)) (VW (p53 + 1)) = Some [0]
  /\ pbin Lt (PF (pf_of_Z p53 : F fm)) (PZ (p53 + 1)) = Some [1].
Proof. split; vm_compute; reflexivity. Qed.

(** entries that agree on a non-trivial instance (not theorems over all floats: the
    check compares them with CPython on a grid every run): 7.5 // 2.0 = 3.0, -7.5 % 2.0 = 0.5 *)
Example float_floordiv_instance :
  gbin FloorDiv TFloat TFloat (VF (div (pf_of_Z 15) two : F fm)) (VF (two : F fm))
  = pbin FloorDiv (PF (div (pf_of_Z 15) two : F fm)) (PF (two : F fm))
  /\ gbin Mod TFloat TFloat (VF (div (pf_of_Z (-15)) two : F fm)) (VF (two : F fm)) = Some [bits_of_float half].
Proof. split; vm_compute; reflexivity. Qed.
End W.
Print Assumptions float_floordiv_refuted.
Print Assumptions int_truediv_refuted.
Print Assumptions int_float_eq_refuted.
