(* C01 — DFContainer keeps the "one holder per linear place" invariant [dfc_inv]: [get_spec] for
   __getitem__ (all of it is [pack_inv], packing the children of a place), [set_spec] for __setitem__,
   both by induction on the fuel. *)
From Coq Require Import ZArith List Bool Lia.
From V.C01 Require Import ModelDfc.
Import ListNotations.

Lemma pid_eqb_eq : forall a b, pid_eqb a b = true <-> a = b.
Proof.
  induction a as [|x a IH]; destruct b as [|y b]; simpl; split; intro H; try congruence; auto.
  - apply andb_true_iff in H as [H1 H2]. apply Nat.eqb_eq in H1. apply IH in H2. congruence.
  - inversion H; subst. rewrite Nat.eqb_refl. apply IH. reflexivity.
Qed.

Lemma pid_eqb_refl : forall a, pid_eqb a a = true.
Proof. intro. apply pid_eqb_eq. reflexivity. Qed.

Lemma lookup_Some_In : forall p l w, lookup p l = Some w -> In p (map fst l).
Proof.
  induction l as [|[q v] l IH]; simpl; intros w H; [discriminate|].
  destruct (pid_eqb p q) eqn:E; [left; symmetry; apply pid_eqb_eq; auto | right; eauto].
Qed.

Lemma lookup_None_notIn : forall p l, lookup p l = None -> ~ In p (map fst l).
Proof.
  induction l as [|[q v] l IH]; simpl; intros H; [tauto|].
  destruct (pid_eqb p q) eqn:E; [discriminate|].
  intros [H1 | H1]; [subst; rewrite pid_eqb_refl in E; discriminate | apply IH; auto].
Qed.

Lemma In_remove : forall p l q, In q (map fst (remove p l)) <-> In q (map fst l) /\ q <> p.
Proof.
  intros p l q. unfold remove. rewrite !in_map_iff. split.
  - intros [[a w] [H1 H2]]. apply filter_In in H2 as [H2 H3]. simpl in *. subst. split; [exists (q, w); auto|].
    intro. subst. rewrite pid_eqb_refl in H3. discriminate.
  - intros [[[a w] [H1 H2]] H3]. simpl in *. subst. exists (q, w). split; auto. apply filter_In. split; auto.
    simpl. destruct (pid_eqb p q) eqn:E; auto. apply pid_eqb_eq in E. congruence.
Qed.

Lemma In_remove_all : forall as_ l q,
  In q (map fst (fold_left (fun l a => remove a l) as_ l)) <-> In q (map fst l) /\ ~ In q as_.
Proof.
  induction as_ as [|a as_ IH]; simpl; intros l q; [tauto|].
  rewrite IH, In_remove. intuition (subst; auto).
Qed.

Lemma pop_linear_keys : forall env ps l l', pop_linear env ps l = Some l' ->
  (forall c, In c ps -> lin_at env c = true -> In c (map fst l)) /\
  (forall q, In q (map fst l') <-> In q (map fst l) /\ ~ (In q ps /\ lin_at env q = true)).
Proof.
  induction ps as [|c ps IH]; simpl; intros l l' H.
  - inversion H; subst. tauto.
  - destruct (lin_at env c) eqn:E.
    + destruct (lookup c l) eqn:El; [|discriminate]. destruct (IH _ _ H) as [A B]. split.
      * intros c' [<- | Hc] Hl; [eapply lookup_Some_In; eauto | eapply In_remove, A; auto].
      * intro q. rewrite B, In_remove. intuition (subst; auto).
    + destruct (IH _ _ H) as [A B]. split; [intros c' [<- | Hc] Hl; [congruence | auto]|].
      intro q. rewrite B. intuition congruence.
Qed.

Lemma ty_at_snoc : forall env p i, p <> [] -> ty_at env (p ++ [i]) = step (ty_at env p) i.
Proof.
  intros env [|r sel] i H; [congruence|]. simpl. rewrite fold_left_app. reflexivity.
Qed.

Lemma forallb_nth : forall (f : ty -> bool) cs i c, forallb f cs = true -> nth_error cs i = Some c -> f c = true.
Proof.
  intros f cs i c H Hn. rewrite forallb_forall in H. apply H. eapply nth_error_In; eauto.
Qed.

Lemma forallb_false_nth : forall (f : ty -> bool) cs, forallb f cs = false ->
  exists i c, nth_error cs i = Some c /\ f c = false.
Proof.
  induction cs as [|c cs IH]; simpl; intro H; [discriminate|].
  destruct (f c) eqn:E.
  - destruct (IH H) as [i [c' [H1 H2]]]. exists (S i), c'. auto.
  - exists 0, c. auto.
Qed.

Lemma linear_child_parent : forall cs i c, nth_error cs i = Some c -> linear c = true -> linear (TNode cs) = true.
Proof.
  intros cs i c Hn Hl. unfold linear in *. apply andb_true_iff in Hl as [H1 H2].
  apply negb_true_iff in H1, H2. simpl.
  destruct (forallb copyable cs) eqn:E1; [rewrite (forallb_nth _ _ _ _ E1 Hn) in H1; discriminate|].
  destruct (forallb droppable cs) eqn:E2; [rewrite (forallb_nth _ _ _ _ E2 Hn) in H2; discriminate|].
  reflexivity.
Qed.

Lemma lin_snoc : forall env p i, p <> [] -> lin_at env (p ++ [i]) = true -> lin_at env p = true.
Proof.
  intros env p i Hp H. unfold lin_at in *. rewrite ty_at_snoc in H by auto.
  destruct (ty_at env p) as [[c d|cs]|]; simpl in H; try discriminate.
  destruct (nth_error cs i) eqn:E; [|discriminate]. eapply linear_child_parent; eauto.
Qed.

Lemma lin_anc : forall env p r, p <> [] -> lin_at env (p ++ r) = true -> lin_at env p = true.
Proof.
  intros env p r Hp. induction r as [|i r IH] using rev_ind; intro H.
  - rewrite app_nil_r in H. auto.
  - rewrite app_assoc in H. apply lin_snoc in H; auto. destruct p; simpl; congruence.
Qed.

Lemma nodrop_nocopy : forall t, no_relevant t = true -> droppable t = false -> copyable t = false.
Proof.
  fix IH 1. intros [c d|cs]; simpl.
  - intros H ->. destruct c; [discriminate H | reflexivity].
  - (* the first child that cannot be dropped cannot be copied either *)
    induction cs as [|t cs IHcs]; simpl; [discriminate|]. intros Hr Hd.
    apply andb_true_iff in Hr as [Hr1 Hr2]. destruct (droppable t) eqn:Ed.
    + rewrite (IHcs Hr2 Hd). apply andb_false_r.
    + rewrite (IH t Hr1 Ed). reflexivity.
Qed.

Lemma linear_node_has_linear_child : forall cs, no_relevant (TNode cs) = true -> linear (TNode cs) = true ->
  exists i c, nth_error cs i = Some c /\ linear c = true.
Proof.
  intros cs Hr Hl. unfold linear in Hl. apply andb_true_iff in Hl as [_ H2]. apply negb_true_iff in H2.
  simpl in H2. destruct (forallb_false_nth _ _ H2) as [i [c [Hn Hd]]]. exists i, c. split; auto.
  simpl in Hr. pose proof (forallb_nth _ _ _ _ Hr Hn) as Hc.
  unfold linear. rewrite (nodrop_nocopy _ Hc Hd), Hd. reflexivity.
Qed.

Lemma fold_step_norel : forall sel ot t, (forall t0, ot = Some t0 -> no_relevant t0 = true) ->
  fold_left step sel ot = Some t -> no_relevant t = true.
Proof.
  induction sel as [|i sel IH]; simpl; intros ot t H Hf; auto.
  eapply IH; [|exact Hf]. intros t0 Ht0. destruct ot as [[c d|cs]|]; simpl in Ht0; try discriminate.
  specialize (H _ eq_refl). simpl in H. eapply forallb_nth; eauto.
Qed.

Lemma ty_at_norel : forall env p t, env_ok env = true -> ty_at env p = Some t -> no_relevant t = true.
Proof.
  intros env [|r sel] t He H; simpl in H; [discriminate|].
  eapply fold_step_norel; [|exact H]. intros t0 Ht0. unfold env_ok in He. rewrite forallb_forall in He.
  apply He. eapply nth_error_In; eauto.
Qed.

Lemma child_in : forall p cs i, i < length cs -> In (p ++ [i]) (children_pids p cs).
Proof. intros. unfold children_pids. apply in_map_iff. exists i. split; auto. apply in_seq. lia. Qed.

Lemma sprefix_split : forall p q, sprefix p q -> exists i r, q = (p ++ [i]) ++ r.
Proof. intros p q [[|i r] [H1 H2]]; [congruence|]. exists i, r. rewrite <- app_assoc. auto. Qed.

Lemma sprefix_irrefl : forall p, ~ sprefix p p.
Proof.
  intros p [r [H1 H2]]. apply (f_equal (@length nat)) in H2. rewrite app_length in H2.
  destruct r; [congruence | simpl in H2; lia].
Qed.

Lemma sprefix_child : forall (x p : pid) i, sprefix x p -> sprefix x (p ++ [i]).
Proof.
  intros x p i [r [_ Hr]]. exists (r ++ [i]). split; [destruct r; simpl; congruence|].
  subst. rewrite app_assoc. reflexivity.
Qed.

Lemma lin_child_is_child : forall env p cs i, p <> [] -> ty_at env p = Some (TNode cs) ->
  lin_at env (p ++ [i]) = true -> In (p ++ [i]) (children_pids p cs).
Proof.
  intros env p cs i Hp Ht Hl. apply child_in. unfold lin_at in Hl. rewrite ty_at_snoc, Ht in Hl by auto.
  simpl in Hl. destruct (nth_error cs i) eqn:E; [|discriminate]. apply nth_error_Some. congruence.
Qed.

Lemma linear_child_of : forall env p cs, env_ok env = true -> p <> [] -> ty_at env p = Some (TNode cs) ->
  lin_at env p = true -> exists i, In (p ++ [i]) (children_pids p cs) /\ lin_at env (p ++ [i]) = true.
Proof.
  intros env p cs He Hp Ht Hl. unfold lin_at in Hl. rewrite Ht in Hl.
  destruct (linear_node_has_linear_child cs (ty_at_norel _ _ _ He Ht) Hl) as [i [c [Hn Hc]]].
  exists i. assert (Hlc : lin_at env (p ++ [i]) = true).
  { unfold lin_at. rewrite ty_at_snoc, Ht by auto. simpl. rewrite Hn. exact Hc. }
  split; auto. eapply lin_child_is_child; eauto.
Qed.

Lemma pack_inv : forall env p cs l l', env_ok env = true -> ty_at env p = Some (TNode cs) ->
  dfc_inv_keys env (map fst l) -> pop_linear env (children_pids p cs) l = Some l' ->
  dfc_inv_keys env (p :: map fst l').
Proof.
  intros env p cs l l' He Et I2 Ep. destruct (pop_linear_keys _ _ _ _ Ep) as [B2 Hk].
  assert (Hp : p <> []) by (destruct p; [discriminate Et | discriminate]).
  intros x y Hx [Ex|Hinx] [Ey|Hiny] Hsp.
  - subst x y. exfalso. eapply sprefix_irrefl; eauto.
  - (* a linear y below p lies under a linear child: an entry of l, or y itself, which was popped *)
    subst x. apply Hk in Hiny as [Hy1 Hy2]. destruct (lin_at env y) eqn:Ely; auto. exfalso.
    destruct (sprefix_split _ _ Hsp) as [i [r Hy]].
    assert (Hcne : p ++ [i] <> []) by (destruct p; simpl; congruence).
    assert (Hlc : lin_at env (p ++ [i]) = true) by (apply (lin_anc env _ r); auto; rewrite <- Hy; auto).
    pose proof (lin_child_is_child _ _ _ _ Hp Et Hlc) as Hchild.
    destruct r as [|j r'].
    + rewrite app_nil_r in Hy. subst y. apply Hy2. auto.
    + assert (Hs : sprefix (p ++ [i]) y) by (exists (j :: r'); split; [congruence | auto]).
      pose proof (I2 _ _ Hcne (B2 _ Hchild Hlc) Hy1 Hs). congruence.
  - (* a linear p has a linear child, an entry of l like x above it *)
    subst y. apply Hk in Hinx as [Hx1 _]. destruct (lin_at env p) eqn:Elp; auto.
    destruct (linear_child_of _ _ _ He Hp Et Elp) as [i [Hchild Hlc]].
    rewrite <- Hlc. eapply I2; eauto. apply sprefix_child, Hsp.
  - apply Hk in Hinx as [Hx1 _]. apply Hk in Hiny as [Hy1 _]. eapply I2; eauto.
Qed.

Lemma get_list_inv : forall env (getf : pid -> state -> option (wire * state)),
  (forall p st w st', dfc_inv env st -> getf p st = Some (w, st') -> dfc_inv env st') ->
  forall ps st ws st', dfc_inv env st -> get_list getf ps st = Some (ws, st') -> dfc_inv env st'.
Proof.
  intros env getf H. induction ps as [|q ps IH]; simpl; intros st ws st' Hi Hg.
  - inversion Hg; subst; auto.
  - destruct (getf q st) as [[w st1]|] eqn:E; [|discriminate].
    destruct (get_list getf ps st1) as [[ws' st2]|] eqn:E1; [|discriminate]. inversion Hg; subst. eauto.
Qed.

(* nothing need be said of which keys the gets of the children leave: that the pop after them succeeds
   is what puts every linear child among the keys when p is packed *)
Lemma get_spec : forall env, env_ok env = true ->
  forall f p st w st', dfc_inv env st -> get env f p st = Some (w, st') -> dfc_inv env st'.
Proof.
  intros env He. induction f as [|f IHf]; intros p st w st'' Hinv H; [discriminate|].
  cbn [get] in H. destruct (lookup p (locals st)) as [w0|]; [inversion H; subst; exact Hinv|].
  destruct (ty_at env p) as [[c d|cs]|] eqn:Et; try discriminate.
  destruct (get_list (get env f) (children_pids p cs) st) as [[ws st']|] eqn:Eg; [|discriminate].
  destruct (pop_linear env (children_pids p cs) (locals st')) as [l'|] eqn:Ep; [|discriminate].
  inversion H; subst; clear H.
  apply (pack_inv env p cs (locals st') l' He Et); [|exact Ep].
  exact (get_list_inv env _ IHf _ _ _ _ Hinv Eg).
Qed.

Lemma fold_step_none : forall r, fold_left step r None = None.
Proof. induction r; simpl; auto. Qed.

Lemma leaf_no_children : forall env p c d r, ty_at env p = Some (TLeaf c d) -> r <> [] -> ty_at env (p ++ r) = None.
Proof.
  intros env [|x sel] c d r H Hr; simpl in *; [discriminate|].
  rewrite fold_left_app, H. destruct r as [|i r]; [congruence|]. simpl. apply fold_step_none.
Qed.

Lemma ancestors_complete : forall p a, a <> [] -> sprefix a p -> In a (ancestors p).
Proof.
  induction p as [|x p IH]; intros a Ha [r [Hr Hp]].
  - destruct a; [congruence | discriminate].
  - destruct a as [|y a]; [congruence|]. simpl in Hp. injection Hp as Hxy Hp'. subst y.
    destruct a as [|z a].
    + simpl in Hp'. subst p. destruct r as [|i r]; [congruence|]. simpl. left. reflexivity.
    + subst p. change (In (x :: z :: a) ([x] :: map (cons x) (ancestors ((z :: a) ++ r)))). right.
      apply in_map. apply IH; [congruence|]. exists r. auto.
Qed.

Lemma set_list_inv : forall env (setf : pid -> wire -> state -> option state),
  (forall p w st st', dfc_inv env st -> setf p w st = Some st' -> dfc_inv env st') ->
  forall pws st st', dfc_inv env st -> set_list setf pws st = Some st' -> dfc_inv env st'.
Proof.
  intros env setf H. induction pws as [|[q w] pws IH]; simpl; intros st st' Hi Hs.
  - inversion Hs; subst; auto.
  - destruct (setf q w st) as [st1|] eqn:E; [|discriminate]. eauto.
Qed.

Lemma set_spec : forall env f p w st st', dfc_inv env st -> set true env f p w st = Some st' -> dfc_inv env st'.
Proof.
  intros env. induction f as [|f IH]; intros p w st st' Hinv H; [discriminate|].
  cbn [set] in H. destruct (ty_at env p) as [[c d|cs]|] eqn:Et; [| |discriminate].
  - inversion H; subst; clear H. unfold dfc_inv, keys. simpl.
    intros x y Hx Hinx Hiny Hsp.
    apply In_remove_all in Hinx as [Hinx Hax]. apply In_remove_all in Hiny as [Hiny Hay].
    simpl in Hinx, Hiny.
    destruct Hiny as [Ey | Hiny].
    + subst y. exfalso. apply Hax. apply ancestors_complete; auto.
    + destruct Hinx as [Ex | Hinx].
      * subst x. destruct Hsp as [r [Hr Hy]]. unfold lin_at. subst y.
        rewrite (leaf_no_children _ _ _ _ _ Et Hr). reflexivity.
      * apply In_remove in Hinx as [Hinx _]. apply In_remove in Hiny as [Hiny _]. eapply Hinv; eauto.
  - simpl in H.
    destruct (set_list (set true env f) _ _) as [st2|] eqn:Es; [|discriminate]. inversion H; subst; clear H.
    assert (I2 : dfc_inv env st2).
    { eapply set_list_inv; [| |exact Es]; [intros; eapply IH; eauto | exact Hinv]. }
    unfold dfc_inv, keys. simpl. intros x y Hx Hinx Hiny Hsp.
    apply In_remove in Hinx as [Hinx _]. apply In_remove in Hiny as [Hiny _]. eapply I2; eauto.
Qed.

Lemma run_inv : forall env, env_ok env = true -> forall script st st',
  dfc_inv env st -> run_script env script st = Some st' -> dfc_inv env st'.
Proof.
  intros env He. unfold run_script. induction script as [|[p|p] rest IH]; intros st st' Hinv H.
  - simpl in H. inversion H; subst; auto.
  - cbn [run_gen] in H.
    destruct (set true env FUEL p (next st) (mkState (locals st) (S (next st)) (log st))) as [st1|] eqn:E; [|discriminate].
    eapply IH; [|exact H]. eapply set_spec; [|exact E]. exact Hinv.
  - cbn [run_gen] in H.
    destruct (get env FUEL p st) as [[w st1]|] eqn:E; [|discriminate].
    eapply IH; [|exact H]. eapply get_spec; eauto.
Qed.

(* s = S(qubit, int); use s whole; s.q = fresh *)
Definition bad_env : list ty := [TNode [TLeaf false false; TLeaf true true]].
Definition bad_script : list sop := [SSet [0]; SGet [0]; SSet [0; 0]].

Example dfc_fixed_ok : exists st, run_script bad_env (bad_script ++ [SGet [0]]) empty_dfc = Some st
  /\ dfc_inv_b bad_env st = true /\ keys st = [[0]; [0; 1]].
Proof. eexists. split; [vm_compute; reflexivity|]. split; reflexivity. Qed.
