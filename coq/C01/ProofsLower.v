(* C01 — the block-wiring core of cfg_compiler.py.  compare_var compares key tuples, so its order
   properties are those of the component comparisons ([good], [keyed]); what a successor declares
   ([edge_declared]) and what a block delivers ([block_delivers]) meet at [edge_row].  Then
   insert_return_vars ([patched]: what a block becomes; [insert_exit_row]) and the Conditional of
   choose_vars_for_tuple_sum ([case_value], [case_outputs_row]). *)
From Coq Require Import ZArith List Bool Lia Permutation Sorted.
From V.C01 Require Import ModelLower ModelCond.
Import ListNotations.
Open Scope Z_scope.

Section Good.
  Context {X : Type}.
  Record good (cmp : X -> X -> comparison) : Prop := mkGood {
    g_eq : forall x y, cmp x y = Eq <-> x = y;
    g_sym : forall x y, cmp y x = CompOpp (cmp x y);
    g_trans : forall x y z, cmp x y = Lt -> cmp y z = Lt -> cmp x z = Lt }.
End Good.

Lemma good_Z : good Z.compare.
Proof.
  constructor.
  - intros. apply Z.compare_eq_iff.
  - intros. apply Z.compare_antisym.
  - intros x y z. rewrite !Z.compare_lt_iff. lia.
Qed.

Lemma good_bool : good bool_cmp.
Proof.
  constructor.
  - intros [|] [|]; simpl; split; congruence.
  - intros [|] [|]; reflexivity.
  - intros [|] [|] [|]; simpl; congruence.
Qed.

Lemma good_refl : forall {X} (cmp : X -> X -> comparison), good cmp -> forall x, cmp x x = Eq.
Proof. intros X cmp G x. apply (g_eq _ G). reflexivity. Qed.

(* one lexicographic step, with any continuation r: list_cmp and pair_cmp both unfold to it *)
Section Lex.
  Context {X : Type} (e : X -> X -> comparison) (G : good e).

  Lemma lex_eq : forall x y (r : comparison),
    match e x y with Eq => r | c => c end = Eq <-> x = y /\ r = Eq.
  Proof. intros x y r. rewrite <- (g_eq e G). destruct (e x y); intuition congruence. Qed.

  Lemma lex_opp : forall x y (r r' : comparison), r' = CompOpp r ->
    match e y x with Eq => r' | c => c end = CompOpp (match e x y with Eq => r | c => c end).
  Proof. intros x y r r' ->. rewrite (g_sym e G x y). destruct (e x y); reflexivity. Qed.

  Lemma lex_trans : forall x y z (r1 r2 r3 : comparison), (r1 = Lt -> r2 = Lt -> r3 = Lt) ->
    match e x y with Eq => r1 | c => c end = Lt -> match e y z with Eq => r2 | c => c end = Lt ->
    match e x z with Eq => r3 | c => c end = Lt.
  Proof.
    intros x y z r1 r2 r3 H.
    destruct (e x y) eqn:E1; try discriminate; destruct (e y z) eqn:E2; try discriminate; intros H1 H2.
    - apply (g_eq e G) in E1. apply (g_eq e G) in E2. subst. rewrite (good_refl e G). auto.
    - apply (g_eq e G) in E1. subst. rewrite E2. reflexivity.
    - apply (g_eq e G) in E2. subst. rewrite E1. reflexivity.
    - rewrite (g_trans e G _ _ _ E1 E2). reflexivity.
  Qed.
End Lex.

Lemma good_list : forall {X} (e : X -> X -> comparison), good e -> good (list_cmp e).
Proof.
  intros X e G. constructor.
  - induction x as [|a x IH]; destruct y as [|b y]; simpl; try (split; congruence).
    rewrite (lex_eq e G), IH. intuition congruence.
  - induction x as [|a x IH]; destruct y as [|b y]; simpl; auto. apply (lex_opp e G), IH.
  - induction x as [|a x IH]; destruct y as [|b y]; destruct z as [|c z]; simpl; try congruence.
    apply (lex_trans e G), IH.
Qed.

Lemma good_pair : forall {X Y} (e1 : X -> X -> comparison) (e2 : Y -> Y -> comparison),
  good e1 -> good e2 -> good (pair_cmp e1 e2).
Proof.
  intros X Y e1 e2 G1 G2. unfold pair_cmp. constructor.
  - intros [a b] [c d]. simpl. rewrite (lex_eq e1 G1), (g_eq e2 G2). intuition congruence.
  - intros [a b] [c d]. apply (lex_opp e1 G1), (g_sym e2 G2).
  - intros [a b] [c d] [f g]. apply (lex_trans e1 G1), (g_trans e2 G2).
Qed.

Lemma good_str : good str_cmp.
Proof. apply good_list, good_Z. Qed.

(* Python compares the key tuples of the variables *)
Definition keyed (cmp : var -> var -> comparison) : Prop :=
  exists (X : Type) (key : var -> X) (e : X -> X -> comparison),
    good e /\ forall a b, cmp a b = e (key a) (key b).

Lemma ccmp_keyed : forall c, keyed (ccmp c).
Proof.
  intros [].
  - exists bool, (fun v => negb (v_drop v)), bool_cmp. split; [apply good_bool | reflexivity].
  - exists _, (fun v => name_sort_key (v_name v)), natkey_cmp. split; [|reflexivity].
    apply good_list, good_pair; [apply good_Z | apply good_str].
  - exists _, v_name, str_cmp. split; [apply good_str | reflexivity].
Qed.

Lemma lex_keyed : forall spec, keyed (lex_cmp spec).
Proof.
  induction spec as [|c spec (X2 & k2 & e2 & G2 & E2)].
  - exists unit, (fun _ => tt), (fun _ _ => Eq). split; [|reflexivity].
    constructor; [intros [] []; tauto | reflexivity | discriminate].
  - destruct (ccmp_keyed c) as (X1 & k1 & e1 & G1 & E1).
    exists (X1 * X2)%type, (fun v => (k1 v, k2 v)), (pair_cmp e1 e2). split; [apply good_pair; auto|].
    intros a b. simpl. rewrite E1, E2. reflexivity.
Qed.

Lemma lex_eq_name : forall spec a b, has_comp CName spec = true ->
  lex_cmp spec a b = Eq -> v_name a = v_name b.
Proof.
  induction spec as [|c spec IH]; simpl; intros a b Hh H; [discriminate|].
  destruct (ccmp c a b) eqn:E; try discriminate.
  destruct c; simpl in Hh; auto.
  simpl in E. apply (g_eq _ good_str) in E. exact E.
Qed.

(* [vlt]: K(a) < K(b) under cmp_to_key(compare_var).  [var_key]: str(place), the component of the key that
   differs between any two items of a row ([keys]: those of a row) *)
Definition vlt (a b : var) : Prop := var_ltb a b = true.
Definition var_key (v : var) : list Z := v_name v.

Lemma var_ltb_lex : forall a b, var_ltb a b = true <-> lex_cmp key_spec a b = Lt.
Proof.
  intros. unfold var_ltb, compare_var.
  destruct (lex_cmp key_spec a b); split; intro H; try reflexivity; try discriminate H;
    vm_compute in H; discriminate H.
Qed.

(* checked by computation: fails to compile if the source stops using the raw name as a key component *)
Lemma key_spec_has_name : has_comp CName key_spec = true.
Proof. reflexivity. Qed.

Lemma vlt_irrefl : forall a, ~ vlt a a.
Proof.
  intros a H. apply var_ltb_lex in H. destruct (lex_keyed key_spec) as (X & k & e & G & E).
  rewrite E, (good_refl e G) in H. discriminate.
Qed.

Lemma vlt_trans : forall a b c, vlt a b -> vlt b c -> vlt a c.
Proof.
  unfold vlt. intros a b c. rewrite !var_ltb_lex. destruct (lex_keyed key_spec) as (X & k & e & G & E).
  rewrite !E. apply (g_trans e G).
Qed.

Lemma lex_sym : forall a b, lex_cmp key_spec b a = CompOpp (lex_cmp key_spec a b).
Proof. intros a b. destruct (lex_keyed key_spec) as (X & k & e & G & E). rewrite !E. apply (g_sym e G). Qed.

Lemma vlt_total : forall a b, vlt a b \/ var_key a = var_key b \/ vlt b a.
Proof.
  intros a b. unfold vlt. rewrite !var_ltb_lex. rewrite (lex_sym a b).
  destruct (lex_cmp key_spec a b) eqn:E; simpl; auto.
  right; left. apply (lex_eq_name key_spec); auto.
Qed.

Lemma compare_var_antisym : forall a b, var_key a <> var_key b ->
  compare_var a b = - compare_var b a.
Proof.
  intros a b Hne. unfold compare_var. rewrite (lex_sym a b).
  destruct (lex_cmp key_spec a b) eqn:E; simpl; auto.
  exfalso. apply Hne. apply (lex_eq_name key_spec); auto.
Qed.

Lemma insert_var_perm : forall x l, Permutation (insert_var x l) (x :: l).
Proof.
  induction l as [|y l IH]; simpl; auto.
  destruct (var_ltb y x); auto.
  eapply perm_trans; [apply perm_skip, IH | apply perm_swap].
Qed.

Lemma sort_vars_perm : forall l, Permutation (sort_vars l) l.
Proof.
  induction l as [|x l IH]; simpl; auto.
  eapply perm_trans; [apply insert_var_perm | apply perm_skip, IH].
Qed.

Definition keys (l : list var) : list (list Z) := map var_key l.

Lemma insert_var_sorted : forall x l,
  StronglySorted vlt l -> ~ In (var_key x) (keys l) -> StronglySorted vlt (insert_var x l).
Proof.
  induction l as [|y l IH]; simpl; intros Hs Hn.
  - constructor; constructor.
  - inversion Hs as [|? ? Hs' Hall]; subst.
    destruct (var_ltb y x) eqn:E.
    + constructor.
      * apply IH; auto.
      * rewrite Forall_forall. intros z Hz.
        apply (Permutation_in _ (insert_var_perm x l)) in Hz. destruct Hz as [<- | Hz]; auto.
        rewrite Forall_forall in Hall. auto.
    + constructor; auto.
      assert (Hxy : vlt x y).
      { destruct (vlt_total x y) as [H | [H | H]]; auto.
        - exfalso. apply Hn. left. congruence.
        - unfold vlt in H. congruence. }
      constructor; auto.
      rewrite Forall_forall in *. intros z Hz. eapply vlt_trans; eauto.
Qed.

Lemma sort_vars_sorted : forall l, NoDup (keys l) -> StronglySorted vlt (sort_vars l).
Proof.
  induction l as [|x l IH]; simpl; intro Hnd.
  - constructor.
  - inversion Hnd; subst. apply insert_var_sorted; auto.
    intro Hin. apply H1. unfold keys in *.
    eapply Permutation_in; [ apply Permutation_map, sort_vars_perm | exact Hin ].
Qed.

Lemma sorted_perm_unique : forall l1 l2,
  StronglySorted vlt l1 -> StronglySorted vlt l2 -> Permutation l1 l2 -> l1 = l2.
Proof.
  induction l1 as [|a l1 IH]; intros l2 H1 H2 Hp.
  - apply Permutation_nil in Hp. auto.
  - destruct l2 as [|b l2]; [apply Permutation_sym, Permutation_nil in Hp; discriminate|].
    inversion H1 as [|? ? H1' Ha]; inversion H2 as [|? ? H2' Hb]; subst.
    assert (a = b).
    { assert (Hin1 : In a (b :: l2)) by (eapply Permutation_in; [exact Hp | left; auto]).
      assert (Hin2 : In b (a :: l1)) by (eapply Permutation_in; [apply Permutation_sym; exact Hp | left; auto]).
      destruct Hin1 as [-> | Hin1]; auto. destruct Hin2 as [-> | Hin2]; auto.
      rewrite Forall_forall in Ha, Hb. exfalso.
      apply (vlt_irrefl a). eapply vlt_trans; [apply Ha, Hin2 | apply Hb, Hin1]. }
    subst. f_equal. apply IH; auto. eapply Permutation_cons_inv; eauto.
Qed.

Lemma sort_vars_perm_invariant : forall l l',
  NoDup (keys l) -> Permutation l l' -> sort_vars l = sort_vars l'.
Proof.
  intros l l' Hnd Hp. apply sorted_perm_unique.
  - apply sort_vars_sorted; auto.
  - apply sort_vars_sorted. eapply Permutation_NoDup; [apply Permutation_map, Hp | exact Hnd].
  - eapply perm_trans; [apply sort_vars_perm|]. eapply perm_trans; [exact Hp|].
    apply Permutation_sym, sort_vars_perm.
Qed.

Lemma sort_vars_idem : forall l, NoDup (keys l) -> sort_vars (sort_vars l) = sort_vars l.
Proof.
  intros. symmetry. apply sort_vars_perm_invariant; auto. apply Permutation_sym, sort_vars_perm.
Qed.

Lemma vlt_nondrop : forall a b, vlt a b -> v_drop a = false -> v_drop b = false.
Proof.
  (* computed from the generated key: fails to compile if `not droppable` stops being its first component *)
  unfold vlt. intros a b H Ha. apply var_ltb_lex in H. change key_spec with (CNotDrop :: tl key_spec) in H.
  simpl in H. rewrite Ha in H. destruct (v_drop b); simpl in H; auto. discriminate.
Qed.

Lemma filter_all_false : forall (f : var -> bool) l, Forall (fun v => f v = false) l -> filter f l = [].
Proof. induction 1; simpl; auto. rewrite H. auto. Qed.

Lemma sorted_split : forall l, StronglySorted vlt l -> l = filter v_drop l ++ nondrop l.
Proof.
  induction 1 as [|a l Hs IH Hall]; simpl; auto.
  unfold nondrop in *. simpl. destruct (v_drop a) eqn:Ea; simpl.
  - f_equal. exact IH.
  - assert (Hnd : Forall (fun v => v_drop v = false) l).
    { rewrite Forall_forall in *. intros z Hz. eapply vlt_nondrop; eauto. }
    rewrite (filter_all_false _ _ Hnd) in *. simpl. f_equal. exact IH.
Qed.

Lemma filter_sorted : forall (f : var -> bool) l, StronglySorted vlt l -> StronglySorted vlt (filter f l).
Proof.
  induction 1 as [|a l Hs IH Hall]; simpl; [constructor|].
  destruct (f a); auto. constructor; auto.
  rewrite Forall_forall in *. intros z Hz. apply filter_In in Hz. apply Hall, Hz.
Qed.

Lemma filter_perm : forall (f : var -> bool) l l', Permutation l l' -> Permutation (filter f l) (filter f l').
Proof.
  induction 1; simpl; auto.
  - destruct (f x); auto.
  - destruct (f x), (f y); auto. apply perm_swap.
  - eapply perm_trans; eauto.
Qed.

Lemma keys_filter_nodup : forall (f : var -> bool) l, NoDup (keys l) -> NoDup (keys (filter f l)).
Proof.
  induction l as [|a l IH]; simpl; intro H; auto. inversion H; subst.
  destruct (f a); simpl; auto. constructor; auto.
  intro Hin. apply H2. unfold keys in *. apply in_map_iff in Hin as [z [Hz Hin]].
  apply filter_In in Hin as [Hin _]. apply in_map_iff. eauto.
Qed.

Lemma str_eqb_eq : forall a b, str_eqb a b = true <-> a = b.
Proof.
  induction a as [|x a IH]; destruct b as [|y b]; simpl; split; intro H; try congruence; auto.
  - apply andb_true_iff in H as [H1 H2]. apply Z.eqb_eq in H1. apply IH in H2. congruence.
  - inversion H; subst. rewrite Z.eqb_refl. simpl. apply IH. reflexivity.
Qed.

Lemma str_eqb_refl : forall a, str_eqb a a = true.
Proof. intro a. apply str_eqb_eq. reflexivity. Qed.

Lemma var_eqb_eq : forall a b, var_eqb a b = true <-> a = b.
Proof.
  intros [n1 d1 t1] [n2 d2 t2]. unfold var_eqb. simpl. split; intro H.
  - apply andb_true_iff in H as [H H3]. apply andb_true_iff in H as [H1 H2].
    apply str_eqb_eq in H1. apply eqb_prop in H2. apply Z.eqb_eq in H3. congruence.
  - inversion H; subst. rewrite str_eqb_refl, eqb_reflx, Z.eqb_refl. reflexivity.
Qed.

Lemma mem_var_In : forall v r, mem_var v r = true <-> In v r.
Proof.
  intros. unfold mem_var. rewrite existsb_exists. split.
  - intros [x [Hx He]]. apply var_eqb_eq in He. subst. auto.
  - intro H. exists v. split; auto. apply var_eqb_eq. reflexivity.
Qed.

Lemma incl_row_incl : forall r1 r2, incl_row r1 r2 = true <-> incl r1 r2.
Proof.
  intros. unfold incl_row, incl. rewrite forallb_forall. split; intros H x Hx.
  - apply mem_var_In. auto.
  - apply mem_var_In. auto.
Qed.

Lemma name_in_In : forall n r, name_in n r = true <-> In n (map v_name r).
Proof.
  intros. unfold name_in. rewrite existsb_exists, in_map_iff. split.
  - intros [x [Hx He]]. apply str_eqb_eq in He. eauto.
  - intros [x [He Hx]]. exists x. split; auto. apply str_eqb_eq. auto.
Qed.

Lemma nodup_names_NoDup : forall r, nodup_names r = true -> NoDup (map v_name r).
Proof.
  induction r as [|v r IH]; simpl; intro H; [constructor|].
  apply andb_true_iff in H as [H1 H2]. constructor; auto.
  intro Hin. apply name_in_In in Hin. rewrite Hin in H1. discriminate.
Qed.

Lemma row_equiv_perm : forall r1 r2,
  NoDup (map v_name r1) -> NoDup (map v_name r2) -> row_equiv r1 r2 = true -> Permutation r1 r2.
Proof.
  intros r1 r2 H1 H2 H. unfold row_equiv in H. apply andb_true_iff in H as [Ha Hb].
  apply incl_row_incl in Ha. apply incl_row_incl in Hb.
  apply NoDup_Permutation; [exact (NoDup_map_inv _ _ H1) | exact (NoDup_map_inv _ _ H2) |]. intro x. split; auto.
Qed.

Lemma row_eqb_eq : forall r1 r2, row_eqb r1 r2 = true -> r1 = r2.
Proof.
  induction r1 as [|a r1 IH]; destruct r2 as [|b r2]; simpl; intro H; try congruence.
  apply andb_true_iff in H as [H1 H2]. apply var_eqb_eq in H1. apply IH in H2. congruence.
Qed.

Lemma consistent_eq : forall r1 r2 v w, consistent r1 r2 = true -> In v r1 -> In w r2 ->
  v_name v = v_name w -> v = w.
Proof.
  intros r1 r2 v w H Hv Hw Hn. unfold consistent in H. rewrite forallb_forall in H.
  specialize (H v Hv). rewrite forallb_forall in H. specialize (H w Hw).
  rewrite Hn, str_eqb_refl in H. simpl in H. apply var_eqb_eq. exact H.
Qed.

Lemma same_ids_consistent_perm : forall r1 r2,
  NoDup (map v_name r1) -> NoDup (map v_name r2) ->
  same_ids r1 r2 = true -> consistent r1 r2 = true -> Permutation r1 r2.
Proof.
  intros r1 r2 N1 N2 Hs Hc. unfold same_ids in Hs. apply andb_true_iff in Hs as [Ha Hb].
  rewrite forallb_forall in Ha, Hb.
  apply NoDup_Permutation; [exact (NoDup_map_inv _ _ N1) | exact (NoDup_map_inv _ _ N2) |]. intro x. split; intro Hx.
  - specialize (Ha x Hx). apply name_in_In in Ha. apply in_map_iff in Ha as [w [Hw Hin]].
    rewrite (consistent_eq r1 r2 x w Hc Hx Hin); auto.
  - specialize (Hb x Hx). apply name_in_In in Hb. apply in_map_iff in Hb as [w [Hw Hin]].
    rewrite <- (consistent_eq r1 r2 w x Hc Hin Hx); auto.
Qed.

Lemma indexed_forallb : forall {A} (f : nat -> A -> bool) (F : nat -> list A -> bool),
  (forall n, F n [] = true) -> (forall n b bs, F n (b :: bs) = f n b && F (S n) bs) ->
  forall bs n, F n bs = true <-> forall j b, nth_error bs j = Some b -> f (n + j)%nat b = true.
Proof.
  intros A f F H0 HS. induction bs as [|b0 bs IH]; intro n.
  - rewrite H0. split; auto. intros _ [|j] b; discriminate.
  - rewrite HS, andb_true_iff, IH. split.
    + intros [H1 H2] [|j] b Hj; [inversion Hj; subst; rewrite Nat.add_0_r; exact H1|].
      rewrite Nat.add_succ_r. apply H2, Hj.
    + intro H. split; [rewrite <- (Nat.add_0_r n); apply H; reflexivity|].
      intros j b Hj. specialize (H (S j) b Hj). rewrite Nat.add_succ_r in H. exact H.
Qed.

Lemma bbs_ok_nth : forall c bs n,
  bbs_ok c n bs = true <-> forall j b, nth_error bs j = Some b -> bb_ok c (n + j) b = true.
Proof. intro c. apply indexed_forallb; reflexivity. Qed.

Lemma edges_ok_nth : forall c succs outs k s,
  edges_ok c succs outs = true -> nth_error succs k = Some s ->
  exists r, nth_error outs k = Some r /\ edge_ok c s r = true.
Proof.
  induction succs as [|s0 succs IH]; intros outs k s H Hn; [destruct k; discriminate|].
  destruct outs as [|r0 outs]; simpl in H; [discriminate|].
  apply andb_true_iff in H as [H1 H2]. destruct k; simpl in *.
  - inversion Hn; subst. eauto.
  - eauto.
Qed.

Lemma edges_ok_length : forall c succs outs, edges_ok c succs outs = true -> length succs = length outs.
Proof.
  induction succs as [|s0 succs IH]; destruct outs; simpl; intro H; try discriminate; auto.
  apply andb_true_iff in H as [_ H]. f_equal. auto.
Qed.

Lemma edge_ok_nodup : forall c s r, edge_ok c s r = true -> NoDup (map v_name r).
Proof.
  intros c s r H. unfold edge_ok in H. apply andb_true_iff in H as [H _].
  apply andb_true_iff in H as [_ H]. apply nodup_names_NoDup. auto.
Qed.

Lemma declared_exit : forall c s, s = c_exit c -> declared c s = b_in (get_bb c s).
Proof. intros c s H. unfold declared. apply Nat.eqb_eq in H. rewrite H. reflexivity. Qed.

(* the row on the wire of an edge into s whose output row is r *)
Definition edge_row (c : cfg) (s : nat) (r : row) : row :=
  if Nat.eqb s (c_exit c) then r else sort_vars r.

Lemma edge_declared : forall c s r, edge_ok c s r = true -> declared c s = edge_row c s r.
Proof.
  intros c s r H. pose proof (edge_ok_nodup _ _ _ H) as Nr. unfold edge_ok in H.
  unfold declared, block_inputs, edge_row. destruct (Nat.eqb s (c_exit c)).
  - apply andb_true_iff in H as [_ H]. symmetry. apply row_eqb_eq, H.
  - apply andb_true_iff in H as [H H2]. apply andb_true_iff in H as [H _]. apply andb_true_iff in H as [H _].
    apply andb_true_iff in H2 as [H2 H3]. apply negb_true_iff in H. rewrite H.
    symmetry. apply sort_vars_perm_invariant; [exact Nr|].
    apply row_equiv_perm; auto. apply nodup_names_NoDup, H2.
Qed.

Lemma is_exit_pred_false : forall c b, is_exit_pred c b = false ->
  forall k s, nth_error (b_succs b) k = Some s -> s <> c_exit c.
Proof.
  intros c b H k s Hn E. subst. unfold is_exit_pred in H.
  assert (existsb (Nat.eqb (c_exit c)) (b_succs b) = true).
  { apply existsb_exists. exists (c_exit c). split; [eapply nth_error_In; eauto | apply Nat.eqb_refl]. }
  congruence.
Qed.

Lemma tuple_sum_row : forall first r,
  NoDup (map v_name first) -> NoDup (map v_name r) -> Permutation (nondrop first) (nondrop r) ->
  filter v_drop (sort_vars r) ++ sort_vars (nondrop first) = sort_vars r.
Proof.
  intros first r N1 N2 He.
  assert (Sr : StronglySorted vlt (sort_vars r)) by (apply sort_vars_sorted; auto).
  etransitivity; [| symmetry; apply (sorted_split _ Sr)]. f_equal.
  apply sorted_perm_unique.
  - apply sort_vars_sorted. unfold nondrop. apply keys_filter_nodup; auto.
  - unfold nondrop. apply filter_sorted; auto.
  - eapply perm_trans; [apply sort_vars_perm|]. eapply perm_trans; [exact He|].
    unfold nondrop. apply filter_perm. apply Permutation_sym, sort_vars_perm.
Qed.

Lemma block_delivers : forall c i b k s, bb_ok c i b = true -> i <> c_exit c ->
  nth_error (b_succs b) k = Some s ->
  exists r, edge_ok c s r = true /\ delivered c b k = Some (edge_row c s r).
Proof.
  intros c i b k s Hbb Hi Hs. unfold bb_ok in Hbb. apply Nat.eqb_neq in Hi. rewrite Hi in Hbb.
  apply andb_true_iff in Hbb as [He Hshape].
  pose proof (edges_ok_length _ _ _ He) as Hlen.
  destruct (edges_ok_nth _ _ _ _ _ He Hs) as [r [Hr Hedge]]. exists r. split; [exact Hedge|].
  pose proof (edge_ok_nodup _ _ _ Hedge) as Nr. unfold delivered, block_outputs, edge_row.
  destruct (b_succs b) as [|s0 [|s1 succs]] eqn:Es; [destruct k; discriminate| |].
  - destruct (b_outs b) as [|r0 [|r1 outs]] eqn:Eo; simpl in Hlen; try discriminate.
    destruct k as [|k]; [|destruct k; discriminate]. simpl in Hs, Hr. inversion Hs; inversion Hr; subst s0 r0.
    simpl. unfold jumps_to_exit, is_exit_pred. rewrite Es. simpl. rewrite orb_false_r, Nat.eqb_sym. reflexivity.
  - (* a branching block has no edge to the exit; whichever way block_outputs splits its rows between
       the tuple sum and the shared outputs (Esame), variant k ++ shared outputs is the sorted k-th row *)
    destruct (b_outs b) as [|first [|r1 rest]] eqn:Eo; simpl in Hlen; try discriminate.
    apply andb_true_iff in Hshape as [Hshape Hlin]. apply andb_true_iff in Hshape as [Hnx Hcons].
    apply negb_true_iff in Hnx. unfold jumps_to_exit in *. rewrite Hnx.
    assert (Ex : Nat.eqb s (c_exit c) = false).
    { apply Nat.eqb_neq. eapply is_exit_pred_false with (b := b); eauto. rewrite Es. eauto. }
    rewrite Ex.
    assert (Nf : NoDup (map v_name first)).
    { destruct (edges_ok_nth c (s0 :: s1 :: succs) (first :: r1 :: rest) 0%nat s0 He eq_refl) as [r' [Hr' He']].
      simpl in Hr'. inversion Hr'; subst. eapply edge_ok_nodup; eauto. }
    assert (Hr_cases : r = first \/ In r (r1 :: rest)).
    { destruct k; simpl in Hr; [inversion Hr; auto|]. right. eapply nth_error_In; eauto. }
    rewrite forallb_forall in Hcons, Hlin.
    destruct (forallb (same_ids first) (r1 :: rest)) eqn:Esame;
      erewrite map_nth_error by exact Hr; simpl; f_equal.
    + destruct Hr_cases as [-> | Hin]; auto. rewrite forallb_forall in Esame.
      apply sort_vars_perm_invariant; auto. apply same_ids_consistent_perm; auto.
    + apply tuple_sum_row; auto. destruct Hr_cases as [-> | Hin]; auto.
      apply row_equiv_perm; auto; unfold nondrop; apply keys_filter_nodup; auto.
Qed.

Lemma starts_with_app : forall p x, starts_with p (p ++ x) = true.
Proof. induction p as [|a p IH]; simpl; auto. intro x. rewrite Z.eqb_refl. simpl. auto. Qed.

Lemma return_var_name_is_return : forall n, is_return_var (return_var_name n) = true.
Proof. intro n. unfold is_return_var, return_var_name. apply starts_with_app. Qed.

Lemma return_vars_from_tys : forall tys i, map v_ty (return_vars_from i tys) = map fst tys.
Proof. induction tys as [|t ts IH]; simpl; intro i; auto. f_equal. apply IH. Qed.

(* what [patch_bb] makes of block [i] when its assertion holds *)
Definition patched (c : cfg) (i : nat) (b : bb) : bb :=
  mkBB ((if Nat.eqb i (c_exit c) then return_vars c else []) ++ b_in b)
       (if is_exit_pred c b then map (app (return_vars c)) (b_outs b) else b_outs b)
       (b_succs b).

Lemma patch_bb_spec : forall c i b b', patch_bb c i b = Some b' -> b' = patched c i b.
Proof.
  intros c i [bi bo bs] b' H. unfold patch_bb in H. unfold patched. simpl.
  destruct (is_exit_pred c (mkBB bi bo bs)), (Nat.eqb i (c_exit c)); simpl in H;
    try (destruct bo as [|o [|o' os]]; try discriminate); inversion H; reflexivity.
Qed.

Lemma patch_bbs_spec : forall c bs n bs', patch_bbs c n bs = Some bs' ->
  length bs' = length bs /\
  forall j d, (j < length bs)%nat -> nth j bs' d = patched c (n + j) (nth j bs d).
Proof.
  induction bs as [|b0 bs IH]; simpl; intros n bs' H; [inversion H; split; [reflexivity | simpl; lia]|].
  destruct (patch_bb c n b0) as [b0'|] eqn:E0; [|discriminate].
  destruct (patch_bbs c (S n) bs) as [bs''|] eqn:E1; [|discriminate]. inversion H; subst.
  destruct (IH _ _ E1) as [L N]. split; [simpl; congruence|].
  intros [|j] d Hj; simpl.
  - rewrite Nat.add_0_r. apply patch_bb_spec, E0.
  - rewrite Nat.add_succ_r. apply N. lia.
Qed.

Lemma patched_noret : forall c i b, return_vars c = [] -> patched c i b = b.
Proof.
  intros c i [bi bo bs] Hr. unfold patched. rewrite Hr, map_id. simpl.
  destruct (Nat.eqb i (c_exit c)), (is_exit_pred c _); reflexivity.
Qed.

Lemma patch_bbs_noret : forall c, return_vars c = [] ->
  forall bs n bs', patch_bbs c n bs = Some bs' -> bs' = bs.
Proof.
  intros c Hr bs n bs' H. destruct (patch_bbs_spec _ _ _ _ H) as [L N].
  apply (nth_ext _ _ dummy_bb dummy_bb L). intros j Hj. rewrite N by lia. apply patched_noret, Hr.
Qed.

Lemma insert_exit_row : forall c c', (c_exit c < length (c_bbs c))%nat ->
  insert_return_vars c = Some c' ->
  b_in (get_bb c' (c_exit c')) = return_vars c ++ b_in (get_bb c (c_exit c)).
Proof.
  intros c c' Hlt H. unfold insert_return_vars in H.
  destruct (patch_bbs c 0 (c_bbs c)) as [bs|] eqn:E; [|discriminate]. inversion H; subst.
  unfold get_bb. simpl. rewrite (proj2 (patch_bbs_spec _ _ _ _ E)) by exact Hlt.
  simpl. rewrite Nat.eqb_refl. reflexivity.
Qed.

(* computed from the generated guard: fails to compile when compile_cfg calls insert_return_vars
   unconditionally *)
Lemma guarded_insert_eq : forall c, guarded_insert c = guarded_insert_exit_row c.
Proof. reflexivity. Qed.

Lemma dedup_incl : forall l seen v, In v (dedup seen l) -> In v l.
Proof.
  induction l as [|a l IH]; simpl; intros seen v H; auto.
  destruct (existsb (str_eqb (v_name a)) seen); [right; eauto|].
  destruct H as [H | H]; [left; auto | right; eauto].
Qed.

Lemma dedup_covers : forall l seen v, In v l ->
  existsb (str_eqb (v_name v)) seen = true \/ exists v', In v' (dedup seen l) /\ v_name v' = v_name v.
Proof.
  induction l as [|a l IH]; simpl; intros seen v H; [tauto|].
  destruct H as [-> | H].
  - destruct (existsb (str_eqb (v_name v)) seen) eqn:E; auto. right. exists v. simpl; auto.
  - destruct (existsb (str_eqb (v_name a)) seen) eqn:E.
    + apply IH; auto.
    + destruct (IH (v_name a :: seen) v H) as [H1 | [v' [H1 H2]]].
      * simpl in H1. apply orb_true_iff in H1 as [H1 | H1]; auto.
        apply str_eqb_eq in H1. right. exists a. simpl; auto.
      * right. exists v'. simpl; auto.
Qed.

Lemma index_of_spec : forall n l v, In v l -> v_name v = n ->
  exists k v', index_of n l = Some k /\ nth_error l k = Some v' /\ v_name v' = n.
Proof.
  induction l as [|a l IH]; simpl; intros v H Hn; [tauto|].
  destruct (str_eqb n (v_name a)) eqn:E.
  - apply str_eqb_eq in E. exists 0%nat, a. auto.
  - destruct H as [-> | H]; [rewrite <- Hn, str_eqb_refl in E; discriminate|].
    destruct (IH v H Hn) as [k [v' [H1 [H2 H3]]]]. exists (S k), v'. rewrite H1. auto.
Qed.

Lemma case_value : forall rows r v, rows_consistent rows = true -> In r rows -> In v r ->
  exists k, index_of (v_name v) (all_vars rows) = Some k /\ nth_error (cond_inputs rows) k = Some (val_of v).
Proof.
  intros rows r v Hc Hr Hv.
  destruct (dedup_covers (concat rows) [] v (proj2 (in_concat rows v) (ex_intro _ r (conj Hr Hv)))) as [H | [v' [H1 H2]]]; [discriminate|].
  destruct (index_of_spec (v_name v) (all_vars rows) v' H1 H2) as [k [v'' [K1 [K2 K3]]]].
  exists k. split; auto. unfold cond_inputs. rewrite nth_error_map, K2. simpl. f_equal. f_equal.
  (* v'' is some row's variable with the name of v: consistency makes it v *)
  apply nth_error_In in K2. apply dedup_incl in K2. apply in_concat in K2 as [r' [Hr' Hv'']].
  unfold rows_consistent in Hc. rewrite forallb_forall in Hc. specialize (Hc r' Hr').
  rewrite forallb_forall in Hc. specialize (Hc r Hr). eapply consistent_eq; eauto.
Qed.

Lemma case_outputs_row : forall rows r, rows_consistent rows = true -> In r rows ->
  forall r', incl r' r ->
  exists ks, map_opt (fun v => index_of (v_name v) (all_vars rows)) r' = Some ks /\
             map_opt (fun k => nth_error (cond_inputs rows) k) ks = Some (map val_of r').
Proof.
  intros rows r Hc Hr. induction r' as [|v r' IH]; intro Hi.
  - exists []. auto.
  - destruct (case_value rows r v Hc Hr (Hi v (or_introl eq_refl))) as [k [K1 K2]].
    destruct IH as [ks [I1 I2]]; [intros x Hx; apply Hi; right; auto|].
    exists (k :: ks). simpl. rewrite K1, I1, K2, I2. auto.
Qed.

