(* C01 — the linearity part of cfg_ok derived from C06's theorem about the linearity checker *)
From Coq Require Import ZArith List Bool Lia.
From V.C09 Require Import Analysis.
From V.C06 Require Linearity Token ProofsSound.
From V.C01 Require Import ModelLower ModelBridge ProofsLower.
Import ListNotations.
Local Open Scope nat_scope.

Lemma bb_ok_split : forall c i b,
  bb_ok c i b = bb_struct_ok c i b && (Nat.eqb i (ModelLower.c_exit c) || lin_ok b).
Proof.
  intros c i b. unfold bb_ok, bb_struct_ok, lin_ok.
  destruct (Nat.eqb i (ModelLower.c_exit c)); simpl; [reflexivity|].
  destruct (b_outs b) as [|first [|r1 rest]].
  - rewrite andb_false_r. reflexivity.
  - rewrite !andb_true_r. reflexivity.
  - destruct (edges_ok c (b_succs b) (first :: r1 :: rest)); simpl; [|reflexivity].
    rewrite <- !andb_assoc. reflexivity.
Qed.

Lemma bbs_ok_split : forall c bs n, bbs_ok c n bs = bbs_struct_ok c n bs && bbs_lin_ok c n bs.
Proof.
  induction bs as [|b bs IH]; intro n; simpl; auto.
  rewrite bb_ok_split, IH.
  destruct (bb_struct_ok c n b), (Nat.eqb n (ModelLower.c_exit c) || lin_ok b),
    (bbs_struct_ok c (S n) bs), (bbs_lin_ok c (S n) bs); reflexivity.
Qed.

Lemma bbs_struct_ok_nth : forall c bs n,
  bbs_struct_ok c n bs = true <-> forall j b, nth_error bs j = Some b -> bb_struct_ok c (n + j) b = true.
Proof. intro c. apply indexed_forallb; reflexivity. Qed.

Lemma bbs_lin_ok_nth : forall c bs n,
  bbs_lin_ok c n bs = true <->
  forall j b, nth_error bs j = Some b -> Nat.eqb (n + j) (ModelLower.c_exit c) || lin_ok b = true.
Proof. intro c. apply (indexed_forallb (fun i b => Nat.eqb i (ModelLower.c_exit c) || lin_ok b)); reflexivity. Qed.

Lemma c06_agree : forall fx lc sched K, Token.uniform K lc -> Token.wf_shape lc ->
  Linearity.check_cfg fx lc sched = Linearity.Accept ->
  exists L, c06_live lc sched = Some L /\
    forall b n m x, b < length (Linearity.c_blocks lc) ->
      In n (Linearity.lb_succ (Token.nth_block lc b)) -> In m (Linearity.lb_succ (Token.nth_block lc b)) ->
      K x = Linearity.KLinear -> In x (getv L n) -> In x (getv L m).
Proof.
  intros fx lc sched K HK HW HA.
  destruct (ProofsSound.accept_phase1 fx lc sched HA) as [ss0 [ss [P1 [_ H6]]]].
  exists (Linearity.live_of lc ss sched). split.
  - unfold c06_live. rewrite (proj1 P1), (proj1 (proj2 P1)). reflexivity.
  - exact (ProofsSound.succ_rows_agree sched P1 K fx HK HW H6).
Qed.

Lemma edges_ok_succ : forall c succs outs k r, edges_ok c succs outs = true ->
  nth_error outs k = Some r -> exists s, nth_error succs k = Some s.
Proof.
  intros c succs outs k r H Hn. pose proof (edges_ok_length _ _ _ H) as Hl.
  destruct (nth_error succs k) eqn:E; eauto.
  apply nth_error_None in E. assert (k < length outs)%nat by (apply nth_error_Some; congruence). lia.
Qed.

Lemma nondrop_incl : forall (L : vals) K pl s s' r r',
  (forall v, (In v r /\ v_drop v = false) <-> (exists x, In x (getv L s) /\ K x = Linearity.KLinear /\ v = pl x)) ->
  (forall v, (In v r' /\ v_drop v = false) <-> (exists x, In x (getv L s') /\ K x = Linearity.KLinear /\ v = pl x)) ->
  (forall x, K x = Linearity.KLinear -> In x (getv L s) -> In x (getv L s')) ->
  incl_row (nondrop r) (nondrop r') = true.
Proof.
  intros L K pl s s' r r' R R' Hag. apply incl_row_incl. intros v Hv. unfold nondrop in *.
  apply filter_In in Hv as [Hv1 Hv2]. apply negb_true_iff in Hv2.
  destruct (proj1 (R v) (conj Hv1 Hv2)) as [x [Hx [Kx Ex]]].
  destruct (proj2 (R' v)) as [A B]; [exists x; auto|].
  apply filter_In. split; auto. rewrite B. reflexivity.
Qed.

Lemma lin_from_agreement : forall lc L K pl m,
  (forall b n m0 x, b < length (Linearity.c_blocks lc) ->
      In n (Linearity.lb_succ (Token.nth_block lc b)) -> In m0 (Linearity.lb_succ (Token.nth_block lc b)) ->
      K x = Linearity.KLinear -> In x (getv L n) -> In x (getv L m0)) ->
  reads lc L K pl m -> cfg_struct_ok m = true -> cfg_lin_ok m = true.
Proof.
  intros lc L K pl m Hag Hr Hs. unfold cfg_lin_ok. apply bbs_lin_ok_nth. intros i b Hb. simpl.
  pose proof (proj1 (bbs_struct_ok_nth m (c_bbs m) 0) Hs i b Hb) as Hbs. simpl in Hbs.
  unfold bb_struct_ok in Hbs. destruct (Nat.eqb_spec i (ModelLower.c_exit m)) as [|Hne]; [reflexivity|].
  apply andb_true_iff in Hbs as [He _]. simpl.
  destruct (Hr i b Hb Hne) as [Hlt [Hsucc Hrows]].
  unfold lin_ok. destruct (b_outs b) as [|first [|r1 rest]] eqn:Eo; auto.
  apply forallb_forall. intros r Hin.
  apply In_nth_error in Hin as [k' Hk'].
  assert (Hk : nth_error (first :: r1 :: rest) (S k') = Some r) by exact Hk'.
  assert (H0 : nth_error (first :: r1 :: rest) 0 = Some first) by reflexivity.
  destruct (edges_ok_succ _ _ _ _ _ He Hk) as [s Hsk].
  destruct (edges_ok_succ _ _ _ _ _ He H0) as [s0 Hs0].
  assert (In0 : In s0 (Linearity.lb_succ (Token.nth_block lc i))) by (rewrite <- Hsucc; eapply nth_error_In; eauto).
  assert (Ink : In s (Linearity.lb_succ (Token.nth_block lc i))) by (rewrite <- Hsucc; eapply nth_error_In; eauto).
  assert (Hlen : 2 <= length (first :: r1 :: rest)) by (simpl; lia).
  pose proof (Hrows 0%nat s0 first Hlen Hs0 H0) as R0. pose proof (Hrows (S k') s r Hlen Hsk Hk) as Rk.
  unfold row_equiv. apply andb_true_iff.
  split; [apply (nondrop_incl L K pl s0 s) | apply (nondrop_incl L K pl s s0)]; auto;
    intros x Kx; apply (Hag i); auto.
Qed.

Lemma cfg_ok_from_c06 : forall fx lc sched K pl m L,
  Token.uniform K lc -> Token.wf_shape lc ->
  Linearity.check_cfg fx lc sched = Linearity.Accept ->
  c06_live lc sched = Some L -> reads lc L K pl m ->
  cfg_struct_ok m = true -> cfg_ok m = true.
Proof.
  intros fx lc sched K pl m L HK HW HA HL Hr Hs.
  destruct (c06_agree fx lc sched K HK HW HA) as [L' [HL' Hag]].
  rewrite HL in HL'. inversion HL'; subst L'.
  unfold cfg_ok. rewrite bbs_ok_split. fold (cfg_struct_ok m). rewrite Hs. simpl. eapply lin_from_agreement; eauto.
Qed.

Lemma nat_list_eqb_eq : forall a b, nat_list_eqb a b = true -> a = b.
Proof.
  induction a as [|x a IH]; destruct b as [|y b]; simpl; intro H; try discriminate; auto.
  apply andb_true_iff in H as [H1 H2]. apply Nat.eqb_eq in H1. f_equal; auto.
Qed.

Lemma is_linear_iff : forall k, Linearity.is_linear k = true <-> k = Linearity.KLinear.
Proof. intros []; simpl; split; congruence. Qed.

Lemma reads_edge_sound : forall L K tbl s r, reads_edge L K tbl s r = true ->
  forall v, (In v r /\ v_drop v = false) <->
            (exists x, In x (getv L s) /\ K x = Linearity.KLinear /\ v = pl_of tbl x).
Proof.
  intros L K tbl s r H v. unfold reads_edge in H. apply andb_true_iff in H as [H1 H2].
  rewrite forallb_forall in H1, H2. split.
  - intros [Hv Hd]. specialize (H1 v Hv). rewrite Hd in H1. simpl in H1.
    apply existsb_exists in H1 as [x [Hx Hb]]. apply andb_true_iff in Hb as [Hl He].
    exists x. repeat split; auto; [apply is_linear_iff; auto | apply var_eqb_eq; auto].
  - intros [x [Hx [Kx Ev]]]. specialize (H2 x Hx). apply is_linear_iff in Kx. rewrite Kx in H2. simpl in H2.
    apply andb_true_iff in H2 as [Hm Hd]. subst v. split; [apply mem_var_In; auto | apply negb_true_iff; auto].
Qed.

Lemma reads_edges_sound : forall L K tbl succs outs, reads_edges L K tbl succs outs = true ->
  forall k s r, nth_error succs k = Some s -> nth_error outs k = Some r -> reads_edge L K tbl s r = true.
Proof.
  induction succs as [|s0 succs IH]; intros outs H k s r Hs Hr; [destruct k; discriminate|].
  destruct outs as [|r0 outs]; [destruct k; discriminate|]. simpl in H. apply andb_true_iff in H as [H1 H2].
  destruct k; simpl in Hs, Hr; [inversion Hs; inversion Hr; subst; auto | eauto].
Qed.

Lemma reads_blocks_sound : forall lc L K tbl ex bs, reads_blocks lc L K tbl ex 0 bs = true ->
  forall j b, nth_error bs j = Some b -> j <> ex ->
    j < length (Linearity.c_blocks lc) /\
    b_succs b = Linearity.lb_succ (Token.nth_block lc j) /\
    (2 <= length (b_outs b) -> reads_edges L K tbl (b_succs b) (b_outs b) = true).
Proof.
  intros lc L K tbl ex bs H j b Hj Hne.
  eapply (indexed_forallb _ (reads_blocks lc L K tbl ex)) in H; [| reflexivity | reflexivity | exact Hj].
  simpl in H. apply orb_true_iff in H as [H | H]; [apply Nat.eqb_eq in H; contradiction|].
  apply andb_true_iff in H as [H H3]. apply andb_true_iff in H as [H0 H1].
  apply Nat.ltb_lt in H0. apply nat_list_eqb_eq in H1. repeat split; auto.
  intro Hl. apply orb_true_iff in H3 as [H3 | H3]; auto. apply Nat.ltb_lt in H3. lia.
Qed.
