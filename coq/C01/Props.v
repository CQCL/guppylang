(* C01 — accepted programs lower to valid HUGR: theorems for the block-wiring core.
   PARTIAL by design (DESIGN.md section 5 C01): these theorems cover sort_vars, compile_bb's
   input/output rows, insert_return_vars and DFContainer; expression/statement compilers,
   generics, nested functions and comptime are only differentially validated by the check. *)
From Coq Require Import ZArith List Bool Permutation Sorted.
From V.C09 Require Import Analysis.
From V.C06 Require Linearity Token.
From V.C01 Require Import ModelLower ModelObs ProofsLower ModelDfc ProofsDfc ModelCond ModelBridge ProofsBridge ExBridge.
Import ListNotations.
Open Scope Z_scope.

(* compare_var's key tuple is GenCmp.key_spec, regenerated from the source on every run *)
Theorem compare_var_total_order :
  (forall a, ~ vlt a a) /\
  (forall a b c, vlt a b -> vlt b c -> vlt a c) /\
  (forall a b, vlt a b \/ var_key a = var_key b \/ vlt b a) /\
  (forall a b, var_key a <> var_key b -> compare_var a b = - compare_var b a).
Proof.
  exact (conj vlt_irrefl (conj vlt_trans (conj vlt_total compare_var_antisym))).
Qed.
Print Assumptions compare_var_total_order.

(* on a row with distinct names ([var_key] = str(place)) sort_vars permutes and sorts strictly *)
Theorem sort_vars_sorts : forall r, NoDup (map var_key r) ->
  Permutation (sort_vars r) r /\ StronglySorted vlt (sort_vars r).
Proof. intros r H. split; [apply sort_vars_perm | apply sort_vars_sorted; exact H]. Qed.
Print Assumptions sort_vars_sorts.

(* two blocks that list the same places in different orders produce the same HUGR row *)
Theorem sort_vars_deterministic : forall r r', NoDup (map var_key r) -> Permutation r r' ->
  sort_vars r = sort_vars r'.
Proof. exact sort_vars_perm_invariant. Qed.
Print Assumptions sort_vars_deterministic.

(* this is what makes "tuple-sum variant ++ shared outputs" line up *)
Theorem sort_vars_droppable_first : forall r, NoDup (map var_key r) ->
  sort_vars r = filter v_drop (sort_vars r) ++ nondrop (sort_vars r).
Proof. intros r H. apply sorted_split, sort_vars_sorted, H. Qed.
Print Assumptions sort_vars_droppable_first.

(* For every checked CFG satisfying the decidable invariant cfg_ok (rows duplicate-free; along
   each edge the predecessor's output row lists the same places, with the same types, as the
   successor's input row; exit rows identical in order; branching blocks do not jump to the
   exit; rows of one block agree on the place behind an id; non-droppable places are live in
   all successors of a branching block or in none), every block compiles without assertion
   failure and the row it delivers to its k-th successor (the values in variant k of the
   tuple sum followed by the shared outputs) IS the row that successor declares, in order,
   name and type. *)
Theorem rows_agree : forall c, cfg_ok c = true ->
  forall i b k s, nth_error (c_bbs c) i = Some b -> i <> c_exit c ->
  nth_error (b_succs b) k = Some s ->
  delivered c b k = Some (declared c s).
Proof.
  intros c Hok i b k s Hb Hi Hs.
  destruct (block_delivers c i b k s (proj1 (bbs_ok_nth c (c_bbs c) 0) Hok i b Hb) Hi Hs) as [r [He Hd]].
  rewrite (edge_declared _ _ _ He). exact Hd.
Qed.
Print Assumptions rows_agree.

(* cfg_lin_ok is the last conjunct above, the one the linearity checker answers for *)
Theorem cfg_ok_parts : forall c, cfg_ok c = cfg_struct_ok c && cfg_lin_ok c.
Proof. intro c. apply bbs_ok_split. Qed.
Print Assumptions cfg_ok_parts.

(* Where the C06 model applies, the linearity part is a consequence: if C06's model of
   check_cfg_linearity accepts the checked CFG lc (uniform kinds, builder-shaped) and the rows of the
   lowered CFG m are read off the place-level liveness that check computes (`reads`, which is
   live_places_row), the structural part alone gives rows_agree.  The linearity conjunct comes from
   C06's ProofsSound.succ_rows_agree, the core of C06.live_rows_agree. *)
Theorem rows_agree_from_c06 : forall fx lc sched K pl m L,
  Token.uniform K lc -> Token.wf_shape lc ->
  Linearity.check_cfg fx lc sched = Linearity.Accept ->
  c06_live lc sched = Some L -> reads lc L K pl m ->
  cfg_struct_ok m = true ->
  forall i b k s, nth_error (c_bbs m) i = Some b -> i <> ModelLower.c_exit m ->
  nth_error (b_succs b) k = Some s ->
  delivered m b k = Some (declared m s).
Proof.
  intros fx lc sched K pl m L HK HW HA HL Hr Hs. apply rows_agree.
  eapply cfg_ok_from_c06; eauto.
Qed.
Print Assumptions rows_agree_from_c06.

(* the hypotheses of rows_agree_from_c06 hold on a real function (ExBridge: terms dumped from
   /repo), and the conclusion is what its HUGR shows *)
Example ex_bridge_hyps :
  Linearity.check_cfg true ex_lc [] = Linearity.Accept /\
  Hyps.uniformb ex_lc = true /\ Hyps.wf_shapeb ex_lc = true /\
  (exists L, c06_live ex_lc [] = Some L /\
             reads_b ex_lc L (Hyps.K_of (Token.all_leaves ex_lc)) ex_tbl ex_m = true) /\
  cfg_struct_ok ex_m = true /\
  delivered ex_m (get_bb ex_m 0) 1 = Some [ex_; eq_].
Proof.
  split; [vm_compute; reflexivity|]. split; [vm_compute; reflexivity|]. split; [vm_compute; reflexivity|].
  split; [|split; vm_compute; reflexivity].
  destruct (c06_live ex_lc []) as [L|] eqn:E; [|vm_compute in E; discriminate].
  exists L. split; auto. vm_compute in E. inversion E; subst. vm_compute. reflexivity.
Qed.

(* reads_b is what the harness evaluates on every dumped CFG *)
Theorem reads_decidable : forall lc L K tbl m, reads_b lc L K tbl m = true -> reads lc L K (pl_of tbl) m.
Proof.
  intros lc L K tbl m H i b Hb Hne. unfold reads_b in H.
  destruct (reads_blocks_sound _ _ _ _ _ _ H i b Hb Hne) as [H1 [H2 H3]]. simpl in *.
  split; [exact H1|]. split; [exact H2|]. intros k s r Hl Hs Hr.
  apply reads_edge_sound. eapply reads_edges_sound; eauto.
Qed.
Print Assumptions reads_decidable.

(* With rows taken from one scope (equal id => equal place), on branch k the Conditional's case k
   tags with k and its payload is exactly variant k's row: the wire of each place of the row, with
   the row's type, in the row's order -- although every case receives all wires of all rows and
   picks by position in the id-keyed dict all_vars. *)
Theorem conditional_delivers : forall rows k r, rows_consistent rows = true ->
  nth_error rows k = Some r -> eval_conditional rows k = Some (k, map val_of r).
Proof.
  intros rows k r Hc Hk. unfold eval_conditional, case_outputs, case_indices. rewrite Hk.
  destruct (case_outputs_row rows r Hc (nth_error_In _ _ Hk) r (incl_refl r)) as [ks [H1 H2]].
  rewrite H1, H2. reflexivity.
Qed.
Print Assumptions conditional_delivers.

(* after insert_return_vars the CFG node's output row is FunctionType.to_hugr's output row:
   the return types followed by the borrowed (inout) inputs *)
Theorem exit_row_matches_functype : forall c c' inputs, (c_exit c < length (c_bbs c))%nat ->
  insert_return_vars c = Some c' ->
  map v_ty (b_in (get_bb c (c_exit c))) = map fst (filter snd inputs) ->
  map v_ty (declared c' (c_exit c')) = functype_outputs (map fst (c_ret c)) inputs.
Proof.
  intros c c' inputs Hlt H Hin.
  pose proof (insert_exit_row _ _ Hlt H) as Hrow.
  rewrite declared_exit by reflexivity. rewrite Hrow, map_app, Hin.
  unfold functype_outputs, return_vars. rewrite return_vars_from_tys. reflexivity.
Qed.
Print Assumptions exit_row_matches_functype.

(* compiling the same checked CFG twice does not insert the return variables twice *)
Theorem insert_return_vars_idempotent : forall c c', (c_exit c < length (c_bbs c))%nat ->
  guarded_insert c = Some c' -> guarded_insert c' = Some c'.
Proof.
  intros c c' Hlt H. rewrite guarded_insert_eq in *. unfold guarded_insert_exit_row in H.
  destruct (no_return_vars c) eqn:G.
  - destruct (return_vars c) as [|v vs] eqn:Er.
    + assert (c' = c).
      { unfold insert_return_vars in H. destruct (patch_bbs c 0 (c_bbs c)) as [bs|] eqn:E; [|discriminate].
        apply patch_bbs_noret in E; auto. subst. inversion H. destruct c; reflexivity. }
      subst. unfold guarded_insert_exit_row. rewrite G. exact H.
    + pose proof (insert_exit_row _ _ Hlt H) as Hin.
      unfold guarded_insert_exit_row.
      assert (no_return_vars c' = false) as ->; auto.
      unfold no_return_vars. rewrite Hin, Er.
      unfold return_vars in Er. destruct (c_ret c) as [|t ts]; simpl in Er; [discriminate|].
      inversion Er; subst. cbn [app forallb v_name]. rewrite return_var_name_is_return. reflexivity.
  - inversion H; subst. unfold guarded_insert_exit_row. rewrite G. reflexivity.
Qed.
Print Assumptions insert_return_vars_idempotent.

(* def f(q: qubit @owned, b: bool, x: int) -> int:
       if b: y = x + 1
       else: y = 2
       measure(q); return y
   hugr type ids: 0 = int, 1 = qubit, 2 = bool.  Names are code points. *)
Definition vq := mkVar [113] false 1.
Definition vb := mkVar [98] true 2.
Definition vx := mkVar [120] true 0.
Definition vy := mkVar [121] true 0.
Definition ex_cfg : cfg := mkCfg
  [ mkBB [vq; vb; vx] [[vq]; [vx; vq]] [2%nat; 1%nat];     (* entry, branches on b *)
    mkBB [vx; vq] [[vy; vq]] [3%nat];
    mkBB [vq] [[vy; vq]] [3%nat];
    mkBB [vq; vy] [[]] [4%nat];                             (* different order than its preds *)
    mkBB [] [] [] ]                                         (* exit *)
  0 4 [(0, true)].

Definition ex_cfg' : cfg :=
  match guarded_insert ex_cfg with Some c => c | None => ex_cfg end.

Example ex_inserted : b_in (get_bb ex_cfg' 4) = [mkVar [37; 114; 101; 116; 48] true 0]
  /\ b_outs (get_bb ex_cfg' 3) = [[mkVar [37; 114; 101; 116; 48] true 0]].
Proof. vm_compute. split; reflexivity. Qed.

Example ex_cfg_ok : cfg_ok ex_cfg' = true.
Proof. vm_compute. reflexivity. Qed.

(* the entry block needs a tuple sum: x only goes to the `if` branch, the qubit to both *)
Example ex_tuple_sum : block_outputs ex_cfg' (get_bb ex_cfg' 0) = Some ([[]; [vx]], [vq])
  /\ delivered ex_cfg' (get_bb ex_cfg' 0) 1 = Some [vx; vq]
  /\ declared ex_cfg' 1 = [vx; vq]
  /\ delivered ex_cfg' (get_bb ex_cfg' 1) 0 = Some [vy; vq]
  /\ declared ex_cfg' 3 = [vy; vq].
Proof. vm_compute. repeat split; reflexivity. Qed.

Example ex_conditional :
  tuple_sum_rows (get_bb ex_cfg' 0) = [[]; [vx]] /\ rows_consistent (tuple_sum_rows (get_bb ex_cfg' 0)) = true
  /\ cond_inputs (tuple_sum_rows (get_bb ex_cfg' 0)) = [val_of vx]
  /\ eval_conditional (tuple_sum_rows (get_bb ex_cfg' 0)) 1 = Some (1%nat, [val_of vx])
  /\ eval_conditional [[vx; vy]; [vy]; [vb; vx]] 2 = Some (2%nat, [val_of vb; val_of vx])
  /\ case_indices [[vx; vy]; [vy]; [vb; vx]] 2 = Some [2%nat; 0%nat].
Proof. vm_compute. repeat split; reflexivity. Qed.

Example ex_idempotent : guarded_insert ex_cfg' = Some ex_cfg'.
Proof. vm_compute. reflexivity. Qed.

(* the linearity hypothesis of cfg_ok is needed: with a qubit live in only one successor the
   rows do not agree (compile_bb would hand the qubit to a block that does not take it) *)
Definition bad_cfg : cfg := mkCfg
  [ mkBB [vq; vb] [[]; [vq]] [1%nat; 2%nat]; mkBB [] [[]] [3%nat]; mkBB [vq] [[]] [3%nat]; mkBB [] [] [] ]
  0 3 [].
Example ex_hypothesis_needed : cfg_ok bad_cfg = false
  /\ delivered bad_cfg (get_bb bad_cfg 0) 1 <> Some (declared bad_cfg 2).
Proof. vm_compute. split; [reflexivity | discriminate]. Qed.

(* Any sequence of DFContainer.__setitem__/__getitem__ calls over struct/tuple places, started
   from an empty container, keeps the invariant: no linear place has an entry of its own while a
   struct/tuple packed around it also has one -- every linear leaf is held by at most one of
   {its own entry, the entry of a packed ancestor}, so __getitem__ can never hand out a linear
   wire that a cached MakeTuple has already consumed.  Failing lookups (InternalGuppyError /
   KeyError) end the script.  env_ok: every leaf type is copyable+droppable, affine or linear
   (no "copyable but not droppable" leaf).  This is DFContainer as of /repo commit "assigning a
   struct field or tuple element left a stale packed wire for the parent". *)
Theorem dfc_linear : forall env script st, env_ok env = true ->
  run_script env script empty_dfc = Some st -> dfc_inv env st.
Proof.
  intros env script st He H. eapply run_inv; eauto. intros p q _ [].
Qed.
Print Assumptions dfc_linear.

(* __setitem__ as it was before that commit (leaf assignment does not forget packed ancestors)
   breaks the invariant: s = S(qubit, int); use s as a whole; s.q = fresh qubit *)
Theorem dfc_linear_unfixed_refuted : exists env script st, env_ok env = true /\
  run_script_unfixed env script empty_dfc = Some st /\ ~ dfc_inv env st.
Proof.
  exists bad_env, bad_script.
  destruct (run_script_unfixed bad_env bad_script empty_dfc) as [st|] eqn:E; [|vm_compute in E; discriminate].
  exists st. split; [reflexivity|]. split; [reflexivity|].
  intro H. vm_compute in E. inversion E; subst; clear E.
  specialize (H [0%nat] [0%nat; 0%nat]). unfold keys in H. simpl in H.
  assert (lin_at bad_env [0%nat; 0%nat] = false).
  { apply H; auto; [congruence | exists [0%nat]; split; [congruence | reflexivity]]. }
  vm_compute in H0. discriminate.
Qed.
Print Assumptions dfc_linear_unfixed_refuted.

(* the hypotheses are satisfiable on the same script with the repaired __setitem__: it runs,
   re-packing s from the new qubit, and ends with s packed and only the copyable field beside it *)
Example dfc_linear_example : exists st, run_script bad_env (bad_script ++ [SGet [0%nat]]) empty_dfc = Some st
  /\ env_ok bad_env = true /\ keys st = [[0%nat]; [0%nat; 1%nat]].
Proof. destruct dfc_fixed_ok as [st [H1 [_ H3]]]. exists st. repeat split; auto. Qed.
