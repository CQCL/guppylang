(** C32 — soundness of the executable checks of ModelDrop.v with respect to a specification
    written with inductive reachability and existential accounting (no booleans, no fuel). *)
From Coq Require Import String List Bool.
From V.C32 Require Import ModelDrop.
Import ListNotations.

(** Node kinds that can occur in an accepted function: the function definition, and whatever may
    sit in a field that some front-end scope reads. *)
Inductive Reach (t : table) : string -> Prop :=
| R_root : Reach t root
| R_step : forall p fd k,
    Reach t p -> In fd (fields_of t p) -> read_somewhere t p (f_name fd) = true ->
    In k (members_of t (f_type fd)) -> Reach t k.

Definition Accounted (t : table) (s : scope) (f : string) : Prop :=
  s_raises s = true \/ In f (s_reads s) \/ In f (s_guards s) \/ allowed_in (t_lowering t) (s_kind s) f = true \/
  (s_pass s = true /\
   exists s', In s' (t_scopes t) /\ s_kind s' = s_kind s /\ (In f (s_reads s') \/ In f (s_guards s'))).

Definition HasScope (t : table) (k : string) : Prop := exists s, In s (t_scopes t) /\ s_kind s = k.

Lemma mem_In : forall x l, mem x l = true <-> In x l.
Proof.
  intros x l. unfold mem. rewrite existsb_exists. split.
  - intros [y [Hy He]]. apply String.eqb_eq in He. subst. exact Hy.
  - intros H. exists x. split; [exact H | apply String.eqb_refl].
Qed.

Lemma scopes_of_In : forall t k s, In s (scopes_of t k) <-> In s (t_scopes t) /\ s_kind s = k.
Proof.
  intros t k s. unfold scopes_of. rewrite filter_In. split.
  - intros [H E]. apply String.eqb_eq in E. auto.
  - intros [H E]. split; [exact H|]. subst. apply String.eqb_refl.
Qed.

Lemma touched_spec : forall s f, touched s f = true -> In f (s_reads s) \/ In f (s_guards s).
Proof.
  intros s f H. unfold touched in H. apply orb_true_iff in H. destruct H as [H|H]; apply mem_In in H; auto.
Qed.

Lemma accounted_sound : forall t s f, accounted t s f = true -> Accounted t s f.
Proof.
  intros t s f H. unfold accounted in H. unfold Accounted.
  apply orb_true_iff in H. destruct H as [H|H].
  - apply orb_true_iff in H. destruct H as [H|H].
    + apply orb_true_iff in H. destruct H as [H|H].
      * left. exact H.
      * apply touched_spec in H. destruct H; auto.
    + right. right. right. left. exact H.
  - apply andb_true_iff in H. destruct H as [Hp Ht].
    right. right. right. right. split; [exact Hp|].
    unfold touched_somewhere in Ht. apply existsb_exists in Ht. destruct Ht as [s' [Hs' Htt]].
    apply scopes_of_In in Hs'. destruct Hs' as [Hin Hk].
    exists s'. split; [exact Hin|]. split; [exact Hk|]. apply touched_spec. exact Htt.
Qed.

Lemma check_scopes_sound : forall t, check_scopes t = true ->
  forall s fd, In s (t_scopes t) -> In fd (fields_of t (s_kind s)) -> Accounted t s (f_name fd).
Proof.
  intros t H s fd Hs Hf. unfold check_scopes in H. rewrite forallb_forall in H.
  specialize (H s Hs). unfold scope_ok in H. rewrite forallb_forall in H.
  apply accounted_sound. apply H. exact Hf.
Qed.

Lemma children_In : forall t p k, In k (children t p) <->
  exists fd, In fd (fields_of t p) /\ read_somewhere t p (f_name fd) = true /\ In k (members_of t (f_type fd)).
Proof.
  intros t p k. unfold children. rewrite in_flat_map. split; intros [fd [Hf H]]; exists fd; split; trivial.
  - destruct (read_somewhere t p (f_name fd)); [auto | destruct H].
  - destruct H as [-> H]. exact H.
Qed.

Lemma reach_children : forall t p k, Reach t p -> In k (children t p) -> Reach t k.
Proof.
  intros t p k R H. apply children_In in H. destruct H as (fd & Hf & Hr & Hk). exact (R_step t p fd k R Hf Hr Hk).
Qed.

Lemma closed_reach : forall t l, closed t l = true -> forall k, Reach t k -> In k l.
Proof.
  intros t l H. unfold closed in H. apply andb_true_iff in H. destruct H as [Hr Hc].
  rewrite forallb_forall in Hc.
  intros k R. induction R as [|p fd k R IH Hf Hrd Hk].
  - apply mem_In. exact Hr.
  - specialize (Hc p IH). rewrite forallb_forall in Hc.
    apply mem_In. apply Hc. apply children_In. eauto.
Qed.

(** per field type: the members of [expr] are looked up in [l] once, not for every expr field of
    every kind *)
Definition types_read (t : table) (l : list string) : list string :=
  flat_map (fun k => flat_map (fun fd => if read_somewhere t k (f_name fd) then [f_type fd] else [])
                              (fields_of t k)) l.

Lemma closed_by_types : forall t l tys,
  mem root l = true ->
  forallb (fun ty => mem ty tys) (types_read t l) = true ->
  forallb (fun ty => forallb (fun c => mem c l) (members_of t ty)) tys = true ->
  closed t l = true.
Proof.
  intros t l tys Hr Ht Hm. unfold closed. rewrite Hr. rewrite forallb_forall in Ht, Hm.
  apply forallb_forall. intros k Hk. apply forallb_forall. intros c Hc.
  apply children_In in Hc. destruct Hc as (fd & Hf & Hrd & Hc).
  assert (In (f_type fd) (types_read t l)) as Hty.
  { apply in_flat_map. exists k. split; [exact Hk|]. apply in_flat_map. exists fd. split; [exact Hf|].
    rewrite Hrd. left. reflexivity. }
  apply Ht, mem_In, Hm in Hty. rewrite forallb_forall in Hty. exact (Hty c Hc).
Qed.

(** The converse of [closed_reach] for the list that is computed: whatever [closure] collects is
    reachable, whether or not the fuel sufficed.  Together: a closed [reach_list] is exactly [Reach]. *)
Lemma closure_reach : forall t fuel seen todo,
  (forall k, In k seen -> Reach t k) -> (forall k, In k todo -> Reach t k) ->
  forall k, In k (closure t fuel seen todo) -> Reach t k.
Proof.
  intros t. induction fuel as [|n IH]; intros seen todo Hs Ht; simpl; [exact Hs|].
  destruct todo as [|p rest]; [exact Hs|].
  destruct (mem p seen); apply IH; trivial.
  - intros k H. apply Ht. right. exact H.
  - intros k [<-|H]; [apply Ht; left; reflexivity | exact (Hs k H)].
  - intros k H. apply in_app_or in H. destruct H as [H|H].
    + apply (reach_children t p); [apply Ht; left; reflexivity | exact H].
    + apply Ht. right. exact H.
Qed.

Lemma reach_list_sound : forall t k, In k (reach_list t) -> Reach t k.
Proof. intros t. apply closure_reach; [intros k [] | intros k [<-|[]]; apply R_root]. Qed.

Lemma has_scope_spec : forall t k, has_scope t k = true -> HasScope t k.
Proof.
  intros t k H. unfold has_scope in H. destruct (scopes_of t k) as [|s r] eqn:E; [discriminate|].
  assert (In s (scopes_of t k)) as Hin by (rewrite E; left; reflexivity).
  apply scopes_of_In in Hin. exists s. exact Hin.
Qed.

Lemma check_kinds_sound : forall t, check_kinds t = true ->
  forall k, Reach t k -> fields_of t k <> [] -> kind_rejected t k = true \/ HasScope t k.
Proof.
  intros t H k R Hne. unfold check_kinds in H. apply andb_true_iff in H. destruct H as [Hc Hk].
  pose proof (closed_reach t _ Hc k R) as Hin.
  rewrite forallb_forall in Hk. specialize (Hk k Hin). unfold kind_ok in Hk.
  apply orb_true_iff in Hk. destruct Hk as [Hk|Hk].
  - apply orb_true_iff in Hk. destruct Hk as [Hk|Hk].
    + unfold carries_syntax in Hk. destruct (fields_of t k); [contradiction Hne; reflexivity | discriminate].
    + left. exact Hk.
  - right. apply has_scope_spec. exact Hk.
Qed.

(** About a variable table: [unfold check_all in H] for the closed [tbl] leaves a conversion that
    the kernel decides by running the whole check again. *)
Lemma check_all_intro : forall t l, reach_list t = l ->
  check_scopes t = true -> closed t l = true -> forallb (kind_ok t) l = true -> check_all t = true.
Proof. intros t l <- Hs Hc Hk. unfold check_all, check_kinds. rewrite Hs, Hc, Hk. reflexivity. Qed.

Lemma check_all_parts : forall t, check_all t = true -> check_scopes t = true /\ check_kinds t = true.
Proof. intros t H. apply andb_true_iff. exact H. Qed.

Lemma closure_ext : forall t t', (forall k, children t' k = children t k) ->
  forall fuel seen todo, closure t' fuel seen todo = closure t fuel seen todo.
Proof.
  intros t t' E. induction fuel as [|n IH]; intros seen todo; simpl; [reflexivity|].
  destruct todo as [|k rest]; [reflexivity|]. rewrite E. destruct (mem k seen); apply IH.
Qed.

Lemma silent_generic_detected : forall t,
  forallb (kind_ok (silent_generic t)) (reach_list t) = false -> check_all (silent_generic t) = false.
Proof.
  intros t H. unfold check_all, check_kinds.
  replace (reach_list (silent_generic t)) with (reach_list t) by (symmetry; apply closure_ext; reflexivity).
  rewrite H, !andb_false_r. reflexivity.
Qed.

Lemma forget_field_no_scope : forall k f t, has_scope t k = false -> forget_field k f t = t.
Proof.
  intros k f [g m ss a b c d e] H. unfold forget_field; simpl. f_equal.
  unfold has_scope, scopes_of in H; simpl in H.
  induction ss as [|s r IH]; simpl in *; [reflexivity|].
  destruct (String.eqb (s_kind s) k); [discriminate H | rewrite (IH H); reflexivity].
Qed.

Theorem check_all_sound : forall t, check_all t = true ->
  forall k fd, Reach t k -> In fd (fields_of t k) ->
    kind_rejected t k = true \/
    (HasScope t k /\ forall s, In s (t_scopes t) -> s_kind s = k -> Accounted t s (f_name fd)).
Proof.
  intros t H k fd R Hf. destruct (check_all_parts t H) as [Hs Hk].
  assert (fields_of t k <> []) as Hne by (intro E; rewrite E in Hf; destruct Hf).
  destruct (check_kinds_sound t Hk k R Hne) as [Hr|Hh].
  - left. exact Hr.
  - right. split; [exact Hh|]. intros s Hin Hkind. subst k.
    apply (check_scopes_sound t Hs s fd Hin Hf).
Qed.

Lemma reach_child : forall t p fd k, Reach t p -> In fd (fields_of t p) ->
  read_somewhere t p (f_name fd) = true -> In k (members_of t (f_type fd)) -> Reach t k.
Proof. exact R_step. Qed.
