(** C32 — Accepted syntax is never silently ignored.

    Every statement is about [tbl], the table GENERATED on this run from CPython's grammar
    (all node kinds and fields of the `ast` module of the interpreter that runs guppylang) and
    from the front-end sources of the tree under test (cfg/builder.py, checker/func_checker.py,
    checker/stmt_checker.py, checker/expr_checker.py, tys/parsing.py:parse_parameter, nodes.py).
    Bound: the table is finite; [table_checks] is decided by evaluation over exactly that table,
    the quantified statements follow by the lemmas of Proofs.v. *)
From Coq Require Import String List.
From V.C32 Require Import ModelDrop GenTable Proofs.
Import ListNotations.
Open Scope string_scope.

(* Evaluated when this file is compiled, not trusted: [reach_tbl_eq] makes the kernel evaluate
   [reach_list tbl] itself, [closed_by_types] checks [read_types] whatever it is. *)
Definition reach_tbl : list string := Eval vm_compute in reach_list tbl.
Lemma reach_tbl_eq : reach_list tbl = reach_tbl.
Proof. vm_compute. reflexivity. Qed.

Definition read_types : list string := Eval vm_compute in nodup string_dec (types_read tbl reach_tbl).

Theorem table_checks : check_all tbl = true.
Proof.
  apply (check_all_intro tbl reach_tbl reach_tbl_eq); [| apply (closed_by_types tbl reach_tbl read_types) |];
    vm_compute; reflexivity.
Qed.
Print Assumptions table_checks.

(* no_silent_drop: for every node kind k that can occur in an accepted function and every field
   f of k in CPython's grammar: k is rejected outright by the generic fallback of its visitor, or
   k has front-end scopes and EVERY one of them accounts for f -- raises, uses f, rejects f when
   present, f is on the stated allowlist, or hands the node on to a scope that does. *)
Theorem no_silent_drop : forall k fd, Reach tbl k -> In fd (fields_of tbl k) ->
  kind_rejected tbl k = true \/
  (HasScope tbl k /\ forall s, In s (t_scopes tbl) -> s_kind s = k -> Accounted tbl s (f_name fd)).
Proof. exact (check_all_sound tbl table_checks). Qed.
Print Assumptions no_silent_drop.

(* the same per scope, also for scopes of kinds outside Reach (assignment targets, type positions) *)
Theorem every_scope_accounts : forall s fd, In s (t_scopes tbl) -> In fd (fields_of tbl (s_kind s)) ->
  Accounted tbl s (f_name fd).
Proof. exact (check_scopes_sound tbl (proj1 (check_all_parts tbl table_checks))). Qed.
Print Assumptions every_scope_accounts.

(* LOWERING stage (compiler/expr_compiler.py, compiler/stmt_compiler.py; node kinds = Guppy's own
   checked nodes with their `_fields` from nodes.py + the Python kinds that survive checking):
   every scope of ExprCompiler / StmtCompiler accounts for every field of its node kind.  This is
   only the per-scope statement (no reachability: the checked-node grammar is not typed). *)
Theorem lowering_scopes_account : forall s fd, In s (t_scopes ltbl) -> In fd (fields_of ltbl (s_kind s)) ->
  Accounted ltbl s (f_name fd).
Proof. apply check_scopes_sound. vm_compute. reflexivity. Qed.
Print Assumptions lowering_scopes_account.

(* the hypotheses are satisfiable: loops, calls, comprehensions, nested function signatures are
   reachable kinds with fields *)
Example reach_nontrivial :
  Reach tbl "While" /\ Reach tbl "Call" /\ Reach tbl "comprehension" /\ Reach tbl "arguments" /\ Reach tbl "withitem".
Proof.
  repeat split; apply reach_list_sound; rewrite reach_tbl_eq; apply mem_In; vm_compute; reflexivity.
Qed.

(* the check is not vacuous: a front end that forgot one of these fields, or whose generic
   fallbacks stopped raising, does not pass *)
Example forgotten_fields_detected :
  check_all (forget_field "While" "orelse" tbl) = false /\
  check_all (forget_field "For" "orelse" tbl) = false /\
  check_all (forget_field "Call" "keywords" tbl) = false /\
  check_all (forget_field "FunctionDef" "decorator_list" tbl) = false /\
  check_all (forget_field "arguments" "defaults" tbl) = false /\
  check_all (forget_field "withitem" "optional_vars" tbl) = false /\
  check_all (forget_field "Slice" "step" tbl) = true (* Slice is rejected as a kind *) /\
  check_all (silent_generic tbl) = false /\
  check_scopes (forget_field "DesugaredGenerator" "ifs" ltbl) = false /\
  check_scopes (forget_field "DesugaredListComp" "generators" ltbl) = false /\
  check_scopes (forget_field "Assign" "targets" ltbl) = false.
Proof.
  do 6 (split; [vm_compute; reflexivity|]).
  split; [rewrite forget_field_no_scope by (vm_compute; reflexivity); exact table_checks|].
  split; [apply silent_generic_detected; rewrite reach_tbl_eq; vm_compute; reflexivity|].
  repeat split; vm_compute; reflexivity.
Qed.
