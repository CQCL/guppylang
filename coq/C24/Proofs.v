(** C24 — lemmas about the GENERATED checker (GenUnitary.v).  A node passes [visit] iff its own
    test [here] holds and its children [kids] pass ([visit_step]); the specification [node_ok]
    unfolds the same way ([node_ok_step]); so the two agree on every node ([visit_none_iff], by the
    nested induction [node_ind']) and on every CFG ([check_cfg_iff]).  At the end: the hand-written
    class lists the generated tables are compared with, and induction on types for [ty_visit]. *)
From Coq Require Import ZArith List Bool String Lia.
From V.C24 Require Import ModelBase GenUnitary.
Import ListNotations.
Open Scope Z_scope.

(* the nested lists of [node] and [gty] are walked by this combinator, so that a recursive
   principle can pass itself as [f] *)
Definition Forall_of {A} (P : A -> Prop) (f : forall a, P a) : forall l, Forall P l :=
  fix go l := match l with [] => Forall_nil P | a :: r => Forall_cons a (f a) (go r) end.

(* an assignment's optional value as one more child *)
Definition olist (v : option node) : list node := match v with Some x => [x] | None => [] end.

(* the nodes directly below a node: what [visit] goes into and what [calls], [has_assign],
   [has_subscript] recurse into.  An assignment's are in the order of [calls]; the checker
   takes the value first, which decides only WHICH error comes first *)
Definition kids (n : node) : list node :=
  match n with
  | NCall _ args => map fst args
  | NExempt => []
  | NPlace _ idx => idx
  | NAssign ts v => ts ++ olist v
  | NGeneric cs => cs
  end.

Section NodeInd.
  Variable P : node -> Prop.
  Hypothesis H : forall n, Forall P (kids n) -> P n.

  Fixpoint node_ind' (n : node) : P n :=
    H n match n return Forall P (kids n) with
        | NCall _ args => proj2 (Forall_map fst P args) (Forall_of _ (fun p => node_ind' (fst p)) args)
        | NExempt => Forall_nil P
        | NPlace _ idx => Forall_of P node_ind' idx
        | NAssign ts v => proj2 (Forall_app P ts (olist v)) (conj (Forall_of P node_ind' ts)
            match v as v0 return Forall P (olist v0) with
            | Some x => Forall_cons x (node_ind' x) (Forall_nil P)
            | None => Forall_nil P
            end)
        | NGeneric cs => Forall_of P node_ind' cs
        end.
End NodeInd.

(** the code's test `a & b == a` is bitwise inclusion, for all integers *)
Lemma flag_in_subset : forall a b, flag_in a b = true <-> subset a b.
Proof.
  intros a b. unfold flag_in, subset. rewrite Z.eqb_eq. split.
  - intros E i Hi A. rewrite <- E, Z.land_spec in A. apply andb_prop in A. apply A.
  - intros S. apply Z.bits_inj'. intros i Hi. rewrite Z.land_spec.
    destruct (Z.testbit a i) eqn:A; [rewrite (S i Hi A)|]; reflexivity.
Qed.

Lemma check_call_none : forall fl cf q, check_call fl cf (negb q) = None <-> q = false \/ subset fl cf.
Proof.
  intros fl cf q. unfold check_call. rewrite negb_involutive, <- flag_in_subset.
  destruct q, (flag_in fl cf); simpl; intuition congruence.
Qed.

Lemma check_call_some : forall fl cf q, check_call fl cf (negb q) <> None <-> q = true /\ ~ subset fl cf.
Proof. intros fl cf q. rewrite check_call_none. destruct q; intuition congruence. Qed.

Lemma missing_bits : forall fl cf i, 0 <= i ->
  Z.testbit (Z.land fl (flag_not cf)) i = Z.testbit fl i && negb (Z.testbit cf i) && (i <? 3).
Proof.
  intros fl cf i Hi. unfold flag_not, flag_bits. rewrite Z.land_spec, Z.lxor_spec, Z.land_spec.
  change 7 with (Z.ones 3). rewrite Z.testbit_ones_nonneg by easy.
  destruct (Z.testbit fl i), (Z.testbit cf i), (i <? 3); reflexivity.
Qed.

Lemma check_call_missing : forall fl cf c, In fl lattice ->
  check_call fl cf c <> None -> exists m, check_call fl cf c = Some (ECallFlags m) /\
    forall i, 0 <= i < 4 -> Z.testbit m i = Z.testbit fl i && negb (Z.testbit cf i).
Proof.
  intros fl cf c Hf H. unfold check_call in *. destruct (negb c && negb (flag_in fl cf)); [|congruence].
  eexists; split; [reflexivity|]. intros i Hi. rewrite missing_bits by apply Hi.
  destruct (Z.ltb_spec i 3); [apply andb_true_r|].
  (* bit 3 is not a flag: it is clear in every element of the lattice *)
  replace i with 3 by lia. simpl in Hf. decompose [or] Hf; subst; try reflexivity. contradiction.
Qed.

Lemma orelse_none_r : forall a, orelse a None = a.
Proof. destruct a; reflexivity. Qed.

Lemma orelse_none : forall a b, orelse a b = None <-> a = None /\ b = None.
Proof. destruct a; simpl; intuition congruence. Qed.

Lemma first_error_none : forall (A : Type) (f : A -> option err) l,
  fold_right (fun x acc => orelse (f x) acc) None l = None <-> Forall (fun x => f x = None) l.
Proof.
  induction l; simpl.
  - split; [constructor | reflexivity].
  - rewrite orelse_none, IHl. split; [intros [? ?]; now constructor | intros H; inversion H; auto].
Qed.

(* some argument's type contains a qubit: the [existsb] of [call_ok], on a call node's arguments *)
Definition anyq (args : list (node * bool)) : bool := existsb (fun q => q) (map snd args).

Lemma anyq_true : forall args, anyq args = true <-> exists p, In p args /\ snd p = true.
Proof.
  intro args. unfold anyq. rewrite existsb_exists. split.
  - intros [q [I Q]]. apply in_map_iff in I. destruct I as [p [<- I]]. eauto.
  - intros [p [I Q]]. exists (snd p). split; [now apply in_map | exact Q].
Qed.

Lemma visit_call_eq : forall fl cf args,
  visit fl (NCall cf args) =
  orelse (visit_list fl (map fst args)) (check_call fl cf (negb (anyq args))).
Proof.
  intros fl cf args. cbn [visit].
  set (go := fix go (l : list (node * bool)) (classical : bool) {struct l} : option err * bool :=
                  match l with
                  | [] => (None, classical)
                  | p :: r => match visit fl (fst p) with
                              | Some e => (Some e, classical)
                              | None => go r (if snd p then false else classical)
                              end
                  end).
  (* the loop's flag is read only when no argument failed, so the invariant is about the
     expression it is read in *)
  assert (G : forall l c, orelse (fst (go l c)) (check_call fl cf (snd (go l c))) =
                          orelse (visit_list fl (map fst l)) (check_call fl cf (c && negb (anyq l)))).
  { induction l as [|p r IH]; intro c; simpl.
    - unfold anyq. simpl. now rewrite andb_true_r.
    - destruct (visit fl (fst p)); simpl; [reflexivity|]. rewrite IH. unfold anyq. simpl.
      destruct (snd p); simpl; [now rewrite andb_false_r | reflexivity]. }
  exact (G args true).
Qed.

Lemma visit_place_eq : forall fl s idx,
  visit fl (NPlace s idx) = if flag_in F_Dagger fl && s then Some EDaggerSubscript else visit_list fl idx.
Proof. reflexivity. Qed.

Lemma visit_assign_eq : forall fl ts v,
  visit fl (NAssign ts v) =
  if flag_in F_Dagger fl then Some EDaggerAssign
  else orelse (match v with Some x => visit fl x | None => None end) (visit_list fl ts).
Proof. intros. cbn [visit]. now rewrite orelse_none_r. Qed.

Lemma visit_generic_eq : forall fl cs, visit fl (NGeneric cs) = visit_list fl cs.
Proof. reflexivity. Qed.

Lemma visit_list_none : forall fl l, visit_list fl l = None <-> Forall (fun n => visit fl n = None) l.
Proof. intros. apply first_error_none. Qed.

Lemma visit_list_app : forall fl a b, visit_list fl (a ++ b) = orelse (visit_list fl a) (visit_list fl b).
Proof. induction a; simpl; intros; [reflexivity | rewrite IHa; destruct (visit fl a); reflexivity]. Qed.

(* what the property asks of a node in a context requiring [fl]: every call at or below it obeys
   the flag rule and, under Dagger, no assignment and no subscripted place occurs at or below it *)
Definition node_ok (fl : Z) (n : node) : Prop :=
  (forall c, In c (calls n) -> call_ok fl c) /\
  (subset F_Dagger fl -> has_assign n = false /\ has_subscript n = false).

Lemma existsb_false_forall : forall (A : Type) (f : A -> bool) l, existsb f l = false <-> Forall (fun x => f x = false) l.
Proof.
  induction l; simpl; [split; [constructor|reflexivity]|].
  rewrite orb_false_iff, IHl. split; [intros [? ?]; now constructor | intros H; inversion H; auto].
Qed.

(* [g] is the identity on a list of nodes and [fst] on a call's arguments: either way the right-hand
   side is, up to conversion, what the inner loops of [calls], [has_assign], [has_subscript] compute *)
Lemma Forall_node_ok_split : forall fl (A : Type) (g : A -> node) l,
  Forall (fun a => node_ok fl (g a)) l <->
  (forall c, In c (flat_map (fun a => calls (g a)) l) -> call_ok fl c) /\
  (subset F_Dagger fl ->
   existsb (fun a => has_assign (g a)) l = false /\ existsb (fun a => has_subscript (g a)) l = false).
Proof.
  intros fl A g l. rewrite !existsb_false_forall, !Forall_forall. unfold node_ok. split.
  - intros H. split.
    + intros c Hc. apply in_flat_map in Hc. destruct Hc as [a [Ha Hc]]. exact (proj1 (H a Ha) c Hc).
    + intros Dg. split; intros a Ha; apply (H a Ha), Dg.
  - intros [C D] a Ha. split.
    + intros c Hc. apply C, in_flat_map. eauto.
    + intros Dg. destruct (D Dg) as [X Y]. auto.
Qed.

(* the test a node class adds to those of its children *)
Definition here (fl : Z) (n : node) : Prop :=
  match n with
  | NCall cf args => anyq args = false \/ subset fl cf
  | NPlace s _ => subset F_Dagger fl -> s = false
  | NAssign _ _ => ~ subset F_Dagger fl
  | _ => True
  end.

Lemma node_ok_step : forall fl n, node_ok fl n <-> here fl n /\ Forall (node_ok fl) (kids n).
Proof.
  intros fl n.
  destruct n as [cf args | | s idx | ts v | cs]; unfold node_ok at 1; simpl; rewrite ?Forall_map, Forall_node_ok_split.
  - split.
    + intros [C D]. split; [apply (C (cf, map snd args)); now left | split; [intros c Hc; apply C; now right | exact D]].
    + intros [K [C D]]. split; [intros c [<-|Hc]; [exact K | now apply C] | exact D].
  - simpl. tauto.
  - destruct s; simpl; intuition congruence.
  - rewrite flat_map_app.
    assert (E : flat_map (fun a => calls a) (olist v) = match v with Some x => calls x | None => [] end)
      by (destruct v; simpl; rewrite ?app_nil_r; reflexivity).
    rewrite E. split.
    + intros [C D]. assert (N : ~ subset F_Dagger fl) by (intros Dg; destruct (D Dg); discriminate).
      split; [exact N | split; [exact C | intros Dg; contradiction]].
    + intros [N [C _]]. split; [exact C | intros Dg; contradiction].
  - tauto.
Qed.

Lemma visit_step : forall fl n, visit fl n = None <-> here fl n /\ visit_list fl (kids n) = None.
Proof.
  intros fl n. pose proof (flag_in_subset F_Dagger fl) as DG.
  destruct n as [cf args | | s idx | ts v | cs]; simpl here; simpl kids.
  - rewrite visit_call_eq, orelse_none, check_call_none. tauto.
  - simpl. tauto.
  - rewrite visit_place_eq, <- DG. destruct (flag_in F_Dagger fl), s; simpl; intuition congruence.
  - rewrite visit_assign_eq, visit_list_app, <- DG.
    destruct (flag_in F_Dagger fl); [split; [discriminate | intros [N _]; now destruct N]|].
    assert (E : visit_list fl (olist v) = match v with Some x => visit fl x | None => None end)
      by (destruct v; simpl; rewrite ?orelse_none_r; reflexivity).
    rewrite !orelse_none, E. split; [intros [A B]; split; [discriminate | split; assumption] | tauto].
  - rewrite visit_generic_eq. tauto.
Qed.

Lemma visit_list_lift : forall fl l,
  Forall (fun n => visit fl n = None <-> node_ok fl n) l ->
  (visit_list fl l = None <-> Forall (node_ok fl) l).
Proof.
  intros fl l H. rewrite visit_list_none, !Forall_forall in *.
  split; intros A n Hn; apply (H n Hn), A, Hn.
Qed.

Lemma visit_none_iff : forall fl n, visit fl n = None <-> node_ok fl n.
Proof.
  intros fl n. induction n as [n IH] using node_ind'.
  rewrite visit_step, node_ok_step, (visit_list_lift fl _ IH). reflexivity.
Qed.

Lemma visit_list_ok : forall fl l, visit_list fl l = None <-> Forall (node_ok fl) l.
Proof. intros. apply visit_list_lift, Forall_forall. intros n _. apply visit_none_iff. Qed.

(** `check` visits exactly the AST-bearing fields of a block (both lists are generated data) *)
Lemma fields_same : forall f, In f bb_ast_fields <-> In f checked_bb_fields.
Proof. intro f. simpl. tauto. Qed.

Lemma check_block_iff : forall fl b,
  check_block fl b = None <-> forall f n, In f bb_ast_fields -> In n (field_nodes b f) -> node_ok fl n.
Proof.
  intros fl b. unfold check_block, block_nodes. rewrite visit_list_ok, Forall_forall. split.
  - intros H f n Hf Hn. apply H, in_flat_map. exists f. split; [now apply fields_same | exact Hn].
  - intros H n Hn. apply in_flat_map in Hn. destruct Hn as [f [Hf Hn]]. apply (H f n); [now apply fields_same | exact Hn].
Qed.

Lemma check_cfg_none : forall fl bbs, check_cfg fl bbs = None <-> Forall (fun b => check_block fl b = None) bbs.
Proof. intros. apply first_error_none. Qed.

Lemma check_cfg_iff : forall fl bbs,
  check_cfg fl bbs = None <->
  forall b f n, In b bbs -> In f bb_ast_fields -> In n (field_nodes b f) -> node_ok fl n.
Proof.
  intros fl bbs. rewrite check_cfg_none, Forall_forall. split.
  - intros H b f n Hb. apply check_block_iff, H, Hb.
  - intros H b Hb. apply check_block_iff. intros f n. now apply H.
Qed.

(* callee flag sets lie in the lattice: the stated bound of the CFG theorems of Props.v (no lemma
   of this file needs it) *)
Definition wf_nodes (l : list node) : Prop := Forall (fun n => Forall (fun c => In (fst c) lattice) (calls n)) l.
Definition wf_block (b : block) : Prop := wf_nodes (block_nodes bb_ast_fields b).

Lemma precheck_stmts_iff : forall l, precheck_stmts l <> None <-> exists p, In p l /\ (fst p = true \/ snd p = true).
Proof.
  induction l as [|p r IH]; simpl.
  - split; [congruence | intros [p [[] _]]].
  - destruct (fst p) eqn:A; [split; [intros _; exists p; auto | congruence]|].
    destruct (snd p) eqn:B; [split; [intros _; exists p; auto | congruence]|].
    rewrite IH. split; [intros [q [I Q]]; exists q; auto | intros [q [[<-|I] Q]]; [destruct Q; congruence | exists q; auto]].
Qed.

(** Specification side of the table theorems: the class names as Python's ast and nodes.py
    have them, written down by hand; the generated tables are compared with these lists. *)
Fixpoint lookup (k : string) (t : list (string * behaviour)) : option behaviour :=
  match t with [] => None | (k', v) :: r => if String.eqb k k' then Some v else lookup k r end.

Definition exempt_classes : list string := ["BarrierExpr"; "StateResultExpr"]%string.
Definition py_assign_classes : list string := ["Assign"; "AnnAssign"; "AugAssign"]%string.
Definition py_loop_classes : list string := ["For"; "While"]%string.
Definition mem (s : string) (l : list string) : bool := existsb (String.eqb s) l.

Lemma mem_In : forall s l, mem s l = true <-> In s l.
Proof.
  intros. unfold mem. rewrite existsb_exists. split; [intros [x [I E]]; apply String.eqb_eq in E; now subst | intros I; exists s; split; [exact I | apply String.eqb_refl]].
Qed.

Lemma incl_by_mem : forall a b, forallb (fun c => mem c b) a = true -> incl a b.
Proof. intros a b H c Hc. rewrite forallb_forall in H. now apply mem_In, H. Qed.

Lemma lookup_In : forall c v t, lookup c t = Some v -> In (c, v) t.
Proof.
  induction t as [|[k w] r IH]; simpl; [discriminate|]. destruct (String.eqb c k) eqn:E.
  - intros [= <-]. apply String.eqb_eq in E. subst. now left.
  - intros H. right. now apply IH.
Qed.

Section GtyInd.
  Variable P : gty -> Prop.
  Definition Parg (a : option gty) : Prop := match a with Some u => P u | None => True end.
  Hypothesis Hq : P GQubit.
  Hypothesis Hl : P GLeaf.
  Hypothesis Ho : forall args, Forall Parg args -> P (GOpaque args).
  Hypothesis Ht : forall args, Forall Parg args -> P (GTuple args).
  Hypothesis Hs : forall args fs, Forall Parg args -> Forall P fs -> P (GStruct args fs).

  Fixpoint gty_ind' (t : gty) : P t :=
    let goa := Forall_of Parg (fun a => match a as a0 return Parg a0 with Some u => gty_ind' u | None => I end) in
    match t with
    | GQubit => Hq
    | GLeaf => Hl
    | GOpaque args => Ho args (goa args)
    | GTuple args => Ht args (goa args)
    | GStruct args fs => Hs args fs (goa args) (Forall_of P gty_ind' fs)
    end.
End GtyInd.

Definition arg_visit (a : option gty) : bool := match a with Some u => ty_visit u | None => false end.

Lemma args_exists : forall args,
  Forall (Parg (fun t => ty_visit t = true <-> qubit_occurs t)) args ->
  (existsb arg_visit args = true <-> exists u, In (Some u) args /\ qubit_occurs u).
Proof.
  intros args F. rewrite existsb_exists. rewrite Forall_forall in F. split.
  - intros [a [I V]]. destruct a as [u|]; [|discriminate]. exists u. split; [exact I | apply (F (Some u) I), V].
  - intros [u [I O]]. exists (Some u). split; [exact I | apply (F (Some u) I), O].
Qed.

Lemma fields_exists : forall fs,
  Forall (fun t => ty_visit t = true <-> qubit_occurs t) fs ->
  (existsb ty_visit fs = true <-> exists u, In u fs /\ qubit_occurs u).
Proof.
  intros fs F. rewrite existsb_exists. rewrite Forall_forall in F. split.
  - intros [u [I V]]. exists u. split; [exact I | apply (F u I), V].
  - intros [u [I O]]. exists u. split; [exact I | apply (F u I), O].
Qed.
