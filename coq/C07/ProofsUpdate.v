(* C07 — the model of _update_inout_ports assigns the k-th extra returned wire to the k-th
   borrowed argument's place; combined with the generated row definitions this gives the
   caller/callee round trip. *)
From Coq Require Import List Arith Lia.
From V.C07 Require Import ModelBase GenFuncTy ModelCall ProofsAlign.

Section UpdSpec.
  Variables T P W St : Type.
  Variable assign : P -> W -> St -> St.

  (* index-only description of the write-back: walk over the input positions; position i
     gets port number inout_rank(i) when input i is borrowed and argument i is a place *)
  Definition wb_step (inputs : list (FuncInput T)) (args : list (arg P)) (ports : list W) (s : St) (i : nat) : St :=
    match nth_error inputs i, nth_error args i with
    | Some inp, Some (APlace p) =>
        if is_inout T inp then
          match nth_error ports (inout_rank T inputs i) with Some w => assign p w s | None => s end
        else s
    | _, _ => s
    end.
  Definition writeback_spec inputs args ports (s : St) : St :=
    fold_left (wb_step inputs args ports) (seq 0 (length inputs)) s.

  Lemma wb_step_0 : forall inp inputs a args ports s,
    wb_step (inp :: inputs) (a :: args) ports s 0 =
    match a, ports with
    | APlace p, w :: _ => if is_inout T inp then assign p w s else s
    | _, _ => s
    end.
  Proof. intros. unfold wb_step. simpl. destruct a, (is_inout T inp), ports; reflexivity. Qed.

  Lemma wb_step_S : forall inp inputs a args ports s i,
    wb_step (inp :: inputs) (a :: args) ports s (S i) =
    wb_step inputs args (if is_inout T inp then tl ports else ports) s i.
  Proof.
    intros. unfold wb_step, inout_rank. cbn [nth_error firstn filter].
    destruct (is_inout T inp); [cbn [length]; rewrite nth_error_tl|]; reflexivity.
  Qed.

  Lemma writeback_spec_cons : forall inp inputs a args ports s,
    writeback_spec (inp :: inputs) (a :: args) ports s =
    writeback_spec inputs args (if is_inout T inp then tl ports else ports)
                   (wb_step (inp :: inputs) (a :: args) ports s 0).
  Proof.
    intros. unfold writeback_spec. cbn [length seq fold_left]. rewrite fold_seq_shift.
    apply fold_left_ext. intros s0 i. apply wb_step_S.
  Qed.

  (* the loop fails exactly when the port iterator runs dry *)
  Lemma update_inout_spec : forall zs ports s,
    update_inout T P W St assign zs ports s =
    let n := length (filter (is_inout T) (map fst zs)) in
    if n <=? length ports
    then Some (writeback_spec (map fst zs) (map snd zs) ports s, skipn n ports)
    else None.
  Proof.
    induction zs as [|[inp a] zs IH]; intros ports s; [reflexivity|].
    cbn [update_inout map fst snd filter]. rewrite writeback_spec_cons, wb_step_0.
    change (is_inout T inp) with (fl_inout (fi_flags inp)).
    destruct (fl_inout (fi_flags inp)).
    - destruct ports as [|w ports]; [reflexivity|]. destruct a; apply IH.
    - rewrite IH. destruct a, ports; reflexivity.
  Qed.

  Lemma update_inout_ports_spec : forall inputs args ports s s',
    update_inout_ports T P W St assign inputs args ports s = Some s' ->
    length inputs = length args /\
    length ports = length (filter (is_inout T) inputs) /\
    s' = writeback_spec inputs args ports s.
  Proof.
    unfold update_inout_ports. intros inputs args ports s s' H.
    destruct (zip_strict inputs args) as [zs|] eqn:E; [|discriminate].
    apply zip_strict_some in E. destruct E as [<- <-].
    rewrite update_inout_spec in H. cbv zeta in H.
    destruct (Nat.leb_spec (length (filter (is_inout T) (map fst zs))) (length ports)) as [Le|]; [|discriminate].
    destruct (skipn _ ports) eqn:K; [|discriminate]. injection H as <-.
    apply (f_equal (@length W)) in K. rewrite skipn_length in K. simpl in K.
    rewrite !map_length. repeat split. lia.
  Qed.

  Lemma update_inout_total : forall inputs args zs ports s,
    zip_strict inputs args = Some zs ->
    length (filter (is_inout T) inputs) <= length ports ->
    exists s' rest, update_inout T P W St assign zs ports s = Some (s', rest)
                    /\ length rest = length ports - length (filter (is_inout T) inputs).
  Proof.
    intros inputs args zs ports s Hz Hl. apply zip_strict_some in Hz. destruct Hz as [<- _].
    rewrite update_inout_spec. cbv zeta. apply Nat.leb_le in Hl. rewrite Hl.
    eexists _, _. split; [reflexivity | apply skipn_length].
  Qed.
End UpdSpec.

Section RoundTrip.
  Variables T P W St N : Type.
  Variable assign : P -> W -> St -> St.
  Variable type_to_row : T -> list T.
  Variable final : N -> W.          (* the wire the callee holds for a variable at its exit *)

  (* index-only description of the round trip, the counterpart of wb_step with the port looked
     up by name: the place passed at position i receives the wire the callee holds at its exit
     for the parameter name at position i *)
  Definition rt_step (inputs : list (FuncInput T)) (args : list (arg P)) (names : list N) (s : St) (i : nat) : St :=
    match nth_error inputs i, nth_error args i, nth_error names i with
    | Some inp, Some (APlace p), Some x => if is_inout T inp then assign p (final x) s else s
    | _, _, _ => s
    end.

  Lemma inout_names_nth : forall (inputs : list (FuncInput T)) (names inames : list N) i inp x,
    inout_names T N inputs names = Some inames ->
    nth_error inputs i = Some inp -> nth_error names i = Some x -> is_inout T inp = true ->
    nth_error inames (inout_rank T inputs i) = Some x.
  Proof.
    unfold inout_names. intros inputs names inames i inp x H Hi Hx Hf.
    destruct (zip_strict inputs names) as [z|] eqn:E; [|discriminate]. injection H as <-.
    apply zip_strict_some in E. destruct E as [<- <-].
    rewrite nth_error_map. unfold inout_rank.
    rewrite (nth_error_filter_rank_map fst (is_inout T) _ z i (inp, x));
      [reflexivity | intros []; reflexivity | exact (nth_error_unzip z i inp x Hi Hx) | exact Hf].
  Qed.

  Theorem roundtrip : forall inputs output args names inames (rv : list N) reg io s s',
    length names = length inputs ->
    length rv = n_return_vars T type_to_row output ->
    inout_names T N inputs names = Some inames ->
    split_global_call T W type_to_row output (map final (exit_row N rv inames)) = (reg, io) ->
    update_inout_ports T P W St assign inputs args io s = Some s' ->
    reg = map final rv /\
    s' = fold_left (rt_step inputs args names) (seq 0 (length inputs)) s.
  Proof.
    intros inputs output args names inames rv reg io s s' Ln Lr Hn Hs Hu.
    unfold split_global_call, exit_row, n_return_vars in *.
    rewrite map_app in Hs. rewrite <- Lr in Hs. rewrite <- (map_length final rv) in Hs.
    rewrite firstn_app, Nat.sub_diag, firstn_all in Hs. simpl in Hs. rewrite app_nil_r in Hs.
    rewrite skipn_app, Nat.sub_diag, skipn_all in Hs. simpl in Hs.
    injection Hs as <- <-. split; [reflexivity|].
    apply update_inout_ports_spec in Hu. destruct Hu as [La [Lp ->]].
    apply fold_left_ext. intros s0 i. unfold wb_step, rt_step.
    destruct (nth_error inputs i) as [inp|] eqn:Ei; [|reflexivity].
    destruct (nth_error_same_length inputs names i inp (eq_sym Ln) Ei) as [x Ex]. rewrite Ex.
    destruct (nth_error args i) as [[p|]|]; try reflexivity.
    destruct (is_inout T inp) eqn:Fi; [|reflexivity].
    rewrite nth_error_map, (inout_names_nth inputs names inames i inp x Hn Ei Ex Fi). reflexivity.
  Qed.
End RoundTrip.

(* the loop regenerated from ExprCompiler._update_inout_ports is the hand model *)
Section GenIsModel.
  Variables T P Sub W St : Type.
  Variable assign_leaf : P -> W -> St -> St.
  Variable contains_sub : P -> option Sub.
  Variable set_value_var : Sub -> St -> St.
  Variable visit_setitem : Sub -> St -> St.

  (* what one borrowed place receives: the leaf assignment, then (for a place through a
     subscript) the recorded __setitem__ write-back *)
  Definition assign_of (p : P) (w : W) (s : St) : St :=
    let s := assign_leaf p w s in
    match contains_sub p with
    | Some sub => visit_setitem sub (set_value_var sub s)
    | None => s
    end.

  Lemma upd_loop_is_model : forall zs s ports,
    upd_loop T P Sub W St assign_leaf contains_sub set_value_var visit_setitem zs s ports
    = update_inout T P W St assign_of zs ports s.
  Proof.
    induction zs as [|[inp a] zs IH]; intros s ports; simpl; auto.
    unfold upd_step. destruct (fl_inout (fi_flags inp)).
    - destruct a as [p|]; destruct ports as [|w ports]; auto.
      + rewrite <- IH. unfold assign_of. destruct (contains_sub p); reflexivity.
    - apply IH.
  Qed.

  Lemma gen_update_is_model : forall inputs args ports s,
    gen_update_inout_ports T P Sub W St assign_leaf contains_sub set_value_var visit_setitem inputs args ports s
    = update_inout_ports T P W St assign_of inputs args ports s.
  Proof.
    intros. unfold gen_update_inout_ports, update_inout_ports.
    destruct (zip_strict inputs args); auto. rewrite upd_loop_is_model. reflexivity.
  Qed.
End GenIsModel.
