(* C07 — the store-passing development behind writeback_semantics_partial: the lens laws of
   vget/vput on value trees and the view of a store through pairwise disjoint lent places.  The
   theorem combines two facts: run by reference on the caller's store and run on copied values, the
   callee stays in lock step, the store seen through the lent places being its frame (lockstep);
   the caller's write-back re-establishes the view (writeback_view). *)
From Coq Require Import List Arith Lia.
From V.C07 Require Import ProofsAlign ModelDfc ModelSem.
Import ListNotations.

Lemma nth_error_upd_same : forall {A} (l : list A) i x y,
  nth_error l i = Some y -> nth_error (upd_nth l i x) i = Some x.
Proof.
  induction l as [|z l IH]; intros [|i] x y H; simpl in *; try discriminate; auto. eapply IH; eauto.
Qed.

Lemma nth_error_upd_other : forall {A} (l : list A) i j x,
  i <> j -> nth_error (upd_nth l i x) j = nth_error l j.
Proof.
  induction l as [|z l IH]; intros [|i] [|j] x H; simpl in *; auto; try congruence.
Qed.

Lemma upd_nth_length : forall {A} (l : list A) i x, length (upd_nth l i x) = length l.
Proof. induction l; intros [|i] x; simpl; auto. Qed.

Lemma vget_app : forall a sigma v q, vget sigma a = Some v -> vget sigma (a ++ q) = vget v q.
Proof.
  induction a as [|i a IH]; intros sigma v q H; simpl in *.
  - inversion H; auto.
  - destruct sigma as [|vs]; try discriminate. destruct (nth_error vs i); try discriminate. eauto.
Qed.

Lemma vget_vput_below : forall a sigma v q x,
  vget sigma a = Some v -> vget (vput sigma (a ++ q) x) a = Some (vput v q x).
Proof.
  induction a as [|i a IH]; intros sigma v q x H; simpl in *.
  - inversion H; auto.
  - destruct sigma as [|vs]; try discriminate. destruct (nth_error vs i) as [c|] eqn:E; try discriminate.
    simpl. erewrite nth_error_upd_same by eauto. eauto.
Qed.

Lemma vget_vput_same : forall a sigma v x, vget sigma a = Some v -> vget (vput sigma a x) a = Some x.
Proof. intros a sigma v x H. rewrite <- (app_nil_r a) at 1. exact (vget_vput_below a sigma v [] x H). Qed.

Lemma vget_vput_disjoint : forall a b q sigma x,
  disj a b = true -> vget (vput sigma (a ++ q) x) b = vget sigma b.
Proof.
  induction a as [|i a IH]; intros b q sigma x D; simpl in D; try discriminate.
  destruct b as [|j b]; try discriminate. simpl.
  destruct sigma as [|vs]; auto. destruct (nth_error vs i) as [c|] eqn:E; auto.
  simpl. destruct (Nat.eqb i j) eqn:N.
  - apply Nat.eqb_eq in N. subst j. erewrite nth_error_upd_same by eauto. rewrite E. auto.
  - apply Nat.eqb_neq in N. rewrite nth_error_upd_other by auto. reflexivity.
Qed.

Lemma view_cons : forall sigma r rho v vs,
  view sigma (r :: rho) (v :: vs) <-> vget sigma r = Some v /\ view sigma rho vs.
Proof.
  unfold view. simpl. intros. split.
  - intros [L V]. split; [apply (V 0); reflexivity | split; [lia | intros k; apply (V (S k))]].
  - intros [G [L V]]. split; [lia|]. intros [|k] r' v' Hr Hv; simpl in *; [congruence | eauto].
Qed.

Lemma disjoint_places_cons : forall r rho,
  disjoint_places (r :: rho) -> outside rho r /\ disjoint_places rho.
Proof.
  intros r rho D. split.
  - intros k r' Hk. apply (D (S k) 0); auto.
  - intros i j ri rj N Hi Hj. apply (D (S i) (S j)); auto.
Qed.

(* one in-place update below the k-th lent place, seen through the view: the write that both the
   callee's body (at r ++ q) and the caller's write-back (at r, q = []) are made of *)
Lemma view_step : forall sigma rho vs k r vk q x,
  view sigma rho vs -> disjoint_places rho ->
  nth_error rho k = Some r -> nth_error vs k = Some vk ->
  view (vput sigma (r ++ q) x) rho (upd_nth vs k (vput vk q x))
  /\ (forall b, outside rho b -> vget (vput sigma (r ++ q) x) b = vget sigma b).
Proof.
  intros sigma rho vs k r vk q x [L V] D Hr Hv. split.
  - split; [rewrite upd_nth_length; auto|].
    intros j r' v' Hj Hv'. destruct (Nat.eq_dec k j) as [->|N].
    + rewrite Hr in Hj. inversion Hj; subst r'.
      erewrite nth_error_upd_same in Hv' by eauto. inversion Hv'; subst v'.
      apply vget_vput_below. exact (V _ _ _ Hr Hv).
    + rewrite nth_error_upd_other in Hv' by auto.
      rewrite vget_vput_disjoint; [eapply V; eauto | eapply D; eauto].
  - intros b O. apply vget_vput_disjoint. eapply O; eauto.
Qed.

Section Sem.
  Variable prim : nat -> val -> val.

  Lemma lockstep : forall body sigma rho vs outs,
    view sigma rho vs -> disjoint_places rho ->
    vr_exec prim body (VProd vs) = Some (VProd outs) ->
    exists sigma', ref_exec prim rho body sigma = Some sigma'
      /\ view sigma' rho outs
      /\ (forall b, outside rho b -> vget sigma' b = vget sigma b).
  Proof.
    induction body as [|[g p] body IH]; intros sigma rho vs outs V D H; simpl in H.
    - injection H as <-. exists sigma. simpl. auto.
    - destruct p as [|k q]; try discriminate.
      destruct (vget (VProd vs) (k :: q)) as [v|] eqn:G; try discriminate.
      simpl in G, H. destruct (nth_error vs k) as [vk|] eqn:Ek; try discriminate.
      destruct (nth_error_same_length vs rho k vk (eq_sym (proj1 V)) Ek) as [r Er].
      destruct (view_step sigma rho vs k r vk q (prim g v) V D Er Ek) as [V1 F1].
      destruct (IH _ _ _ _ V1 D H) as [sigma' [Hr [V' F']]].
      exists sigma'. split.
      + simpl. rewrite Er. rewrite (vget_app _ _ _ q (proj2 V _ _ _ Er Ek)), G. exact Hr.
      + split; auto. intros b O. rewrite F' by auto. apply F1; auto.
  Qed.

  Lemma writeback_view : forall rho sigma vs outs,
    view sigma rho vs -> disjoint_places rho -> length rho = length outs ->
    view (writeback sigma rho outs) rho outs
    /\ (forall b, outside rho b -> vget (writeback sigma rho outs) b = vget sigma b).
  Proof.
    induction rho as [|r rho IH]; intros sigma vs outs V D L.
    - destruct outs; [|discriminate]. split; [split; [reflexivity | intros [|k]; discriminate] | auto].
    - destruct outs as [|o outs]; [discriminate|]. destruct vs as [|v vs]; [destruct V; discriminate|].
      destruct (view_step sigma (r :: rho) (v :: vs) 0 r v [] o V D eq_refl eq_refl) as [V0 F0].
      rewrite app_nil_r in V0, F0. apply view_cons in V0. destruct V0 as [G V0].
      apply disjoint_places_cons in D. destruct D as [O D].
      destruct (IH (vput sigma r o) vs outs V0 D ltac:(simpl in L; lia)) as [V1 F1].
      simpl. split.
      + apply view_cons. split; [rewrite F1 by exact O; exact G | exact V1].
      + intros b Ob. rewrite F1; [exact (F0 b Ob) | intros k r' Hk; exact (Ob (S k) r' Hk)].
  Qed.

  (* the compiled call's first step reads the frame the view describes *)
  Lemma read_view : forall sigma rho vs, view sigma rho vs ->
    (fix rd (rho : list path) : option (list val) :=
       match rho with
       | [] => Some []
       | r :: rho' => match vget sigma r, rd rho' with
                      | Some v, Some vs => Some (v :: vs)
                      | _, _ => None
                      end
       end) rho = Some vs.
  Proof.
    induction rho as [|r rho IH]; intros [|v vs] V; try (destruct V; discriminate); [reflexivity|].
    apply view_cons in V. destruct V as [G V]. rewrite G, (IH vs V). reflexivity.
  Qed.
End Sem.
