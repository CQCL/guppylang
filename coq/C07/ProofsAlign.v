(* C07 — positions of flagged elements in filtered lists, read directly or through one component
   of a zipped list: what the alignment theorems about GenFuncTy.v and ModelCall.v rest on. *)
From Coq Require Import List Lia.
From V.C07 Require Import ModelBase GenFuncTy.

Lemma zip_strict_some : forall {A B} (a : list A) (b : list B) l,
  zip_strict a b = Some l -> map fst l = a /\ map snd l = b.
Proof.
  induction a as [|x a IH]; destruct b as [|y b]; simpl; intros l H; try discriminate.
  - injection H as <-. auto.
  - destruct (zip_strict a b) as [l'|] eqn:E; [|discriminate]. injection H as <-.
    destruct (IH _ _ E) as [<- <-]. auto.
Qed.

Lemma zip_strict_len : forall {A B} (a : list A) (b : list B),
  length a = length b -> zip_strict a b = Some (combine a b).
Proof.
  induction a as [|x a IH]; destruct b as [|y b]; simpl; intros H; try discriminate; auto.
  rewrite IH by lia. reflexivity.
Qed.

Lemma nth_error_unzip : forall {A B} (z : list (A * B)) i a b,
  nth_error (map fst z) i = Some a -> nth_error (map snd z) i = Some b -> nth_error z i = Some (a, b).
Proof.
  intros A B z i a b. rewrite !nth_error_map.
  destruct (nth_error z i) as [[a' b']|]; simpl; [|discriminate]. intros [= ->] [= ->]. reflexivity.
Qed.

Lemma nth_error_same_length : forall {A B} (l : list A) (l' : list B) k x,
  length l = length l' -> nth_error l k = Some x -> exists y, nth_error l' k = Some y.
Proof.
  intros A B l l' k x L H. destruct (nth_error l' k) eqn:E; [eauto|].
  apply nth_error_None in E. assert (k < length l) by (apply nth_error_Some; congruence). lia.
Qed.

Lemma nth_error_app_plus : forall {A} (l l' : list A) n k,
  length l = n -> nth_error (l ++ l') (n + k) = nth_error l' k.
Proof. intros A l l' n k <-. rewrite nth_error_app2 by lia. f_equal. lia. Qed.

Lemma fold_left_ext : forall {X Y} (f g : X -> Y -> X) l s,
  (forall s y, f s y = g s y) -> fold_left f l s = fold_left g l s.
Proof. induction l; simpl; intros; auto. rewrite H. apply IHl. exact H. Qed.

Lemma fold_seq_shift : forall {X} (f : X -> nat -> X) n s,
  fold_left f (seq 1 n) s = fold_left (fun s i => f s (S i)) (seq 0 n) s.
Proof.
  intros. rewrite <- seq_shift. generalize (seq 0 n). intro l. revert s.
  induction l; simpl; auto.
Qed.

Lemma nth_error_tl : forall {X} (l : list X) k, nth_error (tl l) k = nth_error l (S k).
Proof. destruct l; [destruct k|]; reflexivity. Qed.

Lemma nth_error_filter_rank : forall {X} (f : X -> bool) (l : list X) i x,
  nth_error l i = Some x -> f x = true ->
  nth_error (filter f l) (length (filter f (firstn i l))) = Some x.
Proof.
  induction l as [|y l IH]; intros i x Hn Hf.
  - destruct i; discriminate.
  - destruct i as [|i]; simpl in *.
    + inversion Hn; subst. rewrite Hf. reflexivity.
    + destruct (f y); simpl; eauto.
Qed.

Lemma filter_map_length : forall {Z X} (g : Z -> X) (f : X -> bool) (p : Z -> bool),
  (forall z, p z = f (g z)) -> forall l, length (filter p l) = length (filter f (map g l)).
Proof.
  intros Z X g f p E. induction l as [|z l IH]; simpl; [reflexivity|].
  rewrite E. destruct (f (g z)); simpl; rewrite IH; reflexivity.
Qed.

Lemma nth_error_filter_rank_map : forall {Z X} (g : Z -> X) (f : X -> bool) (p : Z -> bool) l i z,
  (forall z, p z = f (g z)) -> nth_error l i = Some z -> p z = true ->
  nth_error (filter p l) (length (filter f (firstn i (map g l)))) = Some z.
Proof.
  intros. rewrite firstn_map, <- (filter_map_length g f p) by assumption.
  apply nth_error_filter_rank; assumption.
Qed.

Section Align.
  Variables T H : Type.
  Variable to_hugr : T -> H.
  Variable type_to_row : T -> list T.

  Lemma regular_outputs_first : forall inputs output j t,
    nth_error (type_to_row output) j = Some t ->
    nth_error (fty_outs T H to_hugr type_to_row inputs output) j = Some (to_hugr t).
  Proof.
    intros. unfold fty_outs. rewrite nth_error_app1.
    - rewrite nth_error_map, H0. reflexivity.
    - rewrite map_length. apply nth_error_Some. congruence.
  Qed.
End Align.
