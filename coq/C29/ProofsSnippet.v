(** C29 — render_snippet: the rows it produces for a span inside the source ([snippet_rows]). *)
From Coq Require Import String Ascii ZArith Bool List Lia ZifyBool.
From V.Lib Require Import Outcome.
From V.C29 Require Import Render Spec.
Import ListNotations.
Open Scope Z_scope.

Lemma py_slice_range : forall {A} (l : list A) a b,
  0 <= a <= b -> b <= Z.of_nat (length l) ->
  py_slice l a b = firstn (Z.to_nat (b - a)) (skipn (Z.to_nat a) l).
Proof.
  intros A l a b H1 H2. unfold py_slice, clampi.
  replace (a <? 0) with false by lia. replace (b <? 0) with false by lia.
  rewrite (Z.min_l a), (Z.min_l b) by lia. reflexivity.
Qed.

(** [l[a:]] drops [a] elements, however large [a] is *)
Lemma py_from_nonneg : forall {A} (l : list A) a, 0 <= a -> py_from l a = skipn (Z.to_nat a) l.
Proof.
  intros A l a H. unfold py_from, py_slice, clampi.
  replace (a <? 0) with false by lia. replace (Z.of_nat (length l) <? 0) with false by lia.
  rewrite Z.min_id. destruct (Z.min_spec a (Z.of_nat (length l))) as [(L & ->)|(L & ->)].
  - apply firstn_all2. rewrite skipn_length. lia.
  - rewrite Z.sub_diag, (skipn_all2 (n := Z.to_nat a)) by lia. reflexivity.
Qed.

Lemma py_upto_range : forall {A} (l : list A) b,
  0 <= b <= Z.of_nat (length l) -> py_upto l b = firstn (Z.to_nat b) l.
Proof.
  intros A l b H. unfold py_upto. rewrite py_slice_range by lia. rewrite Z.sub_0_r. reflexivity.
Qed.

Lemma py_upto_app : forall {A} (a b : list A) n, n = Z.of_nat (length a) -> py_upto (a ++ b) n = a.
Proof.
  intros A a b n ->. rewrite py_upto_range by (rewrite app_length; lia).
  rewrite Nat2Z.id, firstn_app, Nat.sub_diag, firstn_all. apply app_nil_r.
Qed.

Lemma py_from_app : forall {A} (a b : list A) n, n = Z.of_nat (length a) -> py_from (a ++ b) n = b.
Proof.
  intros A a b n ->. rewrite py_from_nonneg by lia.
  rewrite Nat2Z.id, skipn_app, Nat.sub_diag, skipn_all. reflexivity.
Qed.

Lemma skipn_cons_nth : forall {A} (l : list A) d a, (a < length l)%nat ->
  skipn a l = nth a l d :: skipn (S a) l.
Proof.
  induction l as [|x l IH]; intros d a H; simpl in H; [lia|].
  destruct a as [|a]; [reflexivity|]. simpl. apply IH. lia.
Qed.

Lemma firstn_skipn_nth : forall {A} (l : list A) d n a, (a + n <= length l)%nat ->
  firstn n (skipn a l) = map (fun i => nth (a + i) l d) (seq 0 n).
Proof.
  induction n as [|n IH]; intros a H; [reflexivity|].
  rewrite (skipn_cons_nth l d a) by lia. cbn [firstn seq map]. rewrite Nat.add_0_r. f_equal.
  rewrite IH by lia. rewrite <- seq_shift, map_map. apply map_ext. intros i. f_equal. lia.
Qed.

Lemma zseq_length : forall lo n, length (zseq lo n) = n.
Proof. intros. unfold zseq. rewrite map_length. apply seq_length. Qed.

Lemma zseq_S : forall lo n, zseq lo (S n) = lo :: zseq (lo + 1) n.
Proof.
  intros. unfold zseq. cbn [seq map]. f_equal; [lia|].
  rewrite <- seq_shift, map_map. apply map_ext. intros. lia.
Qed.

Lemma zseq_snoc : forall lo n, zseq lo (S n) = zseq lo n ++ [lo + Z.of_nat n].
Proof. intros. unfold zseq. rewrite seq_S, map_app. reflexivity. Qed.

Lemma zseq_app : forall lo a b, zseq lo (a + b) = zseq lo a ++ zseq (lo + Z.of_nat a) b.
Proof.
  intros lo a. revert lo. induction a as [|a IH]; intros lo b.
  - simpl. f_equal. lia.
  - change (S a + b)%nat with (S (a + b)). rewrite !zseq_S, IH. simpl. do 3 f_equal. lia.
Qed.

Lemma zseq_In : forall lo n x, In x (zseq lo n) <-> lo <= x < lo + Z.of_nat n.
Proof.
  intros. unfold zseq. rewrite in_map_iff. split.
  - intros (i & <- & H). apply in_seq in H. lia.
  - intros H. exists (Z.to_nat (x - lo)). split; [lia|]. apply in_seq. lia.
Qed.

Lemma slice_lines : forall src lo hi,
  1 <= lo -> lo <= hi + 1 -> hi <= Z.of_nat (length src) ->
  py_slice src (lo - 1) hi = map (line_at src) (zseq lo (Z.to_nat (hi - lo + 1))).
Proof.
  intros src lo hi H1 H2 H3. rewrite py_slice_range by lia.
  replace (hi - (lo - 1)) with (hi - lo + 1) by lia.
  rewrite (firstn_skipn_nth src []) by lia. unfold zseq. rewrite map_map.
  apply map_ext. intros i. unfold line_at. f_equal. lia.
Qed.

Lemma number_from_zseq : forall (f : Z -> str) n lo,
  number_from lo (map f (zseq lo n)) = map (fun k => (Some k, f k)) (zseq lo n).
Proof.
  induction n as [|n IH]; intros lo; [reflexivity|].
  rewrite zseq_S. cbn [map number_from]. f_equal. apply IH.
Qed.

Lemma lstrip_indent : forall l, indent_of l (lstrip_len l).
Proof.
  induction l as [|c l (A & B & C)]; simpl.
  - split; [apply Nat.le_refl|]. split; [intros k H; inversion H | left; reflexivity].
  - destruct (is_ws c) eqn:E.
    + split; [apply le_n_S, A|]. split.
      * intros [|k] H; [exact E | apply B, Nat.succ_lt_mono, H].
      * destruct C as [C|C]; [left; exact (f_equal S C) | right; exact C].
    + split; [apply Nat.le_0_l|]. split; [intros k H; inversion H | right; exact E].
Qed.

Lemma indent_le : forall l a b, indent_of l a -> indent_of l b -> (a <= b)%nat.
Proof.
  intros l a b (A1 & A2 & _) (_ & _ & B3). apply Nat.le_ngt. intros H. destruct B3 as [B3|B3].
  - subst b. exact (proj1 (Nat.lt_nge _ _) H A1).
  - rewrite (A2 b H) in B3. discriminate.
Qed.

Lemma fold_min_spec : forall ns n0, let m := fold_left Nat.min ns n0 in
  In m (n0 :: ns) /\ forall x, In x (n0 :: ns) -> (m <= x)%nat.
Proof.
  induction ns as [|a ns IH]; intros n0; cbn [fold_left].
  - split; [left; reflexivity | intros x [<-|[]]; apply Nat.le_refl].
  - destruct (IH (Nat.min n0 a)) as (A & B). split.
    + destruct A as [A|A]; [rewrite <- A | right; right; exact A].
      destruct (Nat.min_spec n0 a) as [[_ E]|[_ E]]; rewrite E; [left | right; left]; reflexivity.
    + intros x [<-|[<-|H]]; [| |apply B; right; exact H]; pose proof (B _ (or_introl eq_refl)); lia.
Qed.

Lemma min_leading_common : forall src lo hi, lo <= hi ->
  exists c, min_leading (map (line_at src) (zseq lo (Z.to_nat (hi - lo + 1)))) = Ok (Z.of_nat c) /\
            common_indent src lo hi c.
Proof.
  intros src lo hi H. unfold min_leading. rewrite map_map.
  set (g := fun n => lstrip_len (line_at src n)).
  destruct (Z.to_nat (hi - lo + 1)) as [|cnt] eqn:E; [lia|].
  rewrite zseq_S. cbn [map]. eexists. split; [reflexivity|].
  destruct (fold_min_spec (map g (zseq (lo + 1) cnt)) (g lo)) as (A & B).
  change (g lo :: map g (zseq (lo + 1) cnt)) with (map g (lo :: zseq (lo + 1) cnt)) in A, B.
  rewrite <- zseq_S in A, B. split.
  - intros n k Hn Hk. apply Nat.le_trans with (g n); [|exact (indent_le _ _ _ (lstrip_indent _) Hk)].
    apply B, in_map, zseq_In. lia.
  - apply in_map_iff in A as (n & En & Hn). apply zseq_In in Hn.
    exists n. split; [lia|]. rewrite <- En. apply lstrip_indent.
Qed.

Lemma common_indent_unique : forall src lo hi c c',
  common_indent src lo hi c -> common_indent src lo hi c' -> c = c'.
Proof.
  intros src lo hi c c' (A & n & Hn & I) (A' & n' & Hn' & I').
  apply Nat.le_antisymm; [exact (A n' c' Hn' I') | exact (A' n c Hn I)].
Qed.

Lemma min_leading_ok : forall src lo hi c, common_indent src lo hi c ->
  min_leading (map (line_at src) (zseq lo (Z.to_nat (hi - lo + 1)))) = Ok (Z.of_nat c).
Proof.
  intros src lo hi c CI. destruct (min_leading_common src lo hi) as (c' & E & CI').
  - destruct CI as (_ & n & Hn & _). lia.
  - rewrite E, (common_indent_unique _ _ _ _ _ CI CI'). reflexivity.
Qed.

Lemma common_indent_ws : forall src lo hi c n k,
  common_indent src lo hi c -> lo <= n <= hi -> (k < c)%nat -> is_ws (nth k (line_at src n) sp) = true.
Proof.
  intros src lo hi c n k (Hmin & _) Hn Hk. pose proof (lstrip_indent (line_at src n)) as I.
  pose proof (Hmin n _ Hn I). destruct I as (_ & I & _). apply I. lia.
Qed.

Lemma removed_bounds : forall src c sp_, in_source src sp_ ->
  0 <= removed c sp_ <= Z.of_nat c /\ removed c sp_ <= l_col (s_start sp_) /\ removed c sp_ <= l_col (s_end sp_)
  /\ (Z.of_nat c <= 12 -> removed c sp_ = 0) /\ (12 < Z.of_nat c -> 4 <= Z.of_nat c - removed c sp_).
Proof.
  intros src c sp_ (_ & _ & _ & H4 & H5 & _). unfold removed. destruct (12 <? Z.of_nat c) eqn:E; lia.
Qed.

(** the span moved [r] columns to the left: what [span_shift_left] returns when no assertion
    fails ([span_shift_left_ok]) *)
Definition shift (sp_ : Span) (r : Z) : Span :=
  mkSpan (mkLoc (l_line (s_start sp_)) (l_col (s_start sp_) - r)) (mkLoc (l_line (s_end sp_)) (l_col (s_end sp_) - r)).

Lemma shift_0 : forall sp_, shift sp_ 0 = sp_.
Proof. intros [[a b] [c d]]. unfold shift. cbn. rewrite !Z.sub_0_r. reflexivity. Qed.

Lemma new_span_line : forall a b, l_line a = l_line b -> l_col a <= l_col b ->
  new_span a b = Ok (mkSpan a b).
Proof. intros a b H1 H2. unfold new_span, loc_le. replace (_ || _) with true by lia. reflexivity. Qed.

Lemma span_shift_left_ok : forall src sp_ r, in_source src sp_ ->
  r <= l_col (s_start sp_) -> r <= l_col (s_end sp_) -> span_shift_left sp_ r = Ok (shift sp_ r).
Proof.
  intros src sp_ r (_ & H2 & _ & _ & _ & H6) R1 R2. unfold span_shift_left, loc_shift_left.
  rewrite (proj2 (Z.leb_le _ _) R1), (proj2 (Z.leb_le _ _) R2). cbn [res_bind].
  unfold new_span, loc_le. cbn [l_line l_col]. replace (_ || _) with true by lia. reflexivity.
Qed.

Lemma trim_ok : forall src lines c sp_, in_source src sp_ ->
  trim lines sp_ (Z.of_nat c) =
  Ok (map (skipn (Z.to_nat (removed c sp_))) lines, shift sp_ (removed c sp_)).
Proof.
  intros src lines c sp_ IS. pose proof (removed_bounds src c sp_ IS) as (R1 & R2 & R3 & _). revert R1 R2 R3.
  unfold trim, removed, MAX_LEADING_WHITESPACE, OPTIMAL_LEADING_WHITESPACE.
  destruct (12 <? Z.of_nat c); intros R1 R2 R3.
  - rewrite (span_shift_left_ok src _ _ IS R2 R3). cbn [res_bind]. f_equal. f_equal.
    apply map_ext. intros l. apply py_from_nonneg, R1.
  - rewrite shift_0. change (skipn (Z.to_nat 0)) with (fun l : str => l). rewrite map_id. reflexivity.
Qed.

Lemma nth_repeat_lt : forall {A} (x d : A) n k, (k < n)%nat -> nth k (repeat x n) d = x.
Proof.
  intros A x d n k H. apply (repeat_spec n), nth_In. rewrite repeat_length. exact H.
Qed.

(** the banner of source columns [lo, hi): [b] displays [hi]; [a] displays [lo], or [lo] is cut
    away and [a] = 0 *)
Lemma marks_highlight : forall hc remove lo hi a b,
  0 <= a <= b -> b + remove = hi -> (a + remove = lo \/ a = 0 /\ lo <= remove) ->
  marks hc remove lo hi (rep sp a ++ rep hc (b - a)).
Proof.
  intros hc remove lo hi a b H <- Hlo. unfold marks, rep. rewrite app_length, !repeat_length.
  split; [lia|]. intros k Hk. destruct (Nat.lt_ge_cases k (Z.to_nat a)) as [L|L].
  - rewrite app_nth1 by (rewrite repeat_length; exact L). rewrite nth_repeat.
    replace (lo <=? Z.of_nat k + remove) with false by lia. reflexivity.
  - rewrite app_nth2 by (rewrite repeat_length; exact L). rewrite repeat_length.
    rewrite nth_repeat_lt by lia.
    replace (lo <=? Z.of_nat k + remove) with true by lia.
    replace (Z.of_nat k + remove <? b + remove) with true by lia. reflexivity.
Qed.

Lemma split_last_app : forall {A} (l : list A) x, split_last (l ++ [x]) = Some (l, x).
Proof. intros. unfold split_last. rewrite rev_app_distr. simpl. rewrite rev_involutive. reflexivity. Qed.

Lemma body_single : forall hc sp_ l, is_multiline sp_ = false -> body hc sp_ [l] = Ok ([], l, sp_).
Proof. intros hc sp_ l H. unfold body. rewrite H. reflexivity. Qed.

Lemma body_multi : forall hc sp_ first middle last,
  is_multiline sp_ = true ->
  l_col (s_start sp_) <= Z.of_nat (length first) -> 0 <= l_col (s_end sp_) ->
  body hc sp_ (first :: middle ++ [last]) =
  Ok ([(Some (l_line (s_start sp_)), first);
       (None, highlight hc (mkSpan (s_start sp_) (mkLoc (l_line (s_start sp_)) (Z.of_nat (length first)))))]
        ++ (match middle with [] => [] | _ => [(None, s "...")] end),
      last, mkSpan (mkLoc (l_line (s_end sp_)) 0) (s_end sp_)).
Proof.
  intros hc sp_ first middle last H H1 H2. unfold body. rewrite H, split_last_app.
  rewrite !new_span_line by (reflexivity || exact H1 || exact H2). reflexivity.
Qed.

(** [body] on the d + 1 spanned lines, given as a function [f] of the line number: single-line
    (d = 0, [body_single]) and multi-line ([body_multi]) in one equation, split by L1 <? L2 *)
Lemma body_lines : forall hc sp_ (f : Z -> str) d,
  let L1 := l_line (s_start sp_) in let L2 := l_line (s_end sp_) in
  L1 + Z.of_nat d = L2 ->
  l_col (s_start sp_) <= Z.of_nat (length (f L1)) -> 0 <= l_col (s_end sp_) ->
  body hc sp_ (map f (zseq L1 (S d))) =
  Ok (if L1 <? L2
      then [(Some L1, f L1); (None, highlight hc (mkSpan (s_start sp_) (mkLoc L1 (Z.of_nat (length (f L1))))))]
             ++ (if L1 + 1 <? L2 then [(None, s "...")] else [])
      else [],
      f L2,
      if L1 <? L2 then mkSpan (mkLoc L2 0) (s_end sp_) else sp_).
Proof.
  intros hc sp_ f d L1 L2 Hd H1 H2. rewrite zseq_S. cbn [map]. destruct d as [|d].
  - rewrite body_single by (unfold is_multiline; lia).
    replace (L1 <? L2) with false by lia. replace L2 with L1 by lia. reflexivity.
  - rewrite zseq_snoc, map_app. cbn [map].
    rewrite body_multi by first [unfold is_multiline; lia | assumption].
    replace (L1 <? L2) with true by lia.
    replace (L1 + 1 + Z.of_nat d) with L2 by lia.
    destruct d as [|d].
    + replace (L1 + 1 <? L2) with false by lia. reflexivity.
    + replace (L1 + 1 <? L2) with true by lia. rewrite zseq_S. reflexivity.
Qed.

(** what follows the last marker banner (of length [mlen]): [tail] continues its row, [rest] are
    the rows after it; both are [wrap] of the label (indented to stand right of the banner), and
    empty when there is no label.  [label_rows_part] splits [label_rows] this way;
    Props.label_words_preserved reads the words of the label off it. *)
Definition label_part (label : option str) (mlen : nat) (tail : str) (rest : list Row) : Prop :=
  match nonempty label with
  | None => tail = [] /\ rest = []
  | Some lbl => exists r, wrap lbl MAX_LABEL_LINE_LEN [sp] (spaces (mlen + 1)) = (tail, r)
                          /\ rest = map (fun l => (None, l)) r
  end.

Lemma label_rows_part : forall label m, exists tail rest,
  label_rows label m = (None, m ++ tail) :: rest /\ label_part label (length m) tail rest.
Proof.
  intros label m. unfold label_rows, label_part. destruct (nonempty label) as [lbl|].
  - destruct (wrap lbl MAX_LABEL_LINE_LEN [sp] (spaces (length m + 1))) as [f r] eqn:E.
    exists f, (map (fun l => (None, l)) r). split; [reflexivity|]. exists r. auto.
  - exists [], []. rewrite app_nil_r. auto.
Qed.

(** lines_shown + markers_exact for any span inside the source; the two theorems of Props.v are
    the instances [multi] = false / true. *)
Lemma snippet_rows : forall src sp_ label (primary : bool) p0 c multi,
  in_source src sp_ -> 0 <= p0 ->
  let L1 := l_line (s_start sp_) in let L2 := l_line (s_end sp_) in let p := Z.min p0 (L1 - 1) in
  common_indent src (L1 - p) L2 c -> multi = (L1 <? L2) ->
  let remove := removed c sp_ in let hc : ascii := if primary then "^"%char else "-"%char in
  exists m1 m2 tail rest,
    render_snippet_rows src sp_ label primary p0 =
      Ok ([(None, [])] ++ map (shown src remove) (zseq (L1 - p) (Z.to_nat p))
            ++ (if multi
                then [shown src remove L1; (None, m1)] ++ (if L1 + 1 <? L2 then [(None, s "...")] else [])
                else [])
            ++ [shown src remove L2; (None, m2 ++ tail)] ++ rest)
    /\ marks hc remove (l_col (s_start sp_)) (Z.of_nat (length (line_at src L1))) m1
    /\ marks hc remove (if multi then 0 else l_col (s_start sp_)) (l_col (s_end sp_)) m2
    /\ label_part label (length m2) tail rest.
Proof.
  intros src sp_ label primary p0 c multi IS Hp0 L1 L2 p CI -> remove hc.
  pose proof IS as (H1 & H2 & H3 & H4 & H5 & H6). fold L1 L2 in H1, H2, H3, H4, H5, H6.
  pose proof (removed_bounds src c sp_ IS) as (R1 & R2 & R3 & _). fold remove in R1, R2, R3.
  unfold render_snippet_rows, span_lines. fold L1 L2 p hc.
  (* the lines taken from the source: k of context, then the d + 1 of the span *)
  assert (Hp : 0 <= p <= L1 - 1) by (unfold p; lia).
  set (k := Z.to_nat p). assert (Ek : Z.of_nat k = p) by (apply Z2Nat.id, Hp).
  destruct (Z_of_nat_complete (L2 - L1)) as (d & Ed); [lia|].
  clearbody p k.
  rewrite slice_lines by lia. rewrite (min_leading_ok _ _ _ c) by exact CI. cbn [res_bind].
  replace (L2 - (L1 - p) + 1) with (Z.of_nat (k + S d)) by lia. rewrite Nat2Z.id.
  rewrite (trim_ok src) by exact IS.
  cbn [res_bind]. fold remove. rewrite map_map.
  set (f := fun n => skipn (Z.to_nat remove) (line_at src n)).
  rewrite zseq_app, map_app. replace (L1 - p + Z.of_nat k) with L1 by lia.
  rewrite py_upto_app, py_from_app by (rewrite map_length, zseq_length; symmetry; exact Ek).
  rewrite number_from_zseq.
  assert (Lf : Z.of_nat (length (f L1)) + remove = Z.of_nat (length (line_at src L1)))
    by (unfold f; rewrite skipn_length; lia).
  rewrite body_lines by (cbn [shift s_start s_end l_line l_col]; fold L1 L2; lia).
  cbn [shift s_start s_end l_line l_col res_bind]. fold L1 L2.
  edestruct label_rows_part as (tail & rest & E & LP). rewrite E. clear E.
  eexists _, _, tail, rest. split; [reflexivity|]. split; [|split; [|exact LP]].
  - apply marks_highlight; cbn [s_start s_end l_col]; lia.
  - destruct (L1 <? L2) eqn:E; apply marks_highlight; cbn [shift s_start s_end l_col]; lia.
Qed.
