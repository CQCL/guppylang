(** C29 — totality of render_snippet and of the loop over the sub-diagnostics ([render_subs])
    for spans inside the source; [sub_ok] / [diag_ok], the precondition of Props.render_total. *)
From Coq Require Import ZArith List Lia.
From V.Lib Require Import Outcome.
From V.C29 Require Import Render Spec ProofsSnippet.
Open Scope Z_scope.

Lemma render_snippet_total : forall src sp_ label mx primary p0,
  in_source src sp_ -> 0 <= p0 -> exists out, render_snippet src sp_ label mx primary p0 = Ok out.
Proof.
  intros src sp_ label mx primary p0 IS Hp. pose proof IS as (H1 & H2 & _).
  destruct (min_leading_common src (l_line (s_start sp_) - Z.min p0 (l_line (s_start sp_) - 1)) (l_line (s_end sp_)))
    as (c & _ & CI); [lia|].
  destruct (snippet_rows src sp_ label primary p0 c _ IS Hp CI eq_refl) as (m1 & m2 & tail & rest & E & _).
  unfold render_snippet. rewrite E. simpl. eauto.
Qed.

Definition sub_ok (src : list str) (c : SubDiag) : Prop :=
  match sd_span c with Some (sp_, _) => in_source src sp_ | None => True end.
Definition diag_ok (src : list str) (d : Diag) : Prop :=
  match d_span d with
  | Some (sp_, _) => in_source src sp_ /\ Forall (sub_ok src) (d_children d)
  | None => True
  end.

Lemma render_subs_total : forall src mx cs, Forall (sub_ok src) cs ->
  exists out, render_subs src mx cs = Ok out.
Proof.
  induction cs as [|c cs IH]; intros H; simpl; [eauto|].
  inversion H as [|? ? Hc Hcs]; subst. destruct (IH Hcs) as (b & ->).
  unfold sub_ok in Hc. destruct (sd_span c) as [[sp_ lbl]|].
  - destruct (render_snippet_total src sp_ lbl mx false 0 Hc ltac:(lia)) as (a & ->). simpl. eauto.
  - simpl. eauto.
Qed.
