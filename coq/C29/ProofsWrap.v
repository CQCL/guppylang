(** C29 — wrap breaks lines only at whitespace where words and whitespace runs fit the width. *)
From Coq Require Import Ascii ZArith Bool List Lia ZifyBool.
From V.C29 Require Import Render Spec.
Import ListNotations.

Definition printable (c : ascii) : bool := let n := code c in ((32 <=? n) && (n <=? 126))%N.

Lemma printable_tab : forall c, printable c = true -> is_tab c = false.
Proof. intros c. unfold printable, is_tab. lia. Qed.

Lemma printable_tw_ws : forall c, printable c = true -> is_tw_ws c = true -> c = sp.
Proof.
  intros c P W. rewrite <- (ascii_N_embedding c). fold (code c).
  replace (code c) with 32%N by (unfold printable, is_tw_ws in *; lia). reflexivity.
Qed.

Lemma nl_ws : forall c, is_nl c = true -> is_ws c = true.
Proof. intros c. unfold is_nl, is_ws. lia. Qed.

Lemma sp_ws : forall c, is_sp c = true -> is_ws c = true.
Proof. intros c. unfold is_sp, is_ws. lia. Qed.

Lemma words_ws_head : forall c t, is_ws c = true -> words (c :: t) = words t.
Proof. intros c t H. simpl. unfold wcons. rewrite H. reflexivity. Qed.

Lemma words_nonws_head : forall c t, is_ws c = false -> exists w ws, words (c :: t) = w :: ws.
Proof.
  intros c t H. simpl. unfold wcons. rewrite H. destruct t as [|d t']; [eauto|].
  destruct (is_ws d); [eauto|]. destruct (words (d :: t')); eauto.
Qed.

Lemma words_app_mid : forall a c b, is_ws c = true -> words (a ++ c :: b) = words a ++ words b.
Proof.
  induction a as [|x a IH]; intros c b H.
  - simpl app. apply words_ws_head. exact H.
  - change ((x :: a) ++ c :: b) with (x :: (a ++ c :: b)).
    cbn [words]. rewrite IH by exact H. unfold wcons. destruct (is_ws x) eqn:Ex; [reflexivity|].
    destruct a as [|d a'].
    + simpl. rewrite H. reflexivity.
    + cbn [app]. destruct (is_ws d) eqn:Ed; [reflexivity|].
      destruct (words_nonws_head d a' Ed) as (w & ws & ->). reflexivity.
Qed.

Lemma words_blank_prefix : forall a b, forallb is_ws a = true -> words (a ++ b) = words b.
Proof.
  induction a as [|x a IH]; intros b H; [reflexivity|]. simpl in H. apply andb_prop in H as (H1 & H2).
  change ((x :: a) ++ b) with (x :: (a ++ b)). rewrite words_ws_head by exact H1. apply IH. exact H2.
Qed.

Lemma words_blank : forall a, forallb is_ws a = true -> words a = [].
Proof. intros a H. rewrite <- (app_nil_r a). rewrite words_blank_prefix by exact H. reflexivity. Qed.

Lemma words_single : forall w, w <> [] -> Forall (fun x => is_ws x = false) w -> words w = [w].
Proof.
  induction w as [|x w IH]; intros Hn H; [congruence|]. inversion H as [|? ? Hx Hw]; subst.
  cbn [words]. unfold wcons. rewrite Hx. destruct w as [|d w']; [reflexivity|].
  rewrite (Forall_inv Hw), IH by (exact Hw || discriminate). reflexivity.
Qed.

(** What [chunks] cuts from a text: non-empty chunks, each of one kind (all spaces, or none at all), the
    kinds alternating; [b] is the kind of the first chunk.
    Sublists are again such lists, so the proof can follow [wrap_chunks] line by line. *)
Fixpoint alt (b : bool) (l : list str) : Prop :=
  match l with
  | [] => True
  | a :: r => a <> [] /\ Forall (fun x => is_sp x = b) a /\ alt (negb b) r
  end.

(** chunk boundaries are word boundaries: of two neighbours one is blank *)
Lemma words_concat_alt : forall l b, alt b l -> words (concat l) = flat_map words l.
Proof.
  induction l as [|a r IH]; intros b H; [reflexivity|]. destruct H as (_ & F & Ar).
  cbn [concat flat_map]. rewrite <- (IH _ Ar). destruct b.
  - assert (B : forallb is_ws a = true).
    { apply forallb_forall. intros x Hx. apply sp_ws, (proj1 (Forall_forall _ _) F x Hx). }
    rewrite words_blank_prefix, (words_blank a) by exact B. reflexivity.
  - destruct r as [|[|d ch] r'].
    + cbn [concat]. rewrite !app_nil_r. reflexivity.
    + destruct Ar as (Hd & _). congruence.
    + pose proof (sp_ws d (Forall_inv (proj1 (proj2 Ar)))) as Hd.
      change (concat ((d :: ch) :: r')) with (d :: (ch ++ concat r')).
      rewrite words_app_mid, (words_ws_head d) by exact Hd. reflexivity.
Qed.

Lemma alt_app : forall x y b, alt b (x ++ y) -> alt b x /\ exists b', alt b' y.
Proof.
  induction x as [|a x IH]; intros y b H; [split; [exact I | exists b; exact H]|].
  destruct H as (Hn & F & A). destruct (IH y _ A) as (Ax & Ay). split; [exact (conj Hn (conj F Ax)) | exact Ay].
Qed.

Lemma fill_app : forall width n chs cur rest, fill width n chs = (cur, rest) -> chs = cur ++ rest.
Proof.
  intros width n chs. revert n. induction chs as [|c r IH]; intros n cur rest H; simpl in H.
  - inversion H. reflexivity.
  - destruct (n + length c <=? width)%nat.
    + destruct (fill width (n + length c) r) as [a b] eqn:E. inversion H; subst. simpl. f_equal. eapply IH. exact E.
    + inversion H. reflexivity.
Qed.

Lemma fill_progress : forall width c r cur rest, c <> [] -> (length c <= width)%nat ->
  fill width 0 (c :: r) = (cur, rest) -> (length (concat rest) < length (concat (c :: r)))%nat.
Proof.
  intros width c r cur rest Hn Hc H. simpl in H. rewrite (proj2 (Nat.leb_le _ _) Hc) in H.
  destruct (fill width (length c) r) as [a b] eqn:E. inversion H; subst.
  rewrite (fill_app _ _ _ _ _ E). simpl. rewrite concat_app, !app_length.
  destruct c; [congruence | simpl; lia].
Qed.

Lemma drop_last_blank_words : forall cur b, alt b cur ->
  alt b (drop_last_blank cur) /\ flat_map words (drop_last_blank cur) = flat_map words cur.
Proof.
  intros cur b A. unfold drop_last_blank. destruct (rev cur) as [|x r] eqn:E; [auto|].
  destruct (blank x) eqn:B; [|auto].
  assert (Ec : cur = rev r ++ [x]) by (rewrite <- (rev_involutive cur), E; reflexivity).
  rewrite Ec in A |- *. split; [exact (proj1 (alt_app _ _ _ A))|].
  rewrite flat_map_app. cbn [flat_map]. rewrite (words_blank x B), !app_nil_r. reflexivity.
Qed.

(** the shape of [wrap_chunks]'s test for a chunk longer than the width: where every chunk
    fits, the cutting branch [y] ([_handle_long_word]) is not taken *)
Lemma no_cut : forall {T} width (rest : list str) (x : T) (y : str -> list str -> T),
  Forall (fun ch => (length ch <= width)%nat) rest ->
  match rest with c :: r => if (width <? length c)%nat then y c r else x | [] => x end = x.
Proof.
  intros T width rest x y F. destruct F as [|c r Hc _]; [reflexivity|].
  rewrite (proj2 (Nat.ltb_ge _ _) Hc). reflexivity.
Qed.

Lemma wrap_chunks_nil : forall f w first, wrap_chunks f w first [] = [].
Proof. destruct f; reflexivity. Qed.

(** the lines [wrap_chunks] emits carry exactly the words of the chunks, in order, when no chunk
    exceeds the width and the fuel covers the text: one line per round ([fill], the dropped
    blank chunks hold no word), the rest by induction *)
Lemma wrap_chunks_words : forall fuel width first chs b,
  alt b chs -> Forall (fun ch => (length ch <= width)%nat) chs -> (length (concat chs) < fuel)%nat ->
  flat_map words (wrap_chunks fuel width first chs) = flat_map words chs.
Proof.
  induction fuel as [|f IH]; intros width first chs b A F L; [lia|].
  destruct chs as [|c0 r0]; [reflexivity|]. cbn [wrap_chunks].
  (* a blank chunk skipped at the start of a line holds no word *)
  set (chs1 := if negb first && blank c0 then r0 else c0 :: r0).
  assert (H1 : flat_map words (c0 :: r0) = flat_map words chs1 /\ (exists b1, alt b1 chs1)
               /\ Forall (fun ch => (length ch <= width)%nat) chs1
               /\ (length (concat chs1) <= length (concat (c0 :: r0)))%nat).
  { unfold chs1. destruct (negb first && blank c0) eqn:E; [|eauto].
    apply andb_prop in E as (_ & B). inversion F. cbn [concat flat_map]. rewrite app_length, (words_blank c0 B).
    repeat split; [exists (negb b); apply A | assumption | lia]. }
  destruct H1 as (-> & (b1 & A1) & F1 & L1). clearbody chs1.
  destruct chs1 as [|c1 r1]; [cbn; rewrite wrap_chunks_nil; reflexivity|].
  destruct (fill width 0 (c1 :: r1)) as [cur rest] eqn:EF. pose proof (fill_app _ _ _ _ _ EF) as Eapp.
  assert (Lrest : (length (concat rest) < f)%nat).
  { apply (Nat.lt_le_trans _ _ _ (fill_progress _ _ _ _ _ (proj1 A1) (Forall_inv F1) EF)).
    apply (Nat.le_trans _ _ _ L1), Nat.lt_succ_r, L. }
  rewrite Eapp in A1, F1 |- *. clear EF Eapp L1.
  apply alt_app in A1 as (Acur & b2 & Arest). apply Forall_app in F1 as (_ & Frest).
  cbv zeta. rewrite no_cut by exact Frest.
  rewrite flat_map_app. destruct (drop_last_blank_words cur _ Acur) as (A3 & <-).
  destruct (drop_last_blank cur) as [|x xs].
  - eapply IH; eassumption.
  - cbn [flat_map]. rewrite (IH width false rest _ Arest Frest Lrest), (words_concat_alt _ _ A3). reflexivity.
Qed.

Lemma chunks_spec : forall t, concat (chunks t) = t /\ exists b, alt b (chunks t).
Proof.
  induction t as [|c t (E & b & A)]; [split; [reflexivity | exists true; exact I]|].
  cbn [chunks]. destruct (chunks t) as [|[|d ch] rest].
  - simpl in E. subst t. split; [reflexivity|].
    exists (is_sp c). split; [discriminate|]. split; [repeat constructor | exact I].
  - destruct A as (Hn & _). congruence.
  - split; [destruct (Bool.eqb (is_sp c) (is_sp d)); simpl in *; rewrite <- E; reflexivity|].
    destruct A as (Hn & Fd & Ar). rewrite (Forall_inv Fd). destruct (Bool.eqb (is_sp c) b) eqn:Eq.
    + apply eqb_prop in Eq. exists b. split; [discriminate|]. split; [constructor; assumption | exact Ar].
    + apply eqb_false_iff in Eq. exists (negb b). split; [discriminate|]. split.
      * repeat constructor. destruct (is_sp c), b; simpl; congruence.
      * rewrite negb_involutive. exact (conj Hn (conj Fd Ar)).
Qed.

Lemma expandtabs_id : forall t col, forallb printable t = true -> expandtabs col t = t.
Proof.
  induction t as [|c t IH]; intros col H; [reflexivity|]. simpl in H. apply andb_prop in H as (Pc & Pt).
  simpl. rewrite (printable_tab c Pc). f_equal. apply IH. exact Pt.
Qed.

Lemma munge_id : forall t, forallb printable t = true -> munge t = t.
Proof.
  intros t H. unfold munge. rewrite expandtabs_id by exact H.
  induction t as [|c t IH]; [reflexivity|]. simpl in H. apply andb_prop in H as (Pc & Pt). simpl.
  rewrite IH by exact Pt.
  destruct (is_tw_ws c) eqn:E; [rewrite (printable_tw_ws c Pc E)|]; reflexivity.
Qed.

Definition para_ok (width : nat) (p : str) : Prop :=
  forallb printable p = true /\ Forall (fun ch => (length ch <= width)%nat) (chunks p).

Definition para_okb (width : nat) (p : str) : bool :=
  forallb printable p && forallb (fun ch => (length ch <=? width)%nat) (chunks p).

Lemma para_okb_ok : forall width ps, forallb (para_okb width) ps = true -> Forall (para_ok width) ps.
Proof.
  intros width ps H. apply Forall_forall. intros p Hp.
  apply (proj1 (forallb_forall _ _) H) in Hp. apply andb_prop in Hp as (P & F).
  split; [exact P|]. apply Forall_forall. intros ch Hch.
  apply Nat.leb_le. exact (proj1 (forallb_forall _ _) F ch Hch).
Qed.

Lemma tw_wrap_words : forall width p, para_ok width p -> flat_map words (tw_wrap width p) = words p.
Proof.
  intros width p (P & F). unfold tw_wrap. rewrite munge_id by exact P.
  destruct (chunks_spec p) as (E & b & A). rewrite (wrap_chunks_words _ _ _ _ b A F) by lia.
  rewrite <- (words_concat_alt _ b A), E. reflexivity.
Qed.

Lemma splitlines_words : forall t cur, flat_map words (splitlines_aux cur t) = words (rev cur ++ t).
Proof.
  induction t as [|c t IH]; intros cur.
  - simpl. rewrite app_nil_r. destruct cur as [|x cur]; [reflexivity|]. simpl. rewrite app_nil_r. reflexivity.
  - cbn [splitlines_aux]. destruct (is_nl c) eqn:E.
    + cbn [flat_map]. rewrite IH. simpl rev. simpl app. rewrite words_app_mid by (apply nl_ws; exact E). reflexivity.
    + rewrite IH. simpl rev. rewrite <- app_assoc. reflexivity.
Qed.

Lemma words_indent : forall ii l, all_spaces ii -> words (ii ++ l) = words l.
Proof.
  intros ii l H. apply words_blank_prefix. apply forallb_forall. intros x Hx.
  apply sp_ws. exact (proj1 (forallb_forall _ _) H x Hx).
Qed.

Lemma all_spaces_spaces : forall n, all_spaces (spaces n).
Proof. induction n; [reflexivity|]. exact IHn. Qed.

Lemma wrap_lines_words : forall text width, Forall (para_ok width) (splitlines text) ->
  flat_map words (wrap_lines text width) = words text.
Proof.
  intros text width HP. transitivity (flat_map words (splitlines text)).
  - unfold wrap_lines. induction HP as [|p ps Hp _ IH]; [reflexivity|].
    simpl. rewrite flat_map_app. f_equal; [|exact IH].
    destruct p; [reflexivity | apply tw_wrap_words; exact Hp].
  - apply splitlines_words.
Qed.
