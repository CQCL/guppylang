(** Proofs — the checker side of C16 over the GENERATED definitions (GenCoerce.v): everything
    follows from one table, [outcome_of]; then, independently, the rounding function that is
    the trusted semantics of the conversion ops. *)
From Coq Require Import ZArith String List Lia ZifyBool.
From V.C04 Require Import Int64 NumBase.
From V.C16 Require Import ModelBase GenCoerce ModelCoerce.
Import ListNotations.
Open Scope string_scope. Open Scope Z_scope.

Lemma widens_dec act exp : {widens act exp} + {~ widens act exp}.
Proof. destruct act, exp; try (left; constructor); right; intros H; inversion H. Qed.

Lemma coerce_never_asserts act exp : try_coerce_to act exp <> CoerceAssert.
Proof. destruct act, exp; vm_compute; discriminate. Qed.

(* the conversion ops of each of the three widenings; None: the pair is not a widening *)
Definition widening_chain (act exp : gty) : option (list hop) :=
  match act, exp with
  | TNat, TInt => Some []
  | TNat, TFloat => Some [HOp "arithmetic.conversions" "convert_u"]
  | TInt, TFloat => Some [HOp "arithmetic.conversions" "convert_s"]
  | _, _ => None
  end.

Lemma widening_chain_widens act exp : widens act exp <-> exists c, widening_chain act exp = Some c.
Proof.
  split.
  - intros []; eexists; reflexivity.
  - destruct act, exp; cbn; intros [c H]; try discriminate; constructor.
Qed.

Lemma gty_eqb_eq a b : gty_eqb a b = true <-> a = b.
Proof. destruct a, b; cbn; split; intros H; try reflexivity; discriminate. Qed.

Lemma unify_eqb act exp : unify_ok act exp = gty_eqb act exp.
Proof. destruct act, exp; vm_compute; reflexivity. Qed.
Lemma unify_is_equality act exp : unify_ok act exp = true <-> act = exp.
Proof. rewrite unify_eqb. apply gty_eqb_eq. Qed.

(* the checker side as one table: equal types pass with no op, a widening passes with its chain
   where coercion is attempted ([coerce]), every other pair is a type error; [cta_spec] and
   [position_outcome_spec] say the generated code computes this table, and Props.v reads its
   theorems off it through [outcome_of_accept] / [outcome_of_widening] / [outcome_of_refl] *)
Definition outcome_of (coerce : bool) (act exp : gty) : outcome :=
  if gty_eqb act exp then Accept []
  else if coerce then match widening_chain act exp with Some c => Accept c | None => Reject end
  else Reject.

Lemma cta_spec act exp : check_type_against act exp = outcome_of true act exp.
Proof. destruct act, exp; vm_compute; reflexivity. Qed.

Lemma position_outcome_spec p act exp : position_outcome p act exp = outcome_of (coercing p) act exp.
Proof.
  unfold position_outcome. destruct (coercing p); [apply cta_spec|].
  unfold outcome_of. rewrite unify_eqb. reflexivity.
Qed.

Lemma outcome_of_accept b act exp c :
  outcome_of b act exp = Accept c -> act = exp /\ c = [] \/ widening_chain act exp = Some c.
Proof.
  unfold outcome_of. destruct (gty_eqb act exp) eqn:E.
  - intros [= <-]. left. split; [apply gty_eqb_eq, E | reflexivity].
  - destruct b; [|discriminate]. destruct (widening_chain act exp); [|discriminate]. intros [= <-]. auto.
Qed.

Lemma outcome_of_refl b t : outcome_of b t t = Accept [].
Proof. unfold outcome_of. rewrite (proj2 (gty_eqb_eq t t) eq_refl). reflexivity. Qed.

Lemma outcome_of_widening b act exp c : outcome_of b act exp = Accept c -> act = exp \/ widens act exp.
Proof.
  intros H. destruct (outcome_of_accept _ _ _ _ H) as [[E _] | W]; [left; exact E | right].
  apply widening_chain_widens. eauto.
Qed.

(* what the differential harness compares with the HUGR *)
Lemma chains :
  check_type_against TNat TInt = Accept [] /\
  check_type_against TNat TFloat = Accept [HOp "arithmetic.conversions" "convert_u"] /\
  check_type_against TInt TFloat = Accept [HOp "arithmetic.conversions" "convert_s"].
Proof. vm_compute. repeat split. Qed.

Lemma round_mult_spec P a : 0 < P ->
  exists k, round_mult P a = k * P /\
            2 * Z.abs (k * P - a) <= P /\ (2 * Z.abs (k * P - a) = P -> Z.even k = true).
Proof.
  intros HP. unfold round_mult.
  pose proof (Z.div_mod a P ltac:(lia)) as E.
  pose proof (Z.mod_pos_bound a P HP) as B.
  set (q := a / P) in *. set (r := a mod P) in *.
  (* the two candidates lie at distance r below and P - r above *)
  assert (Dq : Z.abs (q * P - a) = r) by lia.
  assert (Dq1 : Z.abs ((q + 1) * P - a) = P - r) by lia.
  clearbody q r. clear E.
  destruct (Z.ltb_spec (2 * r) P); [exists q; rewrite Dq; repeat split; lia|].
  destruct (Z.ltb_spec P (2 * r)); [exists (q + 1); rewrite Dq1; repeat split; lia|].
  destruct (Z.even q) eqn:C3; [exists q; rewrite Dq; repeat split; auto; lia|].
  exists (q + 1). rewrite Dq1. repeat split; try lia. intros _. rewrite Z.even_add, C3. reflexivity.
Qed.

Lemma round_unique P a k1 k2 : 0 < P ->
  2 * Z.abs (k1 * P - a) <= P -> (2 * Z.abs (k1 * P - a) = P -> Z.even k1 = true) ->
  2 * Z.abs (k2 * P - a) <= P -> (2 * Z.abs (k2 * P - a) = P -> Z.even k2 = true) ->
  k1 = k2.
Proof.
  intros HP A1 T1 A2 T2. destruct (Z.eq_dec k1 k2) as [E | N]; [exact E | exfalso].
  assert (B1 : - P <= 2 * (k1 * P - a) <= P) by lia.
  assert (B2 : - P <= 2 * (k2 * P - a) <= P) by lia.
  (* distinct multiples of P within P/2 of a are neighbours with a halfway between them: both are
     ties, so both are even *)
  assert (D : -1 <= k1 - k2 <= 1) by (clear - HP B1 B2; nia).
  assert (C : k1 = k2 + 1 \/ k2 = k1 + 1) by (clear - D N; lia).
  assert (E : 2 * Z.abs (k1 * P - a) = P /\ 2 * Z.abs (k2 * P - a) = P) by (clear - HP B1 B2 C; destruct C; subst; lia).
  destruct E as [E1 E2].
  apply T1, Z.even_spec in E1 as [m1 E1]. apply T2, Z.even_spec in E2 as [m2 E2]. clear - C E1 E2. lia.
Qed.

Lemma P53_eq : P53 = 2 ^ 53. Proof. reflexivity. Qed.

Lemma log2_ge_53 a : P53 <= a -> 53 <= Z.log2 a.
Proof. intros H. rewrite P53_eq in H. apply Z.log2_le_pow2; lia. Qed.

Lemma ulp53_binade a : P53 <= a -> 2 ^ 52 * ulp53 a <= a < P53 * ulp53 a.
Proof.
  intros H. pose proof (log2_ge_53 a H) as L.
  unfold ulp53. destruct (a <? P53) eqn:C; [lia |].
  assert (Hp : 0 < a) by (unfold P53 in H; lia).
  pose proof (Z.log2_spec a Hp) as [S1 S2].
  assert (E1 : 2 ^ Z.log2 a = 2 ^ 52 * 2 ^ (Z.log2 a - 52)).
  { rewrite <- Z.pow_add_r by lia. f_equal. lia. }
  assert (E2 : 2 ^ Z.succ (Z.log2 a) = P53 * 2 ^ (Z.log2 a - 52)).
  { rewrite P53_eq, <- Z.pow_add_r by lia. f_equal. lia. }
  lia.
Qed.

Lemma ulp53_pos a : 0 < ulp53 a.
Proof.
  unfold ulp53. destruct (a <? P53) eqn:C; [lia |].
  apply Z.pow_pos_nonneg; [lia |]. pose proof (log2_ge_53 a ltac:(lia)). lia.
Qed.

Lemma ulp53_small a : a < P53 -> ulp53 a = 1.
Proof. intros H. unfold ulp53. destruct (a <? P53) eqn:C; lia. Qed.

Lemma ulp53_above a : a < P53 * ulp53 a.
Proof.
  destruct (Z_lt_le_dec a P53) as [S | L]; [rewrite ulp53_small by exact S; lia | apply ulp53_binade, L].
Qed.

Lemma rne53_nearest_even z :
  let u := ulp53 (Z.abs z) in
  exists m, rne53 z = Z.sgn z * (m * u) /\ 0 <= m <= P53 /\
            2 * Z.abs (m * u - Z.abs z) <= u /\
            (2 * Z.abs (m * u - Z.abs z) = u -> Z.even m = true).
Proof.
  intros u. unfold rne53. fold u.
  pose proof (ulp53_pos (Z.abs z)) as U. pose proof (ulp53_above (Z.abs z)) as B. fold u in U, B.
  destruct (round_mult_spec u (Z.abs z) U) as [k [E [D T]]].
  exists k. rewrite E. split; [reflexivity |]. split; [| split; assumption].
  (* within u/2 of |z|, which lies in [0, 2^53 u) *)
  clear - U B D. nia.
Qed.

Lemma round_mult_1 a : round_mult 1 a = a.
Proof. unfold round_mult. rewrite Z.mod_1_r, Z.div_1_r. simpl. lia. Qed.

Lemma rne53_exact z : Z.abs z <= P53 -> rne53 z = z.
Proof.
  intros H. destruct (Z.eq_dec (Z.abs z) P53) as [E | N].
  - unfold rne53. rewrite E.
    assert (R : round_mult (ulp53 P53) P53 = P53) by (vm_compute; reflexivity).
    rewrite R. lia.
  - unfold rne53. rewrite ulp53_small by lia. rewrite round_mult_1. lia.
Qed.

Lemma ulp53_top a : a < M64 -> P53 * ulp53 a <= M64.
Proof.
  intros H. unfold ulp53. destruct (Z.ltb_spec a P53) as [| L]; [discriminate |].
  pose proof (log2_ge_53 a L).
  assert (Z.log2 a < 64) by (apply Z.log2_lt_pow2; [unfold P53 in L; lia | exact H]).
  rewrite P53_eq, <- Z.pow_add_r by lia. change M64 with (2 ^ 64). apply Z.pow_le_mono_r; lia.
Qed.

(* the result never leaves binary64's finite range on 64-bit operands: m <= 2^53 and 2^53 ulp <= 2^64 *)
Lemma rne53_bound z : Z.abs z < M64 -> Z.abs (rne53 z) <= M64.
Proof.
  intros H. destruct (rne53_nearest_even z) as [m [E [[M0 M1] _]]].
  pose proof (ulp53_top (Z.abs z) H) as T. pose proof (ulp53_pos (Z.abs z)) as U.
  rewrite E, Z.abs_mul. set (u := ulp53 (Z.abs z)) in *.
  assert (Z.abs (Z.sgn z) <= 1) by lia.
  rewrite (Z.abs_eq (m * u)) by (clear - M0 U; nia). clear - M0 M1 U T H0. nia.
Qed.
