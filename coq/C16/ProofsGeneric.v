(** ProofsGeneric — one type variable meeting several expressions (tuple literals against
    tuple[T,..,T], arguments of f(a: T, b: T), generic struct constructors, array literals) and
    several coercions in one block: each expression / each use gets its own check_type_against. *)
From Coq Require Import List.
From V.C04 Require Import NumBase.
From V.C16 Require Import ModelBase GenCoerce ModelCoerce Proofs.
Import ListNotations.

Lemma cta_refl t : check_type_against t t = Accept [].
Proof. rewrite cta_spec. apply outcome_of_refl. Qed.

Lemma cta_only_widening act exp c : check_type_against act exp = Accept c -> act = exp \/ widens act exp.
Proof. rewrite cta_spec. apply outcome_of_widening. Qed.

Lemma check_elems_solved l : forall t s cs,
  check_elems true (Some t) l = inl (Some (s, cs)) ->
  s = Some t /\ Forall2 (fun a c => check_type_against a t = Accept c /\ (a = t \/ widens a t)) l cs.
Proof.
  induction l as [| a r IH]; intros t s cs H.
  - simpl in H. inversion H; subst. split; [reflexivity | constructor].
  - simpl in H. destruct (check_type_against a t) eqn:E; try discriminate.
    destruct (check_elems true (Some t) r) as [[[s' cs'] |] | u] eqn:R; try discriminate.
    inversion H; subst. destruct (IH t s cs' R) as [S F]. split; [exact S |].
    constructor; [split; [exact E | exact (cta_only_widening a t chain E)] | exact F].
Qed.

Lemma generic_sound elts ret t cs :
  generic_outcome true elts ret = GAccept t cs ->
  t = ret /\ Forall2 (fun a c => check_type_against a ret = Accept c /\ (a = ret \/ widens a ret)) elts cs.
Proof.
  unfold generic_outcome. destruct elts as [| a r]; [discriminate |].
  simpl. destruct (check_elems true (Some a) r) as [[[s' cs'] |] | u] eqn:R; try discriminate.
  destruct (check_elems_solved r a s' cs' R) as [-> F].
  destruct (unify_ok a ret) eqn:U; try discriminate. intros [= <- <-].
  apply unify_is_equality in U. subst ret. split; [reflexivity |].
  constructor; [split; [apply cta_refl | left; reflexivity] | exact F].
Qed.

Lemma unsubstituted_loop_narrows :
  generic_outcome false [TInt; TNat] TNat = GAccept TNat [[]; []] /\
  generic_outcome false [TFloat; TNat] TNat = GAccept TNat [[]; []].
Proof. vm_compute. split; reflexivity. Qed.

Fixpoint steps (src : gty) (path : list gty) : list (gty * gty) :=
  match path with [] => [] | e :: r => (src, e) :: steps e r end.

Lemma run_app c1 : forall c2 v,
  run (c1 ++ c2) v = match run c1 v with Some v' => run c2 v' | None => None end.
Proof.
  induction c1 as [| h r IH]; intros c2 v; simpl; [reflexivity |].
  destruct (hop_sem h v); [apply IH | reflexivity].
Qed.
