(** C25 — lemmas.  The model's emission is put in closed form ([compile_with_spec]): the chain of ops is
    the naive lowering [lower], one op per modifier in the order of the list, of the stack's grouped form
    [nf].  Each reading of the chain is an induction over [lower]; the grouped form has the controls and
    exponents of the stack for every order of the three groups ([perm3]), and Props.v puts in the
    generated order. *)
From Coq Require Import ZArith List Permutation.
From V.C25 Require Import Base GenOrder Model Spec.
Import ListNotations.

Lemma gen_push_id : forall k, gen_push k = k.
Proof. destruct k; reflexivity. Qed.

Lemma ghd_S : forall n, gen_has_dagger (S n) = negb (gen_has_dagger n).
Proof.
  intro n. unfold gen_has_dagger.
  rewrite <- !Nat.bit0_eqb, !Nat.bit0_odd, Nat.odd_succ, Nat.negb_odd. reflexivity.
Qed.

Lemma ghd_0 : gen_has_dagger 0 = false.
Proof. reflexivity. Qed.

Lemma call_rev_true : gen_call_ctrl_rev = true.
Proof. reflexivity. Qed.
Lemma unpack_rev_true : gen_unpack_ctrl_rev = true.
Proof. reflexivity. Qed.
Lemma linear_first_true : gen_linear_first = true.
Proof. reflexivity. Qed.
Lemma gen_order_perm3 : perm3 gen_emit_order.
Proof. unfold perm3, gen_emit_order. simpl. tauto. Qed.

Lemma perm3_cases : forall P : list kind -> Prop,
  P [KDagger; KPower; KControl] -> P [KDagger; KControl; KPower] -> P [KPower; KDagger; KControl] ->
  P [KPower; KControl; KDagger] -> P [KControl; KDagger; KPower] -> P [KControl; KPower; KDagger] ->
  forall o, perm3 o -> P o.
Proof. intros P ? ? ? ? ? ? o H. unfold perm3 in H. simpl in H. intuition (subst; assumption). Qed.

Lemma perm3_perm : forall o, perm3 o -> Permutation [KDagger; KPower; KControl] o.
Proof.
  apply perm3_cases.
  - apply Permutation_refl.
  - apply perm_skip, perm_swap.
  - apply perm_swap.
  - apply (Permutation_cons_append [KPower; KControl] KDagger).
  - apply Permutation_sym, (Permutation_cons_append [KDagger; KPower] KControl).
  - apply (Permutation_rev [KDagger; KPower; KControl]).
Qed.

(** One op per modifier, in the order of the list: what the property's literal claim takes the
    compiler to do.  The compiler does it to the grouped form of the stack. *)
Fixpoint lower (l : list modifier) (io oth : list hty) : list op :=
  match l with
  | [] => []
  | MDagger :: r => ODagger io oth :: lower r io oth
  | MPower e :: r => OPower e io oth :: lower r io oth
  | MControl c :: r => OControl (arity c) io oth :: lower r (HArr (arity c) :: io) oth
  end.

Definition carrs (cs : list ctl) : list hty := map (fun c => HArr (arity c)) cs.
(** the in_out list seen after the ops of [l]: every control has put its array in front *)
Definition io_after (l : list modifier) (io : list hty) : list hty := rev (carrs (ctls_src l)) ++ io.

Lemma ctls_src_app : forall a b, ctls_src (a ++ b) = ctls_src a ++ ctls_src b.
Proof. induction a as [|m a IH]; intro b; [reflexivity|]. destruct m; simpl; rewrite IH; reflexivity. Qed.
Lemma exps_src_app : forall a b, exps_src (a ++ b) = exps_src a ++ exps_src b.
Proof. induction a as [|m a IH]; intro b; [reflexivity|]. destruct m; simpl; rewrite IH; reflexivity. Qed.

Lemma io_after_ctl : forall c l io, io_after (MControl c :: l) io = io_after l (HArr (arity c) :: io).
Proof. intros. unfold io_after. simpl. rewrite <- app_assoc. reflexivity. Qed.

Lemma io_after_app : forall a b io, io_after (a ++ b) io = io_after b (io_after a io).
Proof. intros. unfold io_after, carrs. rewrite ctls_src_app, map_app, rev_app_distr, app_assoc. reflexivity. Qed.

Lemma lower_app : forall a b io oth, lower (a ++ b) io oth = lower a io oth ++ lower b (io_after a io) oth.
Proof.
  induction a as [|m a IH]; intros b io oth; [reflexivity|].
  destruct m; simpl; rewrite IH; try reflexivity. rewrite io_after_ctl. reflexivity.
Qed.

Lemma arities_lower : forall l io oth, op_arities (lower l io oth) = map arity (ctls_src l).
Proof. induction l as [|m l IH]; intros; [reflexivity|]. destruct m; simpl; rewrite IH; reflexivity. Qed.
Lemma exps_lower : forall l io oth, op_exps (lower l io oth) = exps_src l.
Proof. induction l as [|m l IH]; intros; [reflexivity|]. destruct m; simpl; rewrite IH; reflexivity. Qed.
Lemma kinds_lower : forall l io oth, map op_kind (lower l io oth) = map kind_of l.
Proof. induction l as [|m l IH]; intros; [reflexivity|]. destruct m; simpl; rewrite IH; reflexivity. Qed.

Lemma lower_typed : forall l io oth,
  chain_typed (lower l io oth) (io ++ oth, io) (io_after l io ++ oth, io_after l io).
Proof.
  induction l as [|m l IH]; intros io oth; [constructor|].
  destruct m as [|c|e]; cbn [lower].
  - exact (CT_cons _ _ _ _ _ (T_dagger io oth) (IH io oth)).
  - rewrite io_after_ctl. exact (CT_cons _ _ _ _ _ (T_control (arity c) io oth) (IH (HArr (arity c) :: io) oth)).
  - exact (CT_cons _ _ _ _ _ (T_power e io oth) (IH io oth)).
Qed.

(** denotation undoes lowering *)
Lemma den_lower : forall l io oth b bound l', den_ops b bound = Some l' ->
  den_ops (lower l io oth ++ b) (ctls_src l ++ bound) = Some (map den_src l ++ l').
Proof.
  induction l as [|m l IH]; intros io oth b bound l' Hb; [exact Hb|].
  destruct m; simpl; rewrite ?N.eqb_refl, (IH _ _ _ _ _ Hb); reflexivity.
Qed.

(** the grouped form of a stack: per group of [order] the dagger that survives, the powers, the
    controls, each in source order *)
Definition gmods (s : list modifier) (k : kind) : list modifier :=
  match k with
  | KDagger => if dpar s then [MDagger] else []
  | KPower => map MPower (exps_src s)
  | KControl => map MControl (ctls_src s)
  end.
Definition nf (order : list kind) (s : list modifier) : list modifier := flat_map (gmods s) order.

Lemma ctls_gmods : forall s k, ctls_src (gmods s k) = match k with KControl => ctls_src s | _ => [] end.
Proof.
  intros s k. destruct k; simpl.
  - destruct (dpar s); reflexivity.
  - induction (exps_src s); simpl; auto.
  - induction (ctls_src s); simpl; congruence.
Qed.
Lemma exps_gmods : forall s k, exps_src (gmods s k) = match k with KPower => exps_src s | _ => [] end.
Proof.
  intros s k. destruct k; simpl.
  - destruct (dpar s); reflexivity.
  - induction (exps_src s); simpl; congruence.
  - induction (ctls_src s); simpl; auto.
Qed.

(** a reading that is a list morphism sees of the grouped form, group by group, what it sees of each *)
Lemma nf_reads : forall (A : Type) (obs : list modifier -> list A),
  (forall a b, obs (a ++ b) = obs a ++ obs b) -> obs [] = [] ->
  forall s order, obs (nf order s) = flat_map (fun k => obs (gmods s k)) order.
Proof.
  intros A obs obs_app obs_nil s order. unfold nf.
  induction order as [|k r IH]; simpl; [exact obs_nil|]. rewrite obs_app, IH. reflexivity.
Qed.

(** ... so it has the stack's controls and exponents, in source order, if each group occurs once *)
Lemma ctls_nf : forall s order, perm3 order -> ctls_src (nf order s) = ctls_src s.
Proof.
  intros s order H. rewrite (nf_reads _ _ ctls_src_app eq_refl), (flat_map_ext _ _ (ctls_gmods s)).
  revert order H. apply perm3_cases; simpl; rewrite ?app_nil_r; reflexivity.
Qed.
Lemma exps_nf : forall s order, perm3 order -> exps_src (nf order s) = exps_src s.
Proof.
  intros s order H. rewrite (nf_reads _ _ exps_src_app eq_refl), (flat_map_ext _ _ (exps_gmods s)).
  revert order H. apply perm3_cases; simpl; rewrite ?app_nil_r; reflexivity.
Qed.

Lemma nf_perm : forall s order, perm3 order -> Permutation (nf [KDagger; KPower; KControl] s) (nf order s).
Proof. intros s order H. exact (Permutation_flat_map (gmods s) (perm3_perm order H)). Qed.

Lemma nf_length : forall s order, perm3 order ->
  length (nf order s) = (if dpar s then 1 else 0) + length (exps_src s) + length (ctls_src s).
Proof.
  intros s order H. rewrite <- (Permutation_length (nf_perm s order H)). unfold nf. simpl.
  rewrite app_nil_r, !app_length, !map_length. destruct (dpar s); reflexivity.
Qed.

Definition isk (k : kind) (m : modifier) : bool := kind_eqb (kind_of m) k.

Lemma fold_push : forall s g,
  fold_left push s g =
  mkG (g_dagger g ++ filter (isk KDagger) s) (g_control g ++ gmods s KControl) (g_power g ++ gmods s KPower).
Proof.
  induction s as [|m s IH]; intro g.
  - simpl. rewrite !app_nil_r. destruct g; reflexivity.
  - simpl. rewrite IH. unfold push. rewrite gen_push_id.
    destruct m; simpl; rewrite <- ?app_assoc; reflexivity.
Qed.

Lemma group_spec : forall s, group s = mkG (filter (isk KDagger) s) (gmods s KControl) (gmods s KPower).
Proof. intro s. unfold group. rewrite fold_push. reflexivity. Qed.

Lemma all_ctl : forall cs, all_some ctl_of (map MControl cs) = Some cs.
Proof. induction cs as [|c cs IH]; simpl; [|rewrite IH]; reflexivity. Qed.

Lemma all_exp : forall es, all_some exp_of (map MPower es) = Some es.
Proof. induction es as [|e es IH]; simpl; [|rewrite IH]; reflexivity. Qed.

Lemma dagger_count : forall s, gen_has_dagger (length (filter (isk KDagger) s)) = dpar s.
Proof.
  induction s as [|m s IH]; [reflexivity|]. destruct m; simpl; try exact IH.
  rewrite ghd_S, IH. reflexivity.
Qed.

(** what [emit_group] yields on [group s], group by group, in the model's own terms ([emit_group_spec]):
    the ops and the in_out list after them; [group_out_lower] then reads it as [lower (gmods s k)] *)
Definition dops (s : list modifier) (io oth : list hty) : list op :=
  if dpar s then [ODagger io oth] else [].
Definition pops (s : list modifier) (io oth : list hty) : list op :=
  map (fun e => OPower e io oth) (exps_src s).
Definition cops (s : list modifier) (io oth : list hty) : list op :=
  fst (emit_controls (ctls_src s) io oth).

Definition group_out (k : kind) (s : list modifier) (io oth : list hty) : list op * list hty :=
  match k with
  | KDagger => (dops s io oth, io)
  | KPower => (pops s io oth, io)
  | KControl => (cops s io oth, rev (carrs (ctls_src s)) ++ io)
  end.

Lemma emit_controls_lower : forall cs io oth,
  emit_controls cs io oth = (lower (map MControl cs) io oth, rev (carrs cs) ++ io).
Proof.
  induction cs as [|c cs IH]; intros io oth; [reflexivity|].
  simpl. rewrite IH, <- app_assoc. reflexivity.
Qed.

Lemma group_out_lower : forall k s io oth,
  group_out k s io oth = (lower (gmods s k) io oth, io_after (gmods s k) io).
Proof.
  intros. unfold io_after. rewrite ctls_gmods. destruct k; simpl.
  - unfold dops. destruct (dpar s); reflexivity.
  - unfold pops. induction (exps_src s) as [|e r IH]; simpl; congruence.
  - unfold cops. rewrite emit_controls_lower. reflexivity.
Qed.

Lemma emit_group_spec : forall k s io oth, emit_group k (group s) io oth = Some (group_out k s io oth).
Proof.
  intros k s io oth. rewrite group_spec. destruct k; simpl.
  - rewrite dagger_count. reflexivity.
  - rewrite all_exp. reflexivity.
  - rewrite all_ctl. unfold cops. rewrite emit_controls_lower. reflexivity.
Qed.

Lemma emit_groups_spec : forall order s io oth,
  emit_groups order (group s) io oth = Some (lower (nf order s) io oth, io_after (nf order s) io).
Proof.
  induction order as [|k r IH]; intros s io oth; [reflexivity|].
  simpl. rewrite emit_group_spec, group_out_lower, IH, lower_app, io_after_app. reflexivity.
Qed.

Definition sorted_caps (caps : list cap) := filter linear caps ++ filter cap_copy caps.
Definition io_of (caps : list cap) := map capty (filter linear (sorted_caps caps)).
Definition oth_of (caps : list cap) := map capty (filter cap_copy (sorted_caps caps)).

Lemma compile_with_spec : forall order s caps,
  compile_with order s caps =
  Some (mkC (sorted_caps caps) (lower (nf order s) (io_of caps) (oth_of caps))
            (rev (map ACtl (ctls_src s)) ++ map ACap (sorted_caps caps))
            (rev (map ACtl (ctls_src s)) ++ map ACap (filter linear (sorted_caps caps)))).
Proof.
  intros. unfold compile_with, sort_caps. rewrite linear_first_true, call_rev_true, unpack_rev_true.
  fold (sorted_caps caps). fold (io_of caps). fold (oth_of caps).
  rewrite emit_groups_spec, group_spec. simpl. rewrite all_ctl. reflexivity.
Qed.

Lemma compile_ops : forall order s caps c, compile_with order s caps = Some c ->
  c_ops c = lower (nf order s) (io_of caps) (oth_of caps).
Proof. intros order s caps c H. rewrite compile_with_spec in H. injection H as <-. reflexivity. Qed.

Lemma filter_of_filter : forall (f g : cap -> bool) (b : bool),
  (forall x, g x = true -> f x = b) -> forall l, filter f (filter g l) = if b then filter g l else [].
Proof.
  intros f g b H l. induction l as [|x l IH]; simpl; [destruct b; reflexivity|].
  destruct (g x) eqn:G; [|exact IH]. simpl. rewrite (H x G), IH. destruct b; reflexivity.
Qed.

Lemma linear_not_copy : forall c, linear c = true -> cap_copy c = false.
Proof. intro c. unfold linear. destruct (cap_copy c); [discriminate | reflexivity]. Qed.
Lemma copy_not_linear : forall c, cap_copy c = true -> linear c = false.
Proof. intros c E. unfold linear. rewrite E. reflexivity. Qed.

Lemma sorted_linear : forall caps, filter linear (sorted_caps caps) = filter linear caps.
Proof.
  intro. unfold sorted_caps.
  rewrite filter_app, (filter_of_filter linear linear true), (filter_of_filter linear cap_copy false copy_not_linear) by auto.
  apply app_nil_r.
Qed.
Lemma sorted_copy : forall caps, filter cap_copy (sorted_caps caps) = filter cap_copy caps.
Proof.
  intro. unfold sorted_caps.
  rewrite filter_app, (filter_of_filter cap_copy linear false linear_not_copy), (filter_of_filter cap_copy cap_copy true) by auto.
  reflexivity.
Qed.

Lemma sorted_perm : forall caps, Permutation caps (sorted_caps caps).
Proof.
  induction caps as [|c l IH]; [constructor|]. unfold sorted_caps in *. simpl. unfold linear at 1.
  destruct (cap_copy c); simpl.
  - apply Permutation_cons_app. exact IH.
  - constructor. exact IH.
Qed.

Lemma io_oth_of : forall caps, io_of caps ++ oth_of caps = map capty (sorted_caps caps).
Proof.
  intro. unfold io_of, oth_of. rewrite sorted_linear, sorted_copy, <- map_app. reflexivity.
Qed.

Lemma map_arg_ty_ctl : forall cs, map arg_ty (rev (map ACtl cs)) = rev (carrs cs).
Proof. intro cs. rewrite <- map_rev, map_map. unfold carrs. rewrite <- map_rev. reflexivity. Qed.

Lemma compile_well_typed : forall order s caps c, perm3 order ->
  compile_with order s caps = Some c -> well_typed c.
Proof.
  intros order s caps c Hp H. rewrite compile_with_spec in H. injection H as <-.
  pose proof (lower_typed (nf order s) (io_of caps) (oth_of caps)) as T.
  unfold io_after in T. rewrite (ctls_nf s order Hp), io_oth_of in T.
  eexists. split; [exact T|]. simpl.
  rewrite !map_app, map_arg_ty_ctl, !map_map, <- app_assoc, io_oth_of. split; reflexivity.
Qed.

Lemma filter_arg_linear_ctl : forall l, filter arg_linear (rev (map ACtl l)) = rev (map ACtl l).
Proof.
  intro l. rewrite <- map_rev. induction (rev l) as [|c r IH]; [reflexivity|]. simpl. rewrite IH. reflexivity.
Qed.
Lemma filter_arg_linear_cap : forall l, filter arg_linear (map ACap l) = map ACap (filter linear l).
Proof.
  induction l as [|c r IH]; [reflexivity|]. simpl. unfold linear at 1. destruct (negb (cap_copy c)); simpl; rewrite IH; reflexivity.
Qed.

Lemma compile_threading : forall order s caps c,
  compile_with order s caps = Some c ->
  c_rets c = filter arg_linear (c_args c) /\
  Permutation (c_args c) (map ACtl (ctls_src s) ++ map ACap caps) /\
  c_fn_inputs c = filter linear caps ++ filter cap_copy caps.
Proof.
  intros order s caps c H. rewrite compile_with_spec in H. injection H as <-. simpl.
  split; [|split].
  - rewrite filter_app, filter_arg_linear_ctl, filter_arg_linear_cap. reflexivity.
  - apply Permutation_app.
    + apply Permutation_sym, Permutation_rev.
    + apply Permutation_map, Permutation_sym, sorted_perm.
  - reflexivity.
Qed.

Lemma me_cons : forall x a b, mequiv a b -> mequiv (x :: a) (x :: b).
Proof.
  intros x a b H. induction H.
  - apply me_refl.
  - apply me_sym; assumption.
  - eapply me_trans; eassumption.
  - rewrite !app_comm_cons. apply me_swap.
  - rewrite !app_comm_cons. apply me_dd.
Qed.

Lemma perm_mequiv : forall a b, Permutation a b -> mequiv a b.
Proof.
  induction 1.
  - apply me_refl.
  - apply me_cons. assumption.
  - apply (me_swap y x [] l).
  - eapply me_trans; eassumption.
Qed.

Lemma sdpar_app : forall a b, sdpar (a ++ b) = xorb (sdpar a) (sdpar b).
Proof.
  induction a as [|x a IH]; intro b; simpl; [destruct (sdpar b); reflexivity|].
  destruct x; rewrite ?IH; try reflexivity. destruct (sdpar a), (sdpar b); reflexivity.
Qed.

Lemma norm_equiv : forall s, mequiv (map den_src s) (map den_src (nf [KDagger; KPower; KControl] s)).
Proof.
  induction s as [|m s IH]; [apply me_refl|].
  simpl map. eapply me_trans; [apply me_cons, IH|].
  unfold nf. simpl flat_map. rewrite !app_nil_r, !map_app.
  destruct m; simpl.
  - destruct (dpar s); simpl.
    + apply (me_dd [] _).
    + apply me_refl.
  - rewrite !app_assoc. apply perm_mequiv, Permutation_middle.
  - apply perm_mequiv, Permutation_middle.
Qed.

Lemma ctl_args_ctl_cap : forall l r, ctl_args (map ACtl l ++ map ACap r) = l.
Proof.
  induction l as [|x l IH]; intro r; simpl; [|rewrite IH; reflexivity].
  induction r; simpl; auto.
Qed.

Lemma ops_semantic_with : forall order s caps c, perm3 order ->
  compile_with order s caps = Some c ->
  exists l, den_compiled c = Some l /\ mequiv (map den_src s) l.
Proof.
  intros order s caps c Hp H. rewrite compile_with_spec in H. injection H as <-.
  unfold den_compiled. simpl. rewrite <- map_rev, ctl_args_ctl_cap, rev_involutive.
  exists (map den_src (nf order s)). split.
  - pose proof (den_lower (nf order s) (io_of caps) (oth_of caps) [] [] [] eq_refl) as D.
    rewrite !app_nil_r, (ctls_nf s order Hp) in D. exact D.
  - exact (me_trans _ _ _ (norm_equiv s) (perm_mequiv _ _ (Permutation_map den_src (nf_perm s order Hp)))).
Qed.

(** [den_lower] for the ops of one group as [group_out] gives them; [sD], [sP], [sC] are the three groups
    of [gmods] on the specification side *)
Definition sD (s : list modifier) : list smod := if dpar s then [SDagger] else [].
Definition sP (s : list modifier) : list smod := map SPower (exps_src s).
Definition sC (s : list modifier) : list smod := map SControl (ctls_src s).

Lemma den_gmods : forall s k,
  map den_src (gmods s k) = match k with KDagger => sD s | KPower => sP s | KControl => sC s end.
Proof.
  intros s k. destruct k; simpl; [unfold sD; destruct (dpar s); reflexivity | apply map_map | apply map_map].
Qed.

Lemma den_group : forall k s io oth b bound l, den_ops b bound = Some l ->
  den_ops (fst (group_out k s io oth) ++ b) (match k with KControl => ctls_src s ++ bound | _ => bound end) =
  Some (match k with KDagger => sD s | KPower => sP s | KControl => sC s end ++ l).
Proof.
  intros k s io oth b bound l H. rewrite group_out_lower. cbn [fst].
  pose proof (den_lower (gmods s k) io oth b bound l H) as D. rewrite ctls_gmods, den_gmods in D.
  destruct k; exact D.
Qed.

Lemma den_app_nc : forall a b bound l,
  (forall o, In o a -> op_kind o <> KControl) ->
  den_ops b bound = Some l ->
  den_ops (a ++ b) bound =
  Some (map (fun o => match o with OPower e _ _ => SPower e | _ => SDagger end) a ++ l).
Proof.
  induction a as [|o a IH]; intros b bound l Hnc Hb; simpl; [exact Hb|].
  assert (Ha : forall o', In o' a -> op_kind o' <> KControl) by (intros; apply Hnc; right; assumption).
  destruct o; simpl.
  - rewrite (IH b bound l Ha Hb). reflexivity.
  - rewrite (IH b bound l Ha Hb). reflexivity.
  - exfalso. apply (Hnc (OControl n io oth)); [left; reflexivity|reflexivity].
Qed.

Lemma kinds_gmods : forall s k,
  map kind_of (gmods s k) =
  match k with KDagger => if dpar s then [KDagger] else [] | _ => filter (kind_eqb k) (map kind_of s) end.
Proof.
  intros s k. destruct k; simpl.
  - destruct (dpar s); reflexivity.
  - induction s as [|m s IH]; [reflexivity|]. destruct m; simpl; rewrite <- ?IH; reflexivity.
  - induction s as [|m s IH]; [reflexivity|]. destruct m; simpl; rewrite <- ?IH; reflexivity.
Qed.

Lemma kinds_nf : forall order s, map kind_of (nf order s) = grouped_kinds order s.
Proof. intros. rewrite (nf_reads _ _ (map_app kind_of) eq_refl). apply flat_map_ext, kinds_gmods. Qed.
