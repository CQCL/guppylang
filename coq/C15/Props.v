(** C15 — Overloaded calls pick the first applicable variant.

    Model: V.C15.Overload ([tc] = the argument-checking fragment of expr_checker.py with the
    in-place mutation of AST nodes made explicit; [overloaded] = the loop of
    OverloadedFunctionDef.synthesize_call / check_call).  [copies_args] is read from
    overloaded.py on every run (GenLoop.v): does the loop give each variant its own copy of
    the argument nodes?  The two positions:
      m = Synth     :  x = ov(args)
      m = Check t   :  x: t = ov(args)
    "variant s accepts" = the stand-alone call [standalone … s es] on the ORIGINAL argument
    nodes does not raise; by [direct_call_is_standalone] that is literally what checking
    the direct call `s(args)` does.  For source (annotation-free) arguments it is moreover
    characterised independently of the checker's code by the reference [sig_accepts] of
    ProofsSpec.v. *)
From Coq Require Import ZArith List Bool.
From V.C15 Require Import Overload GenLoop Proofs ProofsFuel ProofsSpec.
Import ListNotations.

(* the tie to the source: the loop as found in overloaded.py copies the argument nodes *)
Theorem loop_copies_args : copies_args = true.
Proof. reflexivity. Qed.
Print Assumptions loop_copies_args.

Theorem direct_call_is_standalone : forall n E m g s es,
  nth_error (funs E) g = Some (FDecl s) ->
  tc copies_args (S n) E m (ECall g es) =
    (fst (standalone copies_args n E m s es), ECall g (snd (standalone copies_args n E m s es))).
Proof. intros n E m g s es H. rewrite tc_call, H. reflexivity. Qed.
Print Assumptions direct_call_is_standalone.

(* the overloaded call returns exactly the outcome (new node, inserted coercions, annotations, type)
   of the least accepting variant, and leaves the caller's argument nodes as they were *)
Theorem first_match : forall n E m f vs es i s,
  nth_error (funs E) f = Some (FOver vs) ->
  least_accepting_variant copies_args n E m vs es i s ->
  tc copies_args (S n) E m (ECall f es) = (fst (standalone copies_args n E m s es), ECall f es).
Proof.
  intros n E m f vs es i s Hf HL.
  rewrite tc_call, Hf. unfold overloaded.
  rewrite (loop_copy_least _ _ vs es i s HL). reflexivity.
Qed.
Print Assumptions first_match.

(* ... hence it behaves exactly as the direct call to that variant *)
Theorem first_match_as_direct_call : forall n E m f g vs es i s,
  nth_error (funs E) f = Some (FOver vs) ->
  nth_error (funs E) g = Some (FDecl s) ->
  least_accepting_variant copies_args n E m vs es i s ->
  fst (tc copies_args (S n) E m (ECall f es)) = fst (tc copies_args (S n) E m (ECall g es)).
Proof.
  intros n E m f g vs es i s Hf Hg HL.
  rewrite (first_match n E m f vs es i s Hf HL), (direct_call_is_standalone n E m g s es Hg). reflexivity.
Qed.
Print Assumptions first_match_as_direct_call.

Theorem first_match_synthesis : forall n E f g vs es i s,
  nth_error (funs E) f = Some (FOver vs) -> nth_error (funs E) g = Some (FDecl s) ->
  least_accepting_variant copies_args n E Synth vs es i s ->
  fst (tc copies_args (S n) E Synth (ECall f es)) = fst (tc copies_args (S n) E Synth (ECall g es)).
Proof. intros n E. exact (first_match_as_direct_call n E Synth). Qed.
Print Assumptions first_match_synthesis.

Theorem first_match_checking : forall n E t f g vs es i s,
  nth_error (funs E) f = Some (FOver vs) -> nth_error (funs E) g = Some (FDecl s) ->
  least_accepting_variant copies_args n E (Check t) vs es i s ->
  fst (tc copies_args (S n) E (Check t) (ECall f es)) = fst (tc copies_args (S n) E (Check t) (ECall g es)).
Proof. intros n E t. exact (first_match_as_direct_call n E (Check t)). Qed.
Print Assumptions first_match_checking.

(* Three implications instead of one equivalence, because the model has a third outcome (out of
   fuel, excluded by [enough_fuel_no_oof] below): if some variant does not raise, the first such is
   taken; if every variant raises, the call is not accepted; if the call raises, every variant did. *)
Theorem rejected_iff_no_variant_accepts : forall n E m f vs es,
  nth_error (funs E) f = Some (FOver vs) ->
  ((exists s, In s vs /\ fst (standalone copies_args n E m s es) <> Err) ->
     exists i s, least_accepting_variant copies_args n E m vs es i s /\
                 tc copies_args (S n) E m (ECall f es) = (fst (standalone copies_args n E m s es), ECall f es)) /\
  ((forall s, In s vs -> fst (standalone copies_args n E m s es) = Err) ->
     forall r t, fst (tc copies_args (S n) E m (ECall f es)) <> Ok r t) /\
  (fst (tc copies_args (S n) E m (ECall f es)) = Err ->
     forall s, In s vs -> fst (standalone copies_args n E m s es) = Err).
Proof.
  intros n E m f vs es Hf. rewrite tc_call, Hf. unfold overloaded.
  change copies_args with true.
  (* a first variant that does not raise is taken (first three goals), or all raise (last three) *)
  destruct (loop_copy_cases (standalone true n E m) (call_error_at true n E) vs es)
    as [(i & s & HL & ->) | (Hall & ->)]; cbn [fst snd]; repeat split.
  - intros _. exists i, s. split; [exact HL | reflexivity].
  - intros Hall. destruct HL as (Hn & Hok & _). destruct (Hok (Hall s (nth_error_In vs i Hn))).
  - intro H. destruct HL as (_ & Hok & _). destruct (Hok H).
  - intros (s & Hin & Hok). destruct (Hok (Hall s Hin)).
  - intros _ r t H. pose proof (proj1 (call_error_ref true n E es)) as N. rewrite H in N. discriminate.
  - intros _. exact Hall.
Qed.
Print Assumptions rejected_iff_no_variant_accepts.

(* the hypotheses are satisfiable: ov((1, True)) selects b (index 1) *)
Example first_match_instance :
  least_accepting_variant copies_args 9 w1_env Synth [w1_a; w1_b] w1_args 1 w1_b /\
  fst (tc copies_args 10 w1_env Synth (ECall 2%nat w1_args)) = fst (tc copies_args 10 w1_env Synth (ECall 1%nat w1_args)) /\
  exists r, fst (tc copies_args 10 w1_env Synth (ECall 2%nat w1_args)) = Ok r tflt.
Proof.
  split; [|split].
  - split; [reflexivity|]. split; [vm_compute; discriminate|].
    intros j s' Hj Hn. destruct j as [|[|j]]; [|Lia.lia|Lia.lia]. inversion Hn; subst s'. vm_compute. reflexivity.
  - vm_compute. reflexivity.
  - eexists. vm_compute. reflexivity.
Qed.

(* fuel is a model artefact: with copies, fuel >= depth of the expression never runs out *)
Theorem enough_fuel_no_oof : forall n E m e, depth e <= n -> fst (tc copies_args n E m e) <> OOF.
Proof. exact enough_fuel. Qed.
Print Assumptions enough_fuel_no_oof.

(* on source expressions, given enough fuel, [tc] accepts in checking position and synthesizes a type
   exactly as the reference checker of ProofsSpec.v ([checks], [synthesizes]: no rewriting, no fuel) *)
Theorem checker_agrees_with_reference : forall n E e, depth (embed e) <= n ->
  (forall t, is_ok (fst (tc copies_args n E (Check t) (embed e))) = checks E e t) /\
  ok_ty (fst (tc copies_args n E Synth (embed e))) = synthesizes E e.
Proof. exact ref_correct. Qed.
Print Assumptions checker_agrees_with_reference.

(* "variant s accepts" is "the signature of s accepts the arguments" of the reference (and, in checking
   position, returns the expected type): [accepts_sig] *)
Theorem variant_accepts_iff_signature_accepts : forall n E m s es, depth_list (map embed es) <= n ->
  is_ok (fst (standalone copies_args n E m s (map embed es))) = accepts_sig E m s es.
Proof. exact standalone_is_ok. Qed.
Print Assumptions variant_accepts_iff_signature_accepts.

(* the property, end to end and against the reference *)
Theorem first_match_reference : forall n E m f g vs es i s,
  nth_error (funs E) f = Some (FOver vs) -> nth_error (funs E) g = Some (FDecl s) ->
  (depth_list (map embed es) <= n)%nat ->
  nth_error vs i = Some s ->
  accepts_sig E m s es = true ->
  (forall j s', (j < i)%nat -> nth_error vs j = Some s' -> accepts_sig E m s' es = false) ->
  fst (tc copies_args (S n) E m (ECall f (map embed es))) = fst (tc copies_args (S n) E m (ECall g (map embed es))) /\
  is_ok (fst (tc copies_args (S n) E m (ECall f (map embed es)))) = true.
Proof.
  intros n E m f g vs es i s Hf Hg Hes Hn Hacc Hprev.
  assert (HL : least_accepting_variant copies_args n E m vs (map embed es) i s).
  { change copies_args with true. split; [exact Hn|]. split.
    - intro H. pose proof (standalone_is_ok n E m s es Hes) as H1. rewrite H, Hacc in H1. discriminate.
    - intros j s' Hj Hn'. pose proof (standalone_is_ok n E m s' es Hes) as H1.
      rewrite (Hprev j s' Hj Hn') in H1. pose proof (standalone_no_oof n E m s' (map embed es) Hes) as H2.
      destruct (fst (standalone true n E m s' (map embed es))); simpl in H1; congruence. }
  split.
  - exact (first_match_as_direct_call n E m f g vs (map embed es) i s Hf Hg HL).
  - rewrite (first_match n E m f vs (map embed es) i s Hf HL). simpl.
    rewrite <- Hacc. exact (standalone_is_ok n E m s es Hes).
Qed.
Print Assumptions first_match_reference.

(* ... and which type comes out / whether it is accepted at all, in closed form *)
Theorem overload_resolution_reference : forall n E f vs es,
  nth_error (funs E) f = Some (FOver vs) -> depth (embed (SCall f es)) <= n ->
  ok_ty (fst (tc copies_args n E Synth (embed (SCall f es)))) =
    first_some (fun s => if sig_accepts E s es then Some (s_out s) else None) vs /\
  forall t, is_ok (fst (tc copies_args n E (Check t) (embed (SCall f es)))) =
    existsb (fun s => sig_accepts E s es && ty_eqb t (s_out s)) vs.
Proof.
  intros n E f vs es Hf Hd. destruct (checker_agrees_with_reference n E (SCall f es) Hd) as [Hc Hs]. split.
  - rewrite Hs. unfold synthesizes. simpl. rewrite Hf. reflexivity.
  - intro t. rewrite Hc. unfold checks. simpl. rewrite Hf. reflexivity.
Qed.
Print Assumptions overload_resolution_reference.

(* The same loop WITHOUT copying (guppylang 0.21.6 before props/C15/fix-1.patch) refutes the property, both ways:
   (1) ov((1, True)) is rejected although variant b accepts it stand-alone;
   (2) ov(2**63, 1) with c(nat, bool), d(int, int) is accepted although no variant accepts it. *)
Theorem first_match_refuted_without_copy :
  exists E f g vs s es r t,
    nth_error (funs E) f = Some (FOver vs) /\ nth_error (funs E) g = Some (FDecl s) /\ In s vs /\
    fst (tc false 10 E Synth (ECall g es)) = Ok r t /\
    fst (tc false 10 E Synth (ECall f es)) = Err.
Proof.
  exists w1_env, 2%nat, 1%nat, [w1_a; w1_b], w1_b, w1_args. do 2 eexists.
  repeat split; try reflexivity; [right; left; reflexivity | vm_compute; reflexivity ..].
Qed.
Print Assumptions first_match_refuted_without_copy.

Theorem accepted_though_no_variant_accepts_without_copy :
  exists E f vs es,
    nth_error (funs E) f = Some (FOver vs) /\
    (forall s, In s vs -> fst (standalone false 9 E Synth s es) = Err) /\
    exists r t, fst (tc false 10 E Synth (ECall f es)) = Ok r t.
Proof.
  exists w2_env, 2%nat, [w2_c; w2_d], w2_args.
  split; [reflexivity | split].
  - intros s [<-|[<-|[]]]; vm_compute; reflexivity.
  - eexists. eexists. vm_compute. reflexivity.
Qed.
Print Assumptions accepted_though_no_variant_accepts_without_copy.
