(** C15 — fuel adequacy: with copies, fuel >= depth of the expression never runs out. *)
From Coq Require Import List Lia PeanoNat.
From V.C15 Require Import Overload Proofs.
Import ListNotations.
Open Scope nat_scope.

Fixpoint depth (e : expr) : nat :=
  let dl := fix dl (es : list expr) : nat :=
              match es with [] => 0 | x :: r => Nat.max (depth x) (dl r) end in
  match e with
  | ETup _ es => S (dl es)
  | ECall _ es => S (dl es)
  | EGCall _ _ es => S (dl es)
  | ECoerce _ _ e' => S (depth e')
  | _ => 1
  end.

Fixpoint depth_list (es : list expr) : nat :=
  match es with [] => 0 | x :: r => Nat.max (depth x) (depth_list r) end.

Lemma depth_list_in : forall es x, In x es -> depth x <= depth_list es.
Proof. induction es; simpl; intros x H; [destruct H|]. destruct H as [->|H]; [lia|]. specialize (IHes x H). lia. Qed.

Definition no_oof (o : out) : Prop := o <> OOF.

Section SeqFacts.
  Variable chk : ty -> expr -> res.
  Variable syn : expr -> res.

  Lemma seq_check_no_oof : forall es ts,
    (forall x t, In x es -> fst (chk t x) <> OOF) ->
    snd (fst (fst (seq_check chk es ts))) = false.
  Proof.
    induction es as [|e es IH]; intros ts H; simpl.
    - reflexivity.
    - destruct ts as [|t ts]; [reflexivity|].
      pose proof (H e t (or_introl eq_refl)) as He.
      destruct (chk t e) as [[r ty| |] e']; [| reflexivity | destruct (He eq_refl)].
      specialize (IH ts (fun x t' Hx => H x t' (or_intror Hx))).
      destruct (seq_check chk es ts) as [[[rs oof] os] ss]. exact IH.
  Qed.

  Lemma seq_synth_no_oof : forall es,
    (forall x, In x es -> fst (syn x) <> OOF) ->
    snd (fst (seq_synth syn es)) = false.
  Proof.
    induction es as [|e es IH]; intros H; simpl.
    - reflexivity.
    - pose proof (H e (or_introl eq_refl)) as He.
      destruct (syn e) as [[r ty| |] e']; [| reflexivity | destruct (He eq_refl)].
      specialize (IH (fun x Hx => H x (or_intror Hx))).
      destruct (seq_synth syn es) as [[rs oof] os]. exact IH.
  Qed.

  Lemma call_decl_no_oof : forall m s es,
    (forall x t, In x es -> fst (chk t x) <> OOF) ->
    fst (call_decl chk m s es) <> OOF.
  Proof.
    intros m s es H. unfold call_decl.
    destruct (negb (length es =? length (s_ins s))); [simpl; discriminate|].
    pose proof (seq_check_no_oof es (s_ins s) H) as Hs.
    destruct (seq_check chk es (s_ins s)) as [[[rs oof] os] ss]. simpl in Hs. subst oof.
    destruct rs; simpl.
    - destruct m; simpl; [discriminate|]. destruct (ty_eqb t (s_out s)); simpl; discriminate.
    - discriminate.
  Qed.
End SeqFacts.

Lemma fail_keep : forall (x : res),
  fst x <> OOF -> fst (let (o, e') := x in match o with OOF => (OOF, e') | _ => (Err, e') end) <> OOF.
Proof. intros [[r t| |] e'] H; simpl in *; [discriminate | discriminate | exact H]. Qed.

Lemma against_no_oof : forall act t e (d : expr),
  fst (match against act t e with Some (r, e') => (Ok r t, e') | None => (Err, d) end) <> OOF.
Proof. intros. destruct (against act t e) as [[r e']|]; discriminate. Qed.

Lemma depth_list_eq : forall es,
  (fix dl (es : list expr) : nat := match es with [] => 0 | x :: r => Nat.max (depth x) (dl r) end) es = depth_list es.
Proof. induction es; simpl; auto. Qed.

Lemma tc_annotated : forall cp n E e act, ann e = Some act ->
  tc cp (S n) E Synth e = (Ok e act, e) /\
  forall t, tc cp (S n) E (Check t) e =
            match against act t e with Some (r, e') => (Ok r t, e') | None => (Err, e) end.
Proof. intros cp n E e act A. destruct e; simpl in A; try discriminate; subst; split; reflexivity. Qed.

Lemma fuel_call : forall n E m f es, (forall x m', In x es -> fst (tc true n E m' x) <> OOF) ->
  fst (tc true (S n) E m (ECall f es)) <> OOF.
Proof.
  intros n E m f es H. rewrite tc_call. cbn [fst].
  assert (Hdecl : forall s, fst (standalone true n E m s es) <> OOF)
    by (intro s; apply call_decl_no_oof; intros x t Hx; exact (H x (Check t) Hx)).
  destruct (nth_error (funs E) f) as [[s|vs]|]; [apply Hdecl | | discriminate].
  unfold overloaded.
  destruct (loop_copy_cases (standalone true n E m) (call_error_at true n E) vs es) as [(i & s & _ & ->) | (_ & ->)];
    [apply Hdecl|]. unfold call_error_at.
  pose proof (seq_synth_no_oof (syn_at true n E) es (fun x Hx => H x Synth Hx)) as Hs.
  destruct (seq_synth (syn_at true n E) es) as [[rs oof] os]. simpl in Hs. subst oof. discriminate.
Qed.

Lemma fuel_tup : forall n E m es, (forall x m', In x es -> fst (tc true n E m' x) <> OOF) ->
  fst (tc true (S n) E m (ETup None es)) <> OOF.
Proof.
  intros n E m es H.
  assert (Hsn : fst (tc true (S n) E Synth (ETup None es)) <> OOF).
  { cbn. fold (syn_at true n E). pose proof (seq_synth_no_oof (syn_at true n E) es (fun x Hx => H x Synth Hx)) as Hs.
    destruct (seq_synth (syn_at true n E) es) as [[rs oof] os]. simpl in Hs. subst oof.
    destruct rs as [[l ts]|]; discriminate. }
  destruct m as [|t]; [exact Hsn|]. cbn in Hsn |- *.
  destruct t as [k| |ts]; try (apply fail_keep; exact Hsn).
  destruct (length ts =? length es); [|apply fail_keep; exact Hsn].
  fold (chk_at true n E).
  pose proof (seq_check_no_oof (chk_at true n E) es ts (fun x t Hx => H x (Check t) Hx)) as Hs.
  destruct (seq_check (chk_at true n E) es ts) as [[[rs oof] os] ss].
  simpl in Hs. subst oof. destruct rs; simpl; discriminate.
Qed.

Theorem enough_fuel : forall n E m e, depth e <= n -> fst (tc true n E m e) <> OOF.
Proof.
  induction n as [|n IH]; intros E m e Hd.
  - destruct e; simpl in Hd; lia.
  - destruct (ann e) as [act|] eqn:A.
    { destruct (tc_annotated true n E e act A) as [S C].
      destruct m as [|t]; [rewrite S; discriminate | rewrite C; apply against_no_oof]. }
    assert (Hsub : forall es, depth_list es <= n -> forall x m', In x es -> fst (tc true n E m' x) <> OOF).
    { intros es Hes x m' Hx. apply IH. pose proof (depth_list_in es x Hx). lia. }
    destruct e as [a v|a|a b|a es|x|f es|a x|a d es|a k e']; simpl in A; subst; simpl in Hd;
      rewrite ?depth_list_eq in Hd;
      [ | | | apply fuel_tup, Hsub; lia | | apply fuel_call, Hsub; lia | | | ];
      destruct m as [|t]; cbn -[against int_lit_ty]; try discriminate; try apply against_no_oof.
    + destruct (int_lit_ty None v); simpl; discriminate.
    + destruct (int_lit_ty (Some t) v) as [act|]; [apply against_no_oof | simpl; discriminate].
    + destruct (nth_error (locals E) x); simpl; discriminate.
    + destruct (nth_error (locals E) x) as [act|]; [|simpl; discriminate].
      destruct (against act t (EPlace (Some act) x)) as [[r e']|]; simpl; discriminate.
Qed.

Lemma standalone_no_oof : forall n E m s es', depth_list es' <= n ->
  fst (standalone true n E m s es') <> OOF.
Proof.
  intros n E m s es' Hes. unfold standalone, chk_at. apply call_decl_no_oof.
  intros x t Hx. apply enough_fuel. pose proof (depth_list_in es' x Hx). lia.
Qed.
