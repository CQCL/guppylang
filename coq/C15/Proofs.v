(** C15 — lemmas about the overload loop and the checker fragment of Overload.v; at the end the
    notion ([least_accepting_variant]) and the two witnesses in which Props.v states its theorems. *)
From Coq Require Import ZArith List Lia PeanoNat.
From V.C15 Require Import Overload.
Import ListNotations.

Section LoopFacts.
  Variable attempt : sig -> list expr -> lres.
  Variable on_none : list expr -> lres.

  (* [s] is variant [i], the first whose attempt on [es] is not [Err].  An attempt that runs out of
     fuel is a hit as well: the loop stops there too. *)
  Definition first_hit (vs : list sig) (es : list expr) (i : nat) (s : sig) : Prop :=
    nth_error vs i = Some s /\
    fst (attempt s es) <> Err /\
    forall j s', (j < i)%nat -> nth_error vs j = Some s' -> fst (attempt s' es) = Err.

  Lemma first_hit_unique : forall vs es i s i' s',
    first_hit vs es i s -> first_hit vs es i' s' -> s = s'.
  Proof.
    intros vs es i s i' s' (Hn & Hok & Hprev) (Hn' & Hok' & Hprev').
    destruct (Nat.lt_trichotomy i i') as [L|[E|L]].
    - destruct (Hok (Hprev' i s L Hn)).
    - subst i'. congruence.
    - destruct (Hok' (Hprev i' s' L Hn')).
  Qed.

  (* with copies every attempt sees the original nodes, and so does the caller afterwards *)
  Lemma loop_copy_cases : forall vs es,
    (exists i s, first_hit vs es i s /\
                 over_loop true attempt on_none vs es = (fst (attempt s es), es)) \/
    ((forall s, In s vs -> fst (attempt s es) = Err) /\
     over_loop true attempt on_none vs es = on_none es).
  Proof.
    induction vs as [|v vs IH]; intros es.
    - right. split; [intros s []|reflexivity].
    - simpl. destruct (attempt v es) as [o es'] eqn:A.
      assert (Hit : o <> Err -> first_hit (v :: vs) es 0 v).
      { intro Ho. split; [reflexivity|]. rewrite A. split; [exact Ho|]. intros j s' Hj. lia. }
      destruct o as [r t| |].
      1, 3: left; exists 0%nat, v; rewrite A; split; [apply Hit; discriminate | reflexivity].
      destruct (IH es) as [(i & s & (Hn & Hok & Hprev) & Heq) | (Hall & Heq)].
      + left. exists (S i), s. split; [|exact Heq]. split; [exact Hn|]. split; [exact Hok|].
        intros [|j] s' Hj Hn'.
        * inversion Hn'; subst s'. rewrite A. reflexivity.
        * apply (Hprev j s'); [lia | exact Hn'].
      + right. split; [|exact Heq]. intros s [<-|Hs]; [rewrite A; reflexivity | exact (Hall s Hs)].
  Qed.

  Lemma loop_copy_least : forall vs es i s, first_hit vs es i s ->
    over_loop true attempt on_none vs es = (fst (attempt s es), es).
  Proof.
    intros vs es i s H. destruct (loop_copy_cases vs es) as [(i' & s' & H' & Heq) | (Hall & _)].
    - rewrite (first_hit_unique vs es i s i' s' H H'). exact Heq.
    - destruct H as (Hn & Hok & _). destruct (Hok (Hall s (nth_error_In vs i Hn))).
  Qed.

  Lemma loop_nocopy_step : forall v vs es es',
    attempt v es = (Err, es') ->
    over_loop false attempt on_none (v :: vs) es = over_loop false attempt on_none vs es'.
  Proof. intros. simpl. rewrite H. reflexivity. Qed.
End LoopFacts.

Lemma let_pair_call : forall (x : lres) (f : nat),
  (let '(o, os) := x in (o, ECall f os)) = (fst x, ECall f (snd x)).
Proof. intros [o os] f. reflexivity. Qed.

Lemma tc_call : forall cp n E m f es,
  tc cp (S n) E m (ECall f es) =
  let r := match nth_error (funs E) f with
           | Some (FDecl s) => standalone cp n E m s es
           | Some (FOver vs) => overloaded cp n E m vs es
           | None => (Err, es)
           end in
  (fst r, ECall f (snd r)).
Proof.
  intros cp n E m f es. destruct m; simpl; rewrite let_pair_call; reflexivity.
Qed.

Section Statements.
  Variable cp : bool.

  (* [first_hit] at the attempt function [standalone cp n E m], written out (the two are convertible,
     and Props.v hands one to lemmas about the other) *)
  Definition least_accepting_variant (n : nat) (E : env) (m : mode) (vs : list sig) (es : list expr)
             (i : nat) (s : sig) : Prop :=
    nth_error vs i = Some s /\
    fst (standalone cp n E m s es) <> Err /\
    forall j s', (j < i)%nat -> nth_error vs j = Some s' -> fst (standalone cp n E m s' es) = Err.
End Statements.

Open Scope Z_scope.
Definition tnat := TNum KNat. Definition tint := TNum KInt. Definition tflt := TNum KFloat.

(* ov((1, True)) with variants a(tuple[float,float]) -> int, b(tuple[int,bool]) -> float *)
Definition w1_a := mkSig 0 [TTuple [tflt; tflt]] tint.
Definition w1_b := mkSig 1 [TTuple [tint; TBool]] tflt.
Definition w1_env := mkEnv [] [FDecl w1_a; FDecl w1_b; FOver [w1_a; w1_b]].
Definition w1_args := [ETup None [EInt None 1; EBool None true]].

(* ov(2**63, 1) with variants c(nat, bool) -> int, d(int, int) -> float *)
Definition w2_c := mkSig 0 [tnat; TBool] tint.
Definition w2_d := mkSig 1 [tint; tint] tflt.
Definition w2_env := mkEnv [] [FDecl w2_c; FDecl w2_d; FOver [w2_c; w2_d]].
Definition w2_args := [EInt None 9223372036854775808; EInt None 1].
