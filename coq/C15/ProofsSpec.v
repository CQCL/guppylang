(** C15 — a declarative reference for "the signature accepts the arguments": a bidirectional
    type checker on annotation-free source expressions, with no AST rewriting, no mutation,
    no fuel.  [tc] on the embedded expression accepts exactly what the reference accepts. *)
From Coq Require Import ZArith List Bool Lia PeanoNat.
From V.C15 Require Import Overload Proofs ProofsFuel.
Import ListNotations.
Open Scope nat_scope.

Inductive sexpr :=
| SInt (v : Z) | SFlt | SBool (b : bool)
| STup (es : list sexpr)
| SName (x : nat)
| SCall (f : nat) (es : list sexpr).

Fixpoint embed (e : sexpr) : expr :=
  match e with
  | SInt v => EInt None v
  | SFlt => EFlt None
  | SBool b => EBool None b
  | STup es => ETup None (map embed es)
  | SName x => EName x
  | SCall f es => ECall f (map embed es)
  end.

Definition usable (act exp : ty) : bool :=
  ty_eqb exp act ||
  match act, exp with TNum ka, TNum ke => kind_ltb ka ke | _, _ => false end.

Section Ref.
  Variable E : env.

  Definition all2 {A B} (p : A -> B -> bool) : list A -> list B -> bool :=
    fix go (xs : list A) (ys : list B) : bool :=
      match xs, ys with
      | [], [] => true
      | x :: xs', y :: ys' => p x y && go xs' ys'
      | _, _ => false
      end.

  Definition synth_all {A} (q : A -> option ty) : list A -> option (list ty) :=
    fix go (es : list A) : option (list ty) :=
      match es with
      | [] => Some []
      | x :: r => match q x, go r with Some t, Some ts => Some (t :: ts) | _, _ => None end
      end.

  Definition first_some {A B} (p : A -> option B) : list A -> option B :=
    fix go (xs : list A) : option B :=
      match xs with [] => None | x :: r => match p x with Some b => Some b | None => go r end end.

  (* reference checker: [ref e] = (synthesized type of e, fun t => does e check against t),
     computed together so that the definition is structurally recursive *)
  Fixpoint ref (e : sexpr) : option ty * (ty -> bool) :=
    let args_ok := fun (es : list sexpr) (ins : list ty) => all2 (fun x t => snd (ref x) t) es ins in
    match e with
    | SInt v =>
        ((if in_signed v then Some (TNum KInt) else None),
         fun t => match t with
                  | TNum KNat => (0 <=? v)%Z && in_unsigned v
                  | TNum _ => in_signed v
                  | _ => false
                  end)
    | SFlt => (Some (TNum KFloat), fun t => usable (TNum KFloat) t)
    | SBool _ => (Some TBool, fun t => usable TBool t)
    | SName x =>
        (nth_error (locals E) x,
         fun t => match nth_error (locals E) x with Some a => usable a t | None => false end)
    | STup es =>
        (option_map TTuple (synth_all (fun x => fst (ref x)) es),
         fun t => match t with TTuple ts => all2 (fun x t => snd (ref x) t) es ts | _ => false end)
    | SCall f es =>
        match nth_error (funs E) f with
        | Some (FDecl s) =>
            ((if args_ok es (s_ins s) then Some (s_out s) else None),
             fun t => args_ok es (s_ins s) && ty_eqb t (s_out s))
        | Some (FOver vs) =>
            (first_some (fun s => if args_ok es (s_ins s) then Some (s_out s) else None) vs,
             fun t => existsb (fun s => args_ok es (s_ins s) && ty_eqb t (s_out s)) vs)
        | None => (None, fun _ => false)
        end
    end.

  Definition checks (e : sexpr) (t : ty) : bool := snd (ref e) t.
  Definition synthesizes (e : sexpr) : option ty := fst (ref e).
  (* "the signature accepts the arguments" *)
  Definition sig_accepts (s : sig) (es : list sexpr) : bool := all2 checks es (s_ins s).
End Ref.

Definition is_ok (o : out) : bool := match o with Ok _ _ => true | _ => false end.
Definition ok_ty (o : out) : option ty := match o with Ok _ t => Some t | _ => None end.

Lemma against_usable : forall act t e,
  (match against act t e with Some _ => true | None => false end) = usable act t.
Proof.
  intros act t e. unfold against, usable. destruct (ty_eqb t act); [reflexivity|]. simpl.
  destruct act as [ka| |]; try reflexivity. destruct t as [ke| |]; try reflexivity.
  destruct (kind_ltb ka ke); reflexivity.
Qed.

Lemma is_ok_against : forall act t e (d : expr),
  is_ok (fst (match against act t e with Some (r, e') => (Ok r t, e') | None => (Err, d) end)) = usable act t.
Proof.
  intros. rewrite <- (against_usable act t e). destruct (against act t e) as [[r e']|]; reflexivity.
Qed.

(* Running out of fuel counts as not accepting, so the sequencing functions agree with the
   reference as soon as every element does; fuel matters only where the loop stops early. *)
Lemma not_ok_fail_of : forall oof, is_ok (fail_of oof) = false /\ ok_ty (fail_of oof) = None.
Proof. intros []; split; reflexivity. Qed.

Section SeqRef.
  Variable chk : ty -> expr -> res.
  Variable syn : expr -> res.
  Variable p : sexpr -> ty -> bool.
  Variable q : sexpr -> option ty.

  (* the zip loop stops at the shorter list, so the arity test in front of it belongs to the statement *)
  Lemma seq_check_ref : forall es ts,
    (forall x t, In x es -> is_ok (fst (chk t (embed x))) = p x t) ->
    (length es =? length ts) &&
    (match fst (fst (fst (seq_check chk (map embed es) ts))) with Some _ => true | None => false end) = all2 p es ts.
  Proof.
    induction es as [|e es IH]; intros ts Hp; destruct ts as [|t ts]; try reflexivity.
    simpl. rewrite <- (Hp e t (or_introl eq_refl)).
    destruct (chk t (embed e)) as [[r ty| |] e']; [| apply andb_false_r | apply andb_false_r].
    rewrite <- (IH ts (fun x t' Hx => Hp x t' (or_intror Hx))).
    destruct (seq_check chk (map embed es) ts) as [[[[l|] oof] os] ss]; reflexivity.
  Qed.

  Lemma seq_synth_ref : forall es,
    (forall x, In x es -> ok_ty (fst (syn (embed x))) = q x) ->
    option_map snd (fst (fst (seq_synth syn (map embed es)))) = synth_all q es.
  Proof.
    induction es as [|e es IH]; intros Hq; simpl.
    - reflexivity.
    - rewrite <- (Hq e (or_introl eq_refl)).
      destruct (syn (embed e)) as [[r ty| |] e']; [| reflexivity | reflexivity].
      rewrite <- (IH (fun x Hx => Hq x (or_intror Hx))).
      destruct (seq_synth syn (map embed es)) as [[[[l ts]|] oof] os]; reflexivity.
  Qed.

  Lemma call_decl_ref : forall s es,
    (forall x t, In x es -> is_ok (fst (chk t (embed x))) = p x t) ->
    ok_ty (fst (call_decl chk Synth s (map embed es))) = (if all2 p es (s_ins s) then Some (s_out s) else None) /\
    forall t, is_ok (fst (call_decl chk (Check t) s (map embed es))) = all2 p es (s_ins s) && ty_eqb t (s_out s).
  Proof.
    intros s es Hp. unfold call_decl. rewrite map_length, <- (seq_check_ref es (s_ins s) Hp).
    destruct (length es =? length (s_ins s)); simpl; [|split; reflexivity].
    destruct (seq_check chk (map embed es) (s_ins s)) as [[[[l|] oof] os] ss]; simpl.
    - split; [reflexivity|]. intro t. destruct (ty_eqb t (s_out s)); reflexivity.
    - destruct (not_ok_fail_of oof) as [-> ->]. split; reflexivity.
  Qed.
End SeqRef.

Lemma loop_copy_is_ok : forall attempt on_none (q : sig -> bool) vs es,
  (forall s, fst (attempt s es) <> OOF) -> is_ok (fst (on_none es)) = false ->
  (forall s, is_ok (fst (attempt s es)) = q s) ->
  is_ok (fst (over_loop true attempt on_none vs es)) = existsb q vs.
Proof.
  induction vs as [|v vs IH]; intros es Hno Hn Hq; simpl.
  - exact Hn.
  - rewrite <- (Hq v). pose proof (Hno v) as H1.
    destruct (attempt v es) as [[r t| |] es']; [reflexivity | apply IH; assumption | destruct (H1 eq_refl)].
Qed.

Lemma loop_copy_ok_ty : forall attempt on_none (q : sig -> option ty) vs es,
  (forall s, fst (attempt s es) <> OOF) -> ok_ty (fst (on_none es)) = None ->
  (forall s, ok_ty (fst (attempt s es)) = q s) ->
  ok_ty (fst (over_loop true attempt on_none vs es)) = first_some q vs.
Proof.
  induction vs as [|v vs IH]; intros es Hno Hn Hq; simpl.
  - exact Hn.
  - rewrite <- (Hq v). pose proof (Hno v) as H1.
    destruct (attempt v es) as [[r t| |] es']; [reflexivity | apply IH; assumption | destruct (H1 eq_refl)].
Qed.

Lemma not_ok_fail_keep : forall (x : res),
  is_ok (fst (let (o, e') := x in match o with OOF => (OOF, e') | _ => (Err, e') end)) = false.
Proof. intros [o e']. destruct o; reflexivity. Qed.

(* _call_error always raises; in the model it may also run out of fuel while synthesizing the
   arguments for the message: either way it does not accept *)
Lemma call_error_ref : forall cp n E es,
  is_ok (fst (call_error_at cp n E es)) = false /\ ok_ty (fst (call_error_at cp n E es)) = None.
Proof.
  intros. unfold call_error_at. destruct (seq_synth (syn_at cp n E) es) as [[rs oof] os]. apply not_ok_fail_of.
Qed.

Lemma int_lit_ref : forall t v,
  match int_lit_ty (Some t) v with Some act => usable act t | None => false end =
  match t with
  | TNum KNat => (0 <=? v)%Z && in_unsigned v
  | TNum _ => in_signed v
  | _ => false
  end.
Proof.
  intros [[]| |] v; unfold int_lit_ty;
    destruct (0 <=? v)%Z, (in_unsigned v), (in_signed v); reflexivity.
Qed.

Definition agrees (n : nat) (E : env) (e : sexpr) : Prop :=
  (forall t, is_ok (fst (tc true n E (Check t) (embed e))) = checks E e t) /\
  ok_ty (fst (tc true n E Synth (embed e))) = synthesizes E e.

Lemma ref_tup : forall n E es, (forall x, In x es -> agrees n E x) -> agrees (S n) E (STup es).
Proof.
  intros n E es H. split.
  - intro t. cbn -[against]. unfold checks. simpl.
    destruct t as [k| |ts]; try apply not_ok_fail_keep.
    change (all2 (fun x t => snd (ref E x) t) es ts) with (all2 (checks E) es ts).
    rewrite map_length, (Nat.eqb_sym (length ts)),
      <- (seq_check_ref (chk_at true n E) (checks E) es ts (fun x t Hx => proj1 (H x Hx) t)).
    destruct (length es =? length ts); [|apply not_ok_fail_keep].
    unfold chk_at. destruct (seq_check _ (map embed es) ts) as [[[[l|] oof] os] ss]; [reflexivity|].
    apply not_ok_fail_of.
  - cbn. unfold synthesizes. simpl.
    change (synth_all (fun x => fst (ref E x)) es) with (synth_all (synthesizes E) es).
    rewrite <- (seq_synth_ref (syn_at true n E) (synthesizes E) es (fun x Hx => proj2 (H x Hx))).
    unfold syn_at. destruct (seq_synth _ (map embed es)) as [[[[l ts]|] oof] os]; [reflexivity|].
    apply not_ok_fail_of.
Qed.

(* the loop stops at an attempt that runs out of fuel, so here fuel must suffice *)
Lemma ref_call : forall n E f es, (forall x, In x es -> agrees n E x) ->
  (forall m s, fst (standalone true n E m s (map embed es)) <> OOF) -> agrees (S n) E (SCall f es).
Proof.
  intros n E f es H HnoA.
  pose proof (fun s => call_decl_ref (chk_at true n E) (checks E) s es (fun x t Hx => proj1 (H x Hx) t)) as HD.
  destruct (call_error_ref true n E (map embed es)) as [Nc Ns].
  unfold agrees. change (embed (SCall f es)) with (ECall f (map embed es)).
  split; [intro t|]; rewrite tc_call; unfold checks, synthesizes; cbn [ref fst snd];
    destruct (nth_error (funs E) f) as [[s|vs]|]; try reflexivity.
  - apply (proj2 (HD s)).
  - apply (loop_copy_is_ok (standalone true n E (Check t)) (call_error_at true n E));
      [apply HnoA | exact Nc | intro s; apply (proj2 (HD s))].
  - apply (proj1 (HD s)).
  - apply (loop_copy_ok_ty (standalone true n E Synth) (call_error_at true n E));
      [apply HnoA | exact Ns | intro s; apply (proj1 (HD s))].
Qed.

Theorem ref_correct : forall n E e, depth (embed e) <= n -> agrees n E e.
Proof.
  induction n as [|n IH]; intros E e Hd.
  - destruct e; simpl in Hd; lia.
  - assert (Hsub : forall es, depth_list (map embed es) <= n -> forall x, In x es -> agrees n E x).
    { intros es Hes x Hx. apply IH. pose proof (depth_list_in _ _ (in_map embed es x Hx)). lia. }
    destruct e as [v| |b|es|x|f es]; simpl in Hd; rewrite ?depth_list_eq in Hd.
    + split.
      * intro t. cbn -[against int_lit_ty]. unfold checks. cbn [ref snd]. rewrite <- int_lit_ref.
        destruct (int_lit_ty (Some t) v); [apply is_ok_against | reflexivity].
      * cbn. unfold synthesizes. simpl. destruct (in_signed v); reflexivity.
    + split; [|reflexivity]. intro t. apply is_ok_against.
    + split; [|reflexivity]. intro t. apply is_ok_against.
    + apply ref_tup, Hsub. lia.
    + split.
      * intro t. cbn -[against]. unfold checks. simpl.
        destruct (nth_error (locals E) x) as [act|]; [|reflexivity].
        rewrite <- (against_usable act t (EPlace (Some act) x)).
        destruct (against act t (EPlace (Some act) x)) as [[r e']|]; reflexivity.
      * cbn. unfold synthesizes. simpl. destruct (nth_error (locals E) x); reflexivity.
    + assert (Hes : depth_list (map embed es) <= n) by lia.
      apply ref_call; [exact (Hsub es Hes)|].
      intros m s. apply standalone_no_oof. exact Hes.
Qed.

Example ref_w1 :
  synthesizes w1_env (SCall 2 [STup [SInt 1; SBool true]]) = Some tflt /\
  sig_accepts w1_env w1_a [STup [SInt 1; SBool true]] = false /\
  sig_accepts w1_env w1_b [STup [SInt 1; SBool true]] = true.
Proof. repeat split. Qed.

Example ref_w2 :
  synthesizes w2_env (SCall 2 [SInt 9223372036854775808; SInt 1]) = None.
Proof. reflexivity. Qed.

(* [sig_accepts], and in checking position the declared result is the expected type: what the
   stand-alone call of [s] accepts ([standalone_is_ok]) *)
Definition accepts_sig (E : env) (m : mode) (s : sig) (es : list sexpr) : bool :=
  match m with
  | Synth => sig_accepts E s es
  | Check t => sig_accepts E s es && ty_eqb t (s_out s)
  end.

Lemma standalone_is_ok : forall n E m s es, depth_list (map embed es) <= n ->
  is_ok (fst (standalone true n E m s (map embed es))) = accepts_sig E m s es.
Proof.
  intros n E m s es Hes. unfold standalone, accepts_sig, sig_accepts.
  destruct (call_decl_ref (chk_at true n E) (checks E) s es) as [Hs Hc].
  { intros x t Hx. apply (ref_correct n E x). pose proof (depth_list_in _ _ (in_map embed es x Hx)). lia. }
  destruct m as [|t]; [|apply Hc].
  destruct (fst (call_decl (chk_at true n E) Synth s (map embed es))), (all2 (checks E) es (s_ins s));
    simpl in *; congruence.
Qed.
