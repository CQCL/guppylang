(** C26 — Loaded pytket circuits: the INDEX ALGEBRA of the wrapper that guppylang builds around
    the converted circuit (model of compile_outer / _signature_from_circuit, tied to the real code
    by props/C26).  Not claimed: what the converted circuit itself does (tket), pytket's ordering of
    registers and symbols.  Parameter names are abstracted to integers (only their order matters). *)
From Coq Require Import List ZArith Lia.
From V.C26 Require Import Model Proofs History GenState ProofsHistory.
Import ListNotations.

(* Symbolic parameters are bound in lexicographic name order: whatever order the converted circuit
   lists its parameters in, the j-th parameter of the circuit receives the user's k-th angle where
   k = number of parameter names smaller than its own (i.e. the user's k-th argument reaches the
   parameter with the k-th smallest name). *)
Theorem perm_correct : forall c j, NoDup c.(meta) -> j < n_params c ->
  nth j (param_wires c) Missing = InP (count_lt (nth j c.(meta) 0%Z) c.(meta)).
Proof.
  intros c j _ L. unfold param_wires.
  set (f := fun name => lookup name (combine (isort (meta c)) (user_params c))).
  rewrite nth_indep with (d' := f 0%Z) by (rewrite map_length; auto).
  rewrite map_nth. unfold f. apply param_for_name; auto. apply nth_In; auto.
Qed.
Print Assumptions perm_correct.

Example perm_correct_instance :
  param_wires (mkCirc [2] [1] [30; 10; 20]%Z) = [InP 2; InP 0; InP 1] /\ NoDup [30; 10; 20]%Z.
Proof. split; [reflexivity | repeat constructor; simpl; intuition discriminate]. Qed.

(* The call receives: the qubits (register by register in q_registers order, elements in index order,
   when arrays are used; the qubit arguments in order otherwise), one constant false per bit, the parameters. *)
Theorem call_wiring : forall arrays c,
  call_args arrays c = qubit_wires arrays c ++ repeat CFalse (n_bits c) ++ param_wires c /\
  qubit_wires false c = map InQ (seq 0 (n_qubits c)) /\
  qubit_wires true c = concat (map (fun p => map (InQArr (fst p)) (seq 0 (snd p)))
                                   (combine (seq 0 (length c.(q_regs))) c.(q_regs))).
Proof. intros. repeat split. apply reg_wires_concat. Qed.
Print Assumptions call_wiring.

(* Outputs: the call returns qubits then bits; the wrapper returns bits then qubits ... *)
Theorem outputs_bits_then_qubits : forall c,
  rotated c = map Out (seq (n_qubits c) (n_bits c)) ++ map Out (seq 0 (n_qubits c)).
Proof.
  intros. unfold rotated. rewrite seq_app, map_app. simpl.
  rewrite skipn_app, firstn_app. rewrite !map_length, !seq_length.
  rewrite Nat.sub_diag. simpl. rewrite skipn_all2 by (rewrite map_length, seq_length; auto).
  rewrite firstn_all2 by (rewrite map_length, seq_length; auto). simpl. rewrite app_nil_r. reflexivity.
Qed.
Print Assumptions outputs_bits_then_qubits.

(* ... re-packed, with arrays, into one array per classical register then one per qubit register,
   each of its register's size, preserving the order. *)
Theorem arrays_repacked : forall c,
  concat (outputs true c) = rotated c /\ map (@length wire) (outputs true c) = c.(c_regs) ++ c.(q_regs) /\
  concat (outputs false c) = rotated c.
Proof.
  intros c. unfold outputs. rewrite <- and_assoc. split.
  - apply chunks_spec. rewrite sum_app, rotated_length. reflexivity.
  - induction (rotated c) as [|w l IH]; simpl; auto. f_equal. exact IH.
Qed.
Print Assumptions arrays_repacked.

(* The inferred signature offers one boolean per classical bit, one (borrowed) qubit per qubit and one
   angle per symbolic parameter, with and without arrays. *)
Theorem signature_counts : forall arrays c,
  leaves is_bool (s_output (sig_of arrays c)) = n_bits c /\
  leaves_in is_qubit (map fst (s_inputs (sig_of arrays c))) = n_qubits c /\
  leaves_in is_angle (map fst (s_inputs (sig_of arrays c))) = n_params c /\
  Forall (fun i => snd i = is_qubit (match fst i with GArr e _ => e | t => t end)) (s_inputs (sig_of arrays c)).
Proof.
  intros arrays c. split.
  - destruct arrays; unfold sig_of; simpl s_output; rewrite leaves_row by reflexivity.
    + rewrite leaves_in_arr. apply Nat.mul_1_r.
    + rewrite leaves_in_repeat. apply Nat.mul_1_r.
  - destruct arrays; unfold sig_of; simpl s_inputs; rewrite !map_app, !leaves_in_app.
    + rewrite map_map. simpl fst. rewrite !leaves_in_arr. simpl leaves. repeat split.
      * destruct (n_params c =? 0); simpl; unfold n_qubits; lia.
      * destruct (n_params c =? 0) eqn:E; simpl; [apply Nat.eqb_eq in E|]; lia.
      * apply Forall_app. split.
        -- apply Forall_forall. intros x I. apply in_map_iff in I. destruct I as (s & <- & _). reflexivity.
        -- destruct (n_params c =? 0); constructor; auto.
    + rewrite !map_fst_repeat, !leaves_in_repeat. simpl leaves. repeat split; try lia.
      apply Forall_app. split; apply Forall_forall; intros x I; apply repeat_spec in I; subst; reflexivity.
Qed.
Print Assumptions signature_counts.

(* A declared stub is accepted iff its signature equals the inferred one. *)
Theorem stub_accepted_iff : forall arrays c stub, accepts arrays c stub = true <-> stub = sig_of arrays c.
Proof.
  intros. unfold accepts. destruct stub as [i o]. simpl. split; intros H.
  - apply andb_prop in H. destruct H as [H1 H2]. apply inputs_eqb_iff in H1. apply gty_eqb_eq in H2.
    destruct (sig_of arrays c); simpl in *; subst; reflexivity.
  - rewrite <- H. simpl. rewrite gty_eqb_refl, (proj2 (inputs_eqb_iff i i) eq_refl). reflexivity.
Qed.
Print Assumptions stub_accepted_iff.

Example stub_rejected_instance :
  accepts false (mkCirc [2] [1] []) (mkSig [(GQubit, true)] GBool) = false /\
  accepts false (mkCirc [2] [1] []) (mkSig [(GQubit, true); (GQubit, true)] GBool) = true.
Proof. split; reflexivity. Qed.

(* T: definition/pytket_circuits.py keeps nothing between compiles (no module-level container, memoising
   decorator, global, mutable class attribute/default) and converts the definition's live circuit. *)
Theorem loader_has_no_module_state : gen_module_state = [] /\ gen_cached = false /\ gen_conversion_direct = true.
Proof. repeat split; reflexivity. Qed.
Print Assumptions loader_has_no_module_state.

(* Whatever happened before (other loads, compiles, in-place changes, copies): compiling a definition yields
   exactly the signature, wiring and converted body of the contents its circuit object has AT THAT COMPILE,
   and leaves the loader unchanged. *)
Theorem compile_reflects_current_contents : forall st n o arrays cur,
  dget (l_defs st) n = Some (o, arrays) -> hget (l_heap st) o = Some cur ->
  step gen_cached st (HCompile n) =
    (st, Some (mkResult (sig_of arrays (k_circ cur)) (call_args arrays (k_circ cur)) (outputs arrays (k_circ cur)) cur)).
Proof. intros st n o arrays cur D H. rewrite <- result_of_same. exact (compile_current st n o arrays cur D H). Qed.
Print Assumptions compile_reflects_current_contents.

(* hence two arbitrary histories that leave the object with equal contents give equal functions *)
Theorem compile_depends_only_on_contents : forall ops1 ops2 n1 n2 o1 o2 arrays cur,
  let s1 := final gen_cached init ops1 in let s2 := final gen_cached init ops2 in
  dget (l_defs s1) n1 = Some (o1, arrays) -> hget (l_heap s1) o1 = Some cur ->
  dget (l_defs s2) n2 = Some (o2, arrays) -> hget (l_heap s2) o2 = Some cur ->
  snd (step gen_cached s1 (HCompile n1)) = snd (step gen_cached s2 (HCompile n2)).
Proof.
  intros. rewrite (compile_current s1 n1 o1 arrays cur), (compile_current s2 n2 o2 arrays cur); auto.
Qed.
Print Assumptions compile_depends_only_on_contents.

(* non-vacuity + the statement is not true of a memoising loader: load, compile, extend in place, load again *)
Example memoising_loader_goes_stale :
  nth 5 (run true init stale_history) None = Some (result_of false c2 c1) /\
  nth 5 (run false init stale_history) None = Some (result_of false c2 c2) /\ c1 <> c2.
Proof. repeat split; try reflexivity. discriminate. Qed.
