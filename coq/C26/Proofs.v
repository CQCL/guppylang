(** C26 — lemmas about the wiring model.  Parameters: [isort] gives a sorted permutation of the
    metadata order, and in a sorted table a name is found at the position that counts the smaller
    names ([lookup_sorted]).  Signatures: the boolean equality tests decide equality, and [leaves]
    counts the qubits / angles / bools a signature offers. *)
From Coq Require Import List ZArith Bool Lia Permutation Sorted.
From V.C26 Require Import Model.
Import ListNotations.

Fixpoint count_lt (x : Z) (l : list Z) : nat :=
  match l with [] => 0 | y :: r => (if (y <? x)%Z then 1 else 0) + count_lt x r end.

Lemma insert_perm : forall x l, Permutation (x :: l) (insert x l).
Proof.
  induction l as [|y r IH]; simpl; auto.
  destruct (x <=? y)%Z; auto.
  eapply perm_trans; [apply perm_swap|]. constructor. exact IH.
Qed.
Lemma isort_perm : forall l, Permutation l (isort l).
Proof. induction l; simpl; auto. eapply perm_trans; [|apply insert_perm]. constructor. exact IHl. Qed.

Lemma insert_sorted : forall x l, StronglySorted Z.le l -> StronglySorted Z.le (insert x l).
Proof.
  induction 1 as [|y r Sr IH Fy]; simpl; [repeat constructor|].
  destruct (x <=? y)%Z eqn:E.
  - apply Z.leb_le in E. repeat constructor; auto. eapply Forall_impl; [|exact Fy]. simpl. intros; lia.
  - apply Z.leb_gt in E. constructor; [exact IH|].
    eapply Permutation_Forall; [apply insert_perm|]. constructor; [lia | exact Fy].
Qed.
Lemma isort_sorted : forall l, StronglySorted Z.le (isort l).
Proof. induction l; simpl; [constructor | apply insert_sorted; assumption]. Qed.

Lemma count_lt_perm : forall x l l', Permutation l l' -> count_lt x l = count_lt x l'.
Proof. induction 1; simpl; try lia. Qed.

Lemma count_lt_all_ge : forall x l, Forall (Z.le x) l -> count_lt x l = 0.
Proof. induction 1; simpl; auto. destruct (x0 <? x)%Z eqn:E; [apply Z.ltb_lt in E; lia | auto]. Qed.

(* the first binding of x in a sorted table stands at the position that counts the smaller keys;
   later bindings of x, if any, are never reached (past the end of a shorter [us] both sides are [Missing]) *)
Lemma lookup_sorted : forall s x, StronglySorted Z.le s -> In x s ->
  forall us, lookup x (combine s us) = nth (count_lt x s) us Missing.
Proof.
  induction 1 as [|a s Ss IH Fa]; intros I us; [inversion I|].
  destruct us as [|u us]; [now destruct (count_lt x (a :: s))|]. simpl in *.
  destruct (a =? x)%Z eqn:E.
  - apply Z.eqb_eq in E; subst. rewrite Z.ltb_irrefl, count_lt_all_ge; auto.
  - apply Z.eqb_neq in E. destruct I as [->|I]; [congruence|].
    assert (a <= x)%Z by (rewrite Forall_forall in Fa; auto).
    assert (a <? x = true)%Z as -> by (apply Z.ltb_lt; lia). simpl. apply IH; auto.
Qed.

Lemma nth_user_params : forall c k, k < n_params c -> nth k (user_params c) Missing = InP k.
Proof.
  intros. unfold user_params. rewrite nth_indep with (d' := InP 0) by (rewrite map_length, seq_length; auto).
  rewrite map_nth, seq_nth; auto.
Qed.

Lemma count_lt_le : forall x l, count_lt x l <= length l.
Proof. induction l; simpl; auto. destruct (a <? x)%Z; simpl; lia. Qed.

Lemma count_lt_bound : forall x l, In x l -> count_lt x l < length l.
Proof.
  induction l; simpl; intros I; [tauto|]. destruct I as [->|I].
  - rewrite Z.ltb_irrefl. pose proof (count_lt_le x l). simpl. lia.
  - specialize (IHl I). destruct (a <? x)%Z; simpl; lia.
Qed.

Lemma param_for_name : forall c name, In name c.(meta) ->
  lookup name (combine (isort c.(meta)) (user_params c)) = InP (count_lt name c.(meta)).
Proof.
  intros c name I. assert (P := isort_perm c.(meta)).
  rewrite lookup_sorted.
  - rewrite <- (count_lt_perm name _ _ P). apply nth_user_params. apply count_lt_bound; auto.
  - apply isort_sorted.
  - eapply Permutation_in; eauto.
Qed.

Lemma chunks_spec : forall sizes w, sum sizes = length w ->
  concat (chunks sizes w) = w /\ map (@length wire) (chunks sizes w) = sizes.
Proof.
  induction sizes as [|s r IH]; simpl; intros w H.
  - destruct w; [auto|discriminate].
  - destruct (IH (skipn s w)) as [-> ->]; [rewrite skipn_length; lia|].
    rewrite firstn_skipn, firstn_length. split; [reflexivity|]. f_equal. lia.
Qed.
Lemma sum_app : forall a b, sum (a ++ b) = sum a + sum b.
Proof. induction a; simpl; intros; [reflexivity|]. rewrite IHa. lia. Qed.
Lemma rotated_length : forall c, length (rotated c) = n_bits c + n_qubits c.
Proof.
  intros. unfold rotated.
  rewrite app_length, skipn_length, firstn_length, map_length, seq_length. lia.
Qed.

Lemma reg_wires_concat : forall sizes reg,
  reg_wires reg sizes = concat (map (fun p => map (InQArr (fst p)) (seq 0 (snd p))) (combine (seq reg (length sizes)) sizes)).
Proof. induction sizes; simpl; intros; auto. rewrite IHsizes. reflexivity. Qed.

Lemma gty_eqb_refl : forall t, gty_eqb t t = true.
Proof.
  fix IH 1. destruct t; simpl; try reflexivity.
  - rewrite IH, Nat.eqb_refl. reflexivity.
  - induction ts; [reflexivity|]. rewrite IH. exact IHts.
  - apply Nat.eqb_refl.
Qed.
Lemma gty_eqb_eq : forall a b, gty_eqb a b = true -> a = b.
Proof.
  fix IH 1. destruct a, b; simpl; intros H; try discriminate; try reflexivity.
  - apply andb_prop in H. destruct H as [H1 H2]. apply IH in H1. apply Nat.eqb_eq in H2. subst. reflexivity.
  - f_equal. revert ts0 H. induction ts; destruct ts0; intros H; try discriminate; auto.
    apply andb_prop in H. destruct H as [H1 H2]. apply IH in H1. subst. f_equal. apply IHts. exact H2.
  - apply Nat.eqb_eq in H. subst. reflexivity.
Qed.
Lemma inputs_eqb_iff : forall a b, inputs_eqb a b = true <-> a = b.
Proof.
  induction a as [|[t f] r IH]; destruct b as [|[t' f'] r']; simpl; split; intros H; try discriminate; auto.
  - apply andb_prop in H. destruct H as [H H3]. apply andb_prop in H. destruct H as [H1 H2].
    apply gty_eqb_eq in H1. apply Bool.eqb_prop in H2. apply IH in H3. subst. reflexivity.
  - inversion H; subst. rewrite gty_eqb_refl, Bool.eqb_reflx. simpl. apply IH. reflexivity.
Qed.

(* how many leaves of a type satisfy [what], an array of n counting n times its element: the
   measure in which [signature_counts] (Props.v) is stated *)
Fixpoint leaves (what : gty -> bool) (t : gty) : nat :=
  match t with
  | GArr e n => n * leaves what e
  | GTuple ts => fold_right (fun x acc => leaves what x + acc) 0 ts
  | _ => if what t then 1 else 0
  end.
Definition is_bool (t : gty) := match t with GBool => true | _ => false end.
Definition is_qubit (t : gty) := match t with GQubit => true | _ => false end.
Definition is_angle (t : gty) := match t with GAngle => true | _ => false end.
Definition leaves_in (what : gty -> bool) (ts : list gty) : nat := fold_right (fun x acc => leaves what x + acc) 0 ts.

Lemma leaves_row : forall what ts,
  what GNone = false -> leaves what (row_to_type ts) = leaves_in what ts.
Proof.
  intros what ts N. destruct ts as [|a [|b r]]; simpl.
  - rewrite N. reflexivity.
  - rewrite Nat.add_0_r. reflexivity.
  - reflexivity.
Qed.

Lemma leaves_in_app : forall what a b, leaves_in what (a ++ b) = leaves_in what a + leaves_in what b.
Proof. induction a; simpl; intros; [reflexivity|]. rewrite IHa. lia. Qed.
Lemma leaves_in_arr : forall what e l, leaves_in what (map (fun s => GArr e s) l) = sum l * leaves what e.
Proof. induction l; simpl; [reflexivity|]. rewrite IHl. rewrite Nat.mul_add_distr_r. reflexivity. Qed.
Lemma leaves_in_repeat : forall what t n, leaves_in what (repeat t n) = n * leaves what t.
Proof. induction n; simpl; [reflexivity|]. rewrite IHn. reflexivity. Qed.
Lemma map_fst_repeat : forall (t : gty) (f : bool) n, map fst (repeat (t, f) n) = repeat t n.
Proof. induction n; simpl; [reflexivity|]. rewrite IHn. reflexivity. Qed.

