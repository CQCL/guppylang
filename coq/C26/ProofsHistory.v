(** C26 — lemmas about the loader state machine (History.v) for the generated GenState.v. *)
From Coq Require Import List ZArith.
From V.C26 Require Import Model History GenState.
Import ListNotations.

Lemma circ_eta : forall c, mkCirc (q_regs c) (c_regs c) (meta c) = c.
Proof. destruct c; reflexivity. Qed.

Lemma result_of_same : forall arrays c,
  result_of arrays c c = mkResult (sig_of arrays (k_circ c)) (call_args arrays (k_circ c)) (outputs arrays (k_circ c)) c.
Proof. intros. unfold result_of. rewrite circ_eta. reflexivity. Qed.

Lemma compile_current : forall st n o arrays cur,
  dget (l_defs st) n = Some (o, arrays) -> hget (l_heap st) o = Some cur ->
  step gen_cached st (HCompile n) = (st, Some (result_of arrays cur cur)).
Proof. intros st n o arrays cur D H. unfold step, gen_cached. rewrite D, H. reflexivity. Qed.

(* the memoising variant of the machine really is different: a stale history *)
Definition c1 := mkContents (mkCirc [2] [] []) [1; 2]%Z.
Definition c2 := mkContents (mkCirc [2] [] []) [1; 2; 3; 4]%Z.
Definition stale_history := [HSet 0 c1; HLoad 0 0 false; HCompile 0; HSet 0 c2; HLoad 1 0 false; HCompile 1].
