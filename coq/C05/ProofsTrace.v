(** C05 part 1 — call traces: lift-free expressions call each call site once, left to right,
    arguments before the call; computed refutations lift to every fuel. *)
From Coq Require Import List PeanoNat.
From V.C03 Require Import PyAst PySem CfgSem Builder Witness ProofsRefute ProofsSim.
From V.C05 Require Import ModelTrace.

Section Eval.
Variable oracle : trace -> nat -> list val -> val.

(* by induction on the evaluation rules of C03 ([Eval], ProofsSim.v) *)
Lemma calls_all :
  (forall e st v st', Eval oracle e st v st' -> lift_free e = true -> fns st' = fns st ++ calls e) /\
  (forall es st vs st', EvalL oracle es st vs st' -> lift_free_list es = true -> fns st' = fns st ++ calls_list es) /\
  (forall vl t st v st', EvalC oracle vl t st v st' ->
     match t with CLast _ r => lift_free r | CMore _ _ _ => false end = true -> fns st' = fns st ++ calls_ctail t).
Proof.
  apply Eval_mutind; simpl; try discriminate; auto using app_nil_r.
  - intros op a b st va s1 vb s2 r _ IHa _ IHb _ F. apply andb_prop in F. rewrite IHb, IHa, app_assoc; tauto.
  - intros l rest st vl s1 v s2 _ IHl _ IHr F. destruct rest as [op r|op m rest']; [|discriminate].
    apply andb_prop in F. rewrite IHr, IHl, app_assoc; tauto.
  - intros f args st vs s1 _ IH F. unfold fns. simpl. rewrite map_app. simpl. fold (fns s1).
    rewrite (IH F), app_assoc. reflexivity.
  - intros e r st v s1 vs s2 _ IHe _ IHr F. apply andb_prop in F. rewrite IHr, IHe, app_assoc; tauto.
Qed.

Lemma calls_expr : forall e st v st', lift_free e = true -> eval oracle e st = Done (v, st') ->
  fns st' = fns st ++ calls e.
Proof. intros e st v st' F H. exact (proj1 calls_all e st v st' (eval_Eval oracle e st v st' H) F). Qed.

Lemma calls_args : forall es st vs st', lift_free_list es = true -> eval_list oracle es st = Done (vs, st') ->
  fns st' = fns st ++ calls_list es.
Proof.
  intros es st vs st' F H. exact (proj1 (proj2 calls_all) es st vs st' (proj1 (proj2 (eval_Eval_all oracle)) _ _ _ _ H) F).
Qed.
End Eval.

Lemma nats_eqb_eq : forall a b, nats_eqb a b = true <-> a = b.
Proof. intros. unfold nats_eqb. destruct (list_eq_dec Nat.eq_dec a b); split; congruence. Qed.

Lemma trace_refutes_b_sound : forall p, trace_refutes_b p = true -> trace_refutes p.
Proof.
  unfold trace_refutes_b, trace_refutes. intros p H.
  destruct (build p true) as [g s|] eqn:B; [|discriminate].
  destruct (exec_py test_oracle 50 p st0) as [rp| |] eqn:E; try discriminate.
  destruct (run_cfg test_oracle g 500 st0) as [rc| |] eqn:R; try discriminate.
  exists g, s, rp. repeat split; auto.
  intros fuel rc' R' Heq.
  assert (rc' = rc) by (eapply run_done_unique; eauto). subst rc'.
  unfold called in Heq. destruct rc as [vc stc], rp as [vp stp]. simpl in *.
  inversion Heq as [Heq']. apply nats_eqb_eq in Heq'. rewrite Heq' in H. discriminate.
Qed.
