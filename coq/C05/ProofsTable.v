(** C05 — list lemmas for the order-edge proof, and facts about node tables: the ancestor path
    of the specification's [proj], and what a table shares with its extensions. *)
From Coq Require Import List Bool Arith Lia.
From V.C05 Require Import ModelOrderEdges.
Import ListNotations.

Definition last_opt (l : list nat) : option nat :=
  match rev l with [] => None | x :: _ => Some x end.

Lemma last_opt_snoc : forall l x, last_opt (l ++ [x]) = Some x.
Proof. intros. unfold last_opt. rewrite rev_app_distr. reflexivity. Qed.

Lemma last_opt_nil_inv : forall l, last_opt l = None -> l = [].
Proof.
  intros l H. unfold last_opt in H. destruct (rev l) eqn:E; [|discriminate].
  rewrite <- (rev_involutive l), E. reflexivity.
Qed.

Lemma last_opt_in : forall l x, last_opt l = Some x -> In x l.
Proof.
  intros l x H. unfold last_opt in H. destruct (rev l) eqn:E; [discriminate|]. inversion H; subst.
  apply in_rev. rewrite E. left; reflexivity.
Qed.

Lemma last_opt_split : forall l x, last_opt l = Some x -> exists l', l = l' ++ [x].
Proof.
  intros l x H. unfold last_opt in H. destruct (rev l) eqn:E; [discriminate|]. inversion H; subst.
  exists (rev l0). rewrite <- (rev_involutive l), E. reflexivity.
Qed.

Lemma mem_In : forall x l, mem x l = true <-> In x l.
Proof.
  induction l; simpl; [split; [discriminate|tauto]|].
  rewrite orb_true_iff, Nat.eqb_eq, IHl. split; intros [H|H]; auto.
Qed.

Lemma mem_false : forall x l, mem x l = false <-> ~ In x l.
Proof. intros. rewrite <- mem_In. destruct (mem x l); split; congruence. Qed.

Lemma nfa_snoc : forall l seen c,
  nodup_first_acc seen (l ++ [c]) =
  nodup_first_acc seen l ++ (if mem c seen || mem c l then [] else [c]).
Proof.
  induction l as [|x r IH]; intros seen c; simpl.
  - rewrite orb_false_r. destruct (mem c seen); reflexivity.
  - destruct (mem x seen) eqn:M.
    + rewrite IH. f_equal.
      destruct (Nat.eqb c x) eqn:E; simpl; auto.
      apply Nat.eqb_eq in E. subst. rewrite M. reflexivity.
    + simpl. rewrite IH. f_equal. simpl.
      destruct (Nat.eqb c x); simpl; auto. rewrite orb_true_r. reflexivity.
Qed.

Lemma nf_snoc_in : forall l c, In c l -> nodup_first (l ++ [c]) = nodup_first l.
Proof.
  intros. unfold nodup_first. rewrite nfa_snoc. simpl.
  apply mem_In in H. rewrite H. apply app_nil_r.
Qed.

Lemma nf_snoc_notin : forall l c, ~ In c l -> nodup_first (l ++ [c]) = nodup_first l ++ [c].
Proof.
  intros. unfold nodup_first. rewrite nfa_snoc. simpl.
  apply mem_false in H. rewrite H. reflexivity.
Qed.

Lemma nf_app_in : forall l2 l1, (forall a, In a l2 -> In a l1) -> nodup_first (l1 ++ l2) = nodup_first l1.
Proof.
  induction l2 as [|a r IH]; intros l1 H.
  - rewrite app_nil_r. reflexivity.
  - change (l1 ++ a :: r) with (l1 ++ [a] ++ r). rewrite app_assoc.
    rewrite IH.
    + apply nf_snoc_in. apply H. left; reflexivity.
    + intros b Hb. apply in_or_app. left. apply H. right. exact Hb.
Qed.

Lemma nfa_spec : forall l seen a, In a (nodup_first_acc seen l) <-> In a l /\ ~ In a seen.
Proof.
  induction l as [|x r IH]; intros seen a; simpl; [tauto|].
  destruct (mem x seen) eqn:M.
  - rewrite IH. apply mem_In in M. split; [tauto|]. intros [[->|H] N]; [contradiction|tauto].
  - apply mem_false in M. simpl. rewrite IH. simpl. split.
    + intros [->|[H N]]; [tauto|tauto].
    + intros [[->|H] N]; [tauto|]. destruct (Nat.eq_dec x a); [tauto|]. right. split; auto. intros [E|E]; tauto.
Qed.

Lemma nf_in : forall l a, In a (nodup_first l) <-> In a l.
Proof. intros. unfold nodup_first. rewrite nfa_spec. simpl. tauto. Qed.

Lemma nfa_nodup : forall l seen, NoDup (nodup_first_acc seen l).
Proof.
  induction l as [|x r IH]; intros seen; simpl; [constructor|].
  destruct (mem x seen); auto. constructor; auto. rewrite nfa_spec. simpl. tauto.
Qed.

Lemma nf_nil_inv : forall l, nodup_first l = [] -> l = [].
Proof. destruct l; auto. unfold nodup_first. simpl. discriminate. Qed.

(** discipline as a proposition, in the chain's terms: a child that had an event before ends the chain so far *)
Definition Disc (l : list nat) : Prop :=
  forall l' c r, l = l' ++ c :: r -> In c l' -> last_opt (nodup_first l') = Some c.

Lemma Disc_nil : Disc [].
Proof. intros l' c r E. destruct l'; discriminate. Qed.

Lemma pairs_snoc : forall l a x, pairs ((l ++ [a]) ++ [x]) = pairs (l ++ [a]) ++ [(a, x)].
Proof.
  induction l as [|b r IH]; intros a x; simpl; [reflexivity|].
  destruct r as [|c r']; simpl in *.
  - reflexivity.
  - rewrite IH. reflexivity.
Qed.

Lemma pairs_cons_snoc : forall i ch q x, last_opt ch = Some q ->
  pairs (i :: ch ++ [x]) = pairs (i :: ch) ++ [(q, x)].
Proof.
  intros i ch q x H. destruct (last_opt_split _ _ H) as [l' ->].
  change (i :: (l' ++ [q]) ++ [x]) with (((i :: l') ++ [q]) ++ [x]).
  rewrite pairs_snoc. reflexivity.
Qed.

(* [discb_acc] compares with the latest event; while the discipline holds that is the last of the chain *)
Lemma discb_acc_sound : forall l pre seen lst,
  (forall x, In x seen <-> In x pre) -> lst = last_opt (nodup_first pre) ->
  discb_acc seen lst l = true ->
  forall l' c r, l = l' ++ c :: r -> In c (pre ++ l') -> last_opt (nodup_first (pre ++ l')) = Some c.
Proof.
  induction l as [|a t IH]; intros pre seen lst Hs Hl Hb l' c r E Hin; [destruct l'; discriminate|].
  simpl in Hb. apply andb_prop in Hb. destruct Hb as [Hb1 Hb2].
  assert (F : In a pre -> last_opt (nodup_first pre) = Some a).
  { intros Ha. apply Hs, mem_In in Ha. rewrite Ha, Hl in Hb1.
    destruct (last_opt (nodup_first pre)) as [q|]; [|discriminate]. apply Nat.eqb_eq in Hb1. now subst. }
  destruct l' as [|b l'']; inversion E; subst.
  - rewrite app_nil_r in *. auto.
  - replace (pre ++ b :: l'') with ((pre ++ [b]) ++ l'') in * by (now rewrite <- app_assoc).
    apply (IH (pre ++ [b]) (b :: seen) (Some b)) with (r := r); auto.
    + intros x. simpl. rewrite in_app_iff, Hs. simpl. tauto.
    + destruct (in_dec Nat.eq_dec b pre) as [Ha|Ha].
      * now rewrite nf_snoc_in, F.
      * now rewrite nf_snoc_notin, last_opt_snoc.
Qed.

Lemma discb_sound : forall l, discb l = true -> Disc l.
Proof.
  intros l H l' c r E Hin.
  apply (discb_acc_sound l [] [] None) with (r := r); auto.
  intros x; tauto.
Qed.

Definition parents_lt (ns : list node) : Prop :=
  forall i x, nth_error ns i = Some x -> i <> 0 -> n_parent x < i.

Definition WF (ns : list node) : Prop :=
  parents_lt ns /\
  (forall i x, nth_error ns i = Some x -> n_eff x = true -> n_kind x <> KInput) /\
  (forall i p, parent_of ns i = Some p -> kind_of ns p <> Some KInput).

(** The specification's [proj] is the ancestor path of [m] read for one region.  Parents precede
    children, so the fuel [S m] of [event_of] never runs out: *)
Lemma proj_fuel : forall ns, parents_lt ns -> forall f g p m, m < f -> m < g -> proj f ns p m = proj g ns p m.
Proof.
  intros ns PL. induction f as [|f IH]; intros g p m Hf Hg; [lia|].
  destruct g as [|g]; [lia|]. simpl.
  destruct (Nat.eqb_spec m 0) as [|M0]; auto.
  destruct (nth_error ns m) as [nd|] eqn:NX; auto.
  pose proof (PL m nd NX M0) as LT.
  destruct (Nat.eqb (n_parent nd) p); auto.
  destruct (kind_of ns (n_parent nd)) as [k|]; auto.
  destruct k; auto; apply IH; lia.
Qed.

Lemma proj_in : forall ns, parents_lt ns -> forall f p m c, proj f ns p m = Some c ->
  parent_of ns c = Some p /\ p < m.
Proof.
  intros ns PL. induction f as [|f IH]; intros p m c H; simpl in H; [discriminate|].
  destruct (Nat.eqb_spec m 0) as [|M0]; [discriminate|].
  destruct (nth_error ns m) as [nd|] eqn:NX; [|discriminate].
  pose proof (PL m nd NX M0) as LT.
  destruct (Nat.eqb_spec (n_parent nd) p) as [<-|NE].
  - inversion H; subst c. unfold parent_of. now rewrite NX.
  - destruct (kind_of ns (n_parent nd)) as [k|]; [|discriminate].
    destruct k; try discriminate; apply IH in H; split; try tauto; lia.
Qed.

Lemma proj_trans : forall ns, parents_lt ns -> forall f m r c0 p c, m < f ->
  proj f ns r m = Some c0 -> kind_of ns r <> Some KFuncDefn ->
  proj (S r) ns p r = Some c -> proj f ns p m = Some c.
Proof.
  intros ns PL. induction f as [|f IH]; intros m r c0 p c MF H KF Hr; [lia|].
  destruct (proj_in ns PL _ _ _ _ Hr) as [_ PR].
  simpl in H |- *. destruct (Nat.eqb_spec m 0) as [|M0]; [discriminate|].
  destruct (nth_error ns m) as [nd|] eqn:NX; [|discriminate].
  pose proof (PL m nd NX M0) as LT.
  destruct (Nat.eqb_spec (n_parent nd) r) as [E|NE].
  - rewrite E in *. destruct (Nat.eqb_spec r p); [lia|].
    rewrite <- (proj_fuel ns PL (S r) f) by lia.
    destruct (kind_of ns r) as [k|] eqn:K; [destruct k; congruence|].
    simpl in Hr. unfold kind_of in K. destruct (Nat.eqb r 0); [discriminate|].
    destruct (nth_error ns r); discriminate.
  - destruct (kind_of ns (n_parent nd)) as [k|]; [|discriminate].
    assert (H' : proj f ns r (n_parent nd) = Some c0) by (destruct k; auto; discriminate).
    destruct (proj_in ns PL _ _ _ _ H') as [_ RQ].
    destruct (Nat.eqb_spec (n_parent nd) p); [lia|].
    rewrite (IH (n_parent nd) r c0 p c) by (auto; lia). destruct k; auto; discriminate.
Qed.

Lemma event_of_in : forall ns p m c, In c (event_of ns p m) <-> proj (S m) ns p m = Some c.
Proof.
  intros. unfold event_of. destruct (proj (S m) ns p m); simpl; [|split; [tauto|discriminate]].
  split; [intros [->|[]]; reflexivity|intros E; inversion E; now left].
Qed.

Lemma event_self : forall ns p, parents_lt ns -> event_of ns p p = [].
Proof.
  intros ns p PL. destruct (event_of ns p p) as [|c l] eqn:E; [reflexivity|].
  assert (H : In c (event_of ns p p)) by (rewrite E; now left).
  apply event_of_in, (proj_in ns PL) in H. lia.
Qed.

Lemma event_step : forall ns x p, parents_lt ns -> x <> 0 -> parent_of ns x = Some p ->
  forall p', event_of ns p' x =
    if Nat.eqb p p' then [x] else
    match kind_of ns p with
    | Some k => if kind_eqb k KFuncDefn then [] else event_of ns p' p
    | None => [] end.
Proof.
  intros ns x p PL X0 PX p'. unfold parent_of in PX.
  destruct (nth_error ns x) as [nd|] eqn:NX; inversion PX. subst p.
  pose proof (PL x nd NX X0) as LT. apply Nat.eqb_neq in X0.
  unfold event_of at 1. simpl. rewrite X0, NX.
  destruct (Nat.eqb (n_parent nd) p'); [reflexivity|].
  destruct (kind_of ns (n_parent nd)) as [k|]; [|reflexivity].
  unfold event_of. rewrite (proj_fuel ns PL x (S (n_parent nd))) by lia. now destruct k.
Qed.

Lemma nth_in_range : forall (ns : list node) i x, nth_error ns i = Some x -> i < length ns.
Proof. intros. apply nth_error_Some. congruence. Qed.

Lemma nth_prefix : forall (ns tl : list node) i x, nth_error ns i = Some x -> nth_error (ns ++ tl) i = Some x.
Proof. intros ns tl i x H. rewrite nth_error_app1; [exact H|]. eapply nth_in_range; eauto. Qed.
Lemma parent_prefix : forall ns tl x p, parent_of ns x = Some p -> parent_of (ns ++ tl) x = Some p.
Proof.
  intros ns tl x p H. unfold parent_of in *. destruct (nth_error ns x) eqn:NX; [|discriminate].
  now rewrite (nth_prefix _ tl _ _ NX).
Qed.
Lemma kind_prefix : forall ns tl x k, kind_of ns x = Some k -> kind_of (ns ++ tl) x = Some k.
Proof.
  intros ns tl x k H. unfold kind_of in *. destruct (nth_error ns x) eqn:NX; [|discriminate].
  now rewrite (nth_prefix _ tl _ _ NX).
Qed.

Lemma children_prefix : forall ns tl p,
  children (ns ++ tl) p = children ns p ++ filter (is_child (ns ++ tl) p) (seq (length ns) (length tl)).
Proof.
  intros. unfold children. rewrite app_length, seq_app, filter_app. f_equal.
  apply filter_ext_in. intros a Ha. apply in_seq in Ha. unfold is_child. now rewrite nth_error_app1 by lia.
Qed.

Lemma children_in : forall ns p c, In c (children ns p) -> parent_of ns c = Some p /\ c <> 0.
Proof.
  intros ns p c H. unfold children in H. apply filter_In in H. destruct H as [_ H2].
  unfold is_child in H2. unfold parent_of.
  destruct (nth_error ns c); [|discriminate]. apply andb_prop in H2. destruct H2 as [A B].
  apply Nat.eqb_eq in A. apply negb_true_iff in B. apply Nat.eqb_neq in B. subst. split; auto.
Qed.

Lemma child_with_kind_spec : forall ns p idx k c, child_with_kind ns p idx k = Some c ->
  parent_of ns c = Some p /\ c <> 0 /\ kind_of ns c = Some k.
Proof.
  intros ns p idx k c H. unfold child_with_kind in H.
  destruct (nth_error (children ns p) idx) as [c'|] eqn:E; [|discriminate].
  destruct (kind_of ns c') as [k'|] eqn:K; [|discriminate].
  destruct (kind_eqb k k') eqn:KE; [|discriminate]. inversion H; subst.
  apply nth_error_In in E. apply children_in in E. destruct E as (A & B).
  repeat split; auto. rewrite K. f_equal. destruct k, k'; simpl in KE; congruence.
Qed.

Lemma child_with_kind_prefix : forall ns tl p idx k c, child_with_kind ns p idx k = Some c ->
  child_with_kind (ns ++ tl) p idx k = Some c.
Proof.
  intros ns tl p idx k c H. unfold child_with_kind in *. rewrite children_prefix.
  destruct (nth_error (children ns p) idx) as [c'|] eqn:E; [|discriminate].
  rewrite nth_error_app1 by (apply nth_error_Some; congruence). rewrite E.
  destruct (kind_of ns c') as [k'|] eqn:K; [|discriminate]. now rewrite (kind_prefix _ tl _ _ K).
Qed.
