(** C05 — the order edges inserted by the model of [track_hugr_side_effects] form, in every
    region, the chain Input -> side-effecting children in order of first effect -> Output. *)
From Coq Require Import List Bool Arith Lia.
From V.C05 Require Import ModelOrderEdges ModelRun ProofsTable.
Import ListNotations.

(* the regions whose children [handle] links: every parent that is not a Conditional/CFG *)
Definition linkable (ns : list node) (p : nat) : bool :=
  match kind_of ns p with Some k => negb (kind_eqb k KCond) | None => false end.

(* the Input node of region [p]; the default is never read: where [INV] writes [inp] either the chain is empty and
   [pairs] of a one-element list is [], or its third conjunct gives [input_of] *)
Definition inp (ns : list node) (p : nat) : nat := match input_of ns p with Some i => i | None => 0 end.

Definition tgt (ns : list node) (p : nat) (e : nat * nat) : bool :=
  match parent_of ns (snd e) with
  | Some q => Nat.eqb q p && negb (Nat.eqb (snd e) 0)
  | None => false
  end.

(** the order edges of [s] into region [p] of the table [N], oldest first *)
Definition redges (N : list node) (s : st) (p : nat) : list (nat * nat) := filter (tgt N p) (rev (edges s)).

Lemma region_edges_redges : forall s p, region_edges s p = redges (nodes s) s p.
Proof. reflexivity. Qed.

Lemma kind_eqb_eq : forall a b, kind_eqb a b = true <-> a = b.
Proof. destruct a, b; simpl; split; congruence. Qed.

(** where the next order edge into region [p] starts *)
Definition src (N : list node) (s : st) (p : nat) : option nat :=
  match lookup p (prev s) with Some q => Some q | None => input_of N p end.

(** [handle] read as a relation, one rule per way the Python function returns.  It reads the table [N]
    it is given, not the state's own: [handle] looks at [x] and its ancestors only, so a run of [handle]
    is a [Handle] on every extension of the state's table ([handle_Handle]), and a whole tracking
    context can be followed on its final table. *)
Inductive Handle (N : list node) : nat -> st -> st -> Prop :=
| H_stop : forall x s p q, x <> 0 -> parent_of N x = Some p ->
    (lookup p (prev s) = None -> kind_of N p = Some KFuncDefn) ->
    src N s p = Some q -> Handle N x s (link q x p s)
| H_up : forall x s p k s1 s', x <> 0 -> parent_of N x = Some p ->
    lookup p (prev s) = None -> kind_of N p = Some k -> k <> KFuncDefn ->
    Handle N p s s1 ->
    (if kind_eqb k KCond then s' = s1 else exists i, input_of N p = Some i /\ s' = link i x p s1) ->
    Handle N x s s'.

Lemma nodes_link : forall q x p s, nodes (link q x p s) = nodes s.
Proof. intros. unfold link. destruct (Nat.eqb q x); reflexivity. Qed.

Lemma handle_Handle : forall f x s s', handle f x s = Some s' ->
  nodes s' = nodes s /\ forall tl, Handle (nodes s ++ tl) x s s'.
Proof.
  induction f as [|f IH]; intros x s s' H; [discriminate|]. simpl in H.
  destruct (Nat.eqb_spec x 0) as [|X0]; [discriminate|].
  destruct (parent_of (nodes s) x) as [p|] eqn:PX; [|discriminate].
  destruct (lookup p (prev s)) as [q|] eqn:LK.
  { inversion H. split; [apply nodes_link|]. intros tl.
    apply H_stop; auto using parent_prefix; [congruence|]. unfold src. now rewrite LK. }
  destruct (kind_of (nodes s) p) as [k|] eqn:K; [|discriminate].
  destruct (kind_eqb k KFuncDefn) eqn:KF.
  - destruct k; try discriminate. unfold link_from_input in H.
    destruct (input_of (nodes s) p) as [i|] eqn:IN; inversion H. split; [apply nodes_link|]. intros tl.
    apply H_stop; auto using parent_prefix, kind_prefix. unfold src. rewrite LK. now apply child_with_kind_prefix.
  - destruct (handle f p s) as [s1|] eqn:HP; [|destruct k; discriminate].
    destruct (IH _ _ _ HP) as [N1 H1].
    assert (KN : k <> KFuncDefn) by (intros ->; discriminate).
    destruct (kind_eqb k KCond) eqn:KC.
    + assert (s' = s1) by (destruct k; try discriminate; now inversion H). subst s'. split; auto. intros tl.
      apply (H_up _ x s p k s1); auto using parent_prefix, kind_prefix. now rewrite KC.
    + assert (H' : link_from_input x p s1 = Some s') by (destruct k; auto; discriminate).
      unfold link_from_input in H'. rewrite N1 in H'.
      destruct (input_of (nodes s) p) as [i|] eqn:IN; inversion H'. split; [now rewrite nodes_link|]. intros tl.
      apply (H_up _ x s p k s1); auto using parent_prefix, kind_prefix. rewrite KC.
      exists i. split; auto. now apply child_with_kind_prefix.
Qed.

(** [Ev p] lists, with repetitions, the children of [p] below which a side effect has been added so
    far; [old p] are the order edges region [p] had when the context started. *)
Section Inv.
Variables (old : nat -> list (nat * nat)) (N : list node).

Definition INV (s : st) (Ev : nat -> list nat) : Prop :=
  forall p,
    (linkable N p = false -> lookup p (prev s) = None) /\
    (linkable N p = true ->
       lookup p (prev s) = last_opt (nodup_first (Ev p)) /\
       redges N s p = old p ++ pairs (inp N p :: nodup_first (Ev p)) /\
       (nodup_first (Ev p) <> [] -> input_of N p <> None)).

(* coherence: a region [r] that has events and is not a function definition is passed on, i.e. the child of [p]
   that [r] lies below is among the events of [p], for every [p]; true of the events of a table ([events_range_coh]) *)
Definition Coh (Ev : nat -> list nat) : Prop :=
  forall r, Ev r <> [] -> kind_of N r <> Some KFuncDefn ->
    forall p c, In c (event_of N p r) -> In c (Ev p).

Lemma INV_ext_at : forall s Ev Ev', INV s Ev ->
  (forall p, linkable N p = true -> nodup_first (Ev p) = nodup_first (Ev' p)) -> INV s Ev'.
Proof.
  intros s Ev Ev' I H p. destruct (I p) as [A B]. split; auto.
  intros L. rewrite <- (H p L). auto.
Qed.

Lemma link_self : forall x p s, link x x p s = s.
Proof. intros. unfold link. now rewrite Nat.eqb_refl. Qed.

Lemma link_here : forall q x p s, q <> x -> parent_of N x = Some p -> x <> 0 ->
  lookup p (prev (link q x p s)) = Some x /\ redges N (link q x p s) p = redges N s p ++ [(q, x)].
Proof.
  intros q x p s QX PX X0. unfold link, redges. apply Nat.eqb_neq in QX, X0. rewrite QX. simpl.
  rewrite Nat.eqb_refl, filter_app. simpl. unfold tgt at 2. simpl. now rewrite PX, Nat.eqb_refl, X0.
Qed.

Lemma link_elsewhere : forall q x p s p', p' <> p -> parent_of N x = Some p ->
  lookup p' (prev (link q x p s)) = lookup p' (prev s) /\ redges N (link q x p s) p' = redges N s p'.
Proof.
  intros q x p s p' NE PX. unfold link, redges. destruct (Nat.eqb q x); [auto|]. simpl.
  apply Nat.eqb_neq in NE. rewrite Nat.eqb_sym, NE, filter_app. simpl. unfold tgt at 2. simpl.
  rewrite PX, Nat.eqb_sym, NE. simpl. now rewrite app_nil_r.
Qed.

(* the last hypothesis: [INV] reads the events of a region through [nodup_first] only *)
Lemma inv_link : forall s Ev Ev' p x q,
  INV s Ev -> parent_of N x = Some p -> x <> 0 -> kind_of N x <> Some KInput ->
  linkable N p = true -> src N s p = Some q ->
  (In x (Ev p) -> last_opt (nodup_first (Ev p)) = Some x) ->
  Ev' p = Ev p ++ [x] ->
  (forall p', p' <> p -> nodup_first (Ev' p') = nodup_first (Ev p')) ->
  INV (link q x p s) Ev'.
Proof.
  intros s Ev Ev' p x q I PX X0 KX L SRC D EP EO p'.
  destruct (Nat.eq_dec p' p) as [->|NE].
  - rewrite EP. destruct (I p) as [_ B]. destruct (B L) as (B1 & B2 & B3).
    split; [intros; congruence|]. intros _.
    unfold src in SRC. destruct (lookup p (prev s)) as [q0|] eqn:LK.
    + inversion SRC; subst q0.
      assert (NEm : nodup_first (Ev p) <> []) by (intros E; rewrite E in B1; discriminate).
      destruct (Nat.eq_dec q x) as [->|QX].
      * (* [x] is the entry, so seen before, and [link] adds nothing *)
        assert (In x (Ev p)) by (apply nf_in, last_opt_in; auto).
        rewrite link_self, nf_snoc_in, LK by auto. repeat split; auto.
      * (* new to the region: by discipline a child seen before would be the entry *)
        assert (NI : ~ In x (Ev p)) by (intros Hin; apply D in Hin; congruence).
        destruct (link_here q x p s QX PX X0) as [-> ->].
        rewrite nf_snoc_notin, last_opt_snoc, B2, <- app_assoc by auto.
        repeat split; auto. f_equal. symmetry. now apply pairs_cons_snoc.
    + (* the first event of the region is linked from its Input *)
      symmetry in B1. apply last_opt_nil_inv, nf_nil_inv in B1. rewrite B1 in *.
      assert (QX : q <> x).
      { intros ->. apply child_with_kind_spec in SRC. now destruct SRC as (_ & _ & KI). }
      destruct (link_here q x p s QX PX X0) as [-> ->]. rewrite B2, <- app_assoc.
      unfold inp. rewrite SRC. repeat split; auto. congruence.
  - destruct (I p') as [A B]. destruct (link_elsewhere q x p s p' NE PX) as [-> ->].
    split; auto. intros L'. rewrite (EO p' NE). exact (B L').
Qed.

(** The recursion of [handle] stops at the first region that has a [prev] entry; by coherence ([Coh])
    the regions further up have the event already, so their chains do not change.  Discipline is needed
    only where a link is made, and in one form: a child that had an event before ends its region's chain. *)
Lemma handle_inv : forall x s s', Handle N x s s' -> forall Ev,
  parents_lt N ->
  (forall i p, parent_of N i = Some p -> kind_of N p <> Some KInput) ->
  kind_of N x <> Some KInput ->
  INV s Ev -> Coh Ev ->
  (forall p c, linkable N p = true -> event_of N p x = [c] -> In c (Ev p) ->
     last_opt (nodup_first (Ev p)) = Some c) ->
  INV s' (fun p => Ev p ++ event_of N p x).
Proof.
  induction 1 as [x s p q X0 PX ST SRC|x s p k s1 s' X0 PX LK K KF HP IH H];
    intros Ev PL NI KX I C HD;
    pose proof (event_step _ _ _ PL X0 PX) as ES;
    assert (EX : event_of N p x = [x]) by (now rewrite ES, Nat.eqb_refl).
  - assert (L : linkable N p = true).
    { destruct (linkable N p) eqn:L; auto. destruct (I p) as [A _]. specialize (ST (A L)).
      unfold linkable in L. rewrite ST in L. discriminate. }
    apply (inv_link s Ev _ p x q I PX X0 KX L SRC (HD p x L EX)); [now rewrite EX|].
    intros p' NE. apply nf_app_in. intros c Hc. apply Nat.eqb_neq in NE. rewrite ES, Nat.eqb_sym, NE in Hc.
    destruct (kind_of N p) as [k|] eqn:K; [|destruct Hc].
    destruct (kind_eqb k KFuncDefn) eqn:KF; [destruct Hc|].
    apply (C p); [| |exact Hc].
    + intros Z. destruct (I p) as [_ B]. destruct (B L) as (B1 & _ & _). rewrite Z in B1.
      specialize (ST B1). inversion ST; subst. discriminate KF.
    + intros E. rewrite K in E. inversion E; subst. discriminate KF.
  - assert (KFb : kind_eqb k KFuncDefn = false) by (destruct k; auto; congruence).
    assert (UP : forall p', p' <> p -> event_of N p' x = event_of N p' p).
    { intros p' NE. apply Nat.eqb_neq in NE. now rewrite ES, K, KFb, Nat.eqb_sym, NE. }
    assert (I1 : INV s1 (fun p' => Ev p' ++ event_of N p' p)).
    { apply IH; auto; [exact (NI x p PX)|]. intros p' c L' E'.
      assert (p' <> p) by (intros ->; rewrite (event_self N p PL) in E'; discriminate).
      rewrite <- UP in E' by auto. now apply HD. }
    destruct (kind_eqb k KCond) eqn:KC.
    + (* [p] is not linkable, so [INV] does not look at its events *)
      subst s'. apply (INV_ext_at _ _ _ I1). intros p' L'. rewrite UP; auto.
      intros ->. unfold linkable in L'. rewrite K, KC in L'. discriminate.
    + destruct H as (i & IN & ->).
      assert (L : linkable N p = true) by (unfold linkable; now rewrite K, KC).
      assert (LK1 : lookup p (prev s1) = None).
      { destruct (I p) as [_ B]. destruct (B L) as (B1 & _ & _). rewrite LK in B1.
        symmetry in B1. apply last_opt_nil_inv, nf_nil_inv in B1.
        destruct (I1 p) as [_ B']. destruct (B' L) as (B1' & _ & _).
        now rewrite B1, event_self in B1'. }
      apply (inv_link s1 _ _ _ _ _ I1); auto; rewrite ?event_self, ?app_nil_r; auto.
      * unfold src. now rewrite LK1.
      * now rewrite EX.
      * intros p' NE. now rewrite UP.
Qed.

End Inv.

Lemma events_range_in : forall ns start len p c,
  In c (events_range ns p start len) <->
  exists m, start <= m < start + len /\ is_eff ns m = true /\ proj (S m) ns p m = Some c.
Proof.
  intros ns start len p c. unfold events_range, eff_leaves. rewrite in_flat_map.
  split; intros (m & Hm & Hc); exists m.
  - apply filter_In in Hm. rewrite in_seq in Hm. rewrite event_of_in in Hc. tauto.
  - rewrite filter_In, in_seq, event_of_in. tauto.
Qed.

Lemma events_range_app : forall ns p a l1 l2,
  events_range ns p a (l1 + l2) = events_range ns p a l1 ++ events_range ns p (a + l1) l2.
Proof. intros. unfold events_range, eff_leaves. now rewrite seq_app, filter_app, flat_map_app. Qed.

(** A region that has an event is itself (or, through a Conditional/CFG, its container is) an
    event of every region above it up to the function definition. *)
Lemma events_range_coh : forall ns start len, parents_lt ns ->
  Coh ns (fun p => events_range ns p start len).
Proof.
  intros ns start len PL r NE KF p c H. apply event_of_in in H.
  destruct (events_range ns r start len) as [|c0 l] eqn:E; [congruence|].
  assert (H0 : In c0 (events_range ns r start len)) by (rewrite E; now left).
  apply events_range_in in H0. destruct H0 as (m & R & EF & Hm).
  apply events_range_in. exists m. repeat split; try tauto.
  apply (proj_trans ns PL (S m) m r c0); auto.
Qed.

Section OneCtx.
Variables (s0 : st) (N : list node).
Let start := length (nodes s0).
Hypothesis WFN : WF N.
Hypothesis HD : forall p, linkable N p = true -> Disc (ctx_events N start p).

Definition upto (n p : nat) : list nat := events_range N p start (n - start).

Lemma upto_S : forall n p, start <= n ->
  upto (S n) p = upto n p ++ (if is_eff N n then event_of N p n else []).
Proof.
  intros n p LE. unfold upto. replace (S n - start) with ((n - start) + 1) by lia.
  rewrite events_range_app. replace (start + (n - start)) with n by lia.
  unfold events_range, eff_leaves. simpl. destruct (is_eff N n); simpl; now rewrite ?app_nil_r.
Qed.

Lemma upto_prefix : forall n p, start <= n <= length N ->
  exists X, ctx_events N start p = upto n p ++ X.
Proof.
  intros n p LE. unfold ctx_events, upto.
  replace (length N - start) with ((n - start) + (length N - n)) by lia.
  rewrite events_range_app. eauto.
Qed.

(* the loop invariant of [add_all]: [INV] read against [N], for the events of the nodes [s] holds so far *)
Definition G (s : st) : Prop :=
  start <= length (nodes s) /\ INV (region_edges s0) N s (upto (length (nodes s))).

Lemma linkable_range : forall ns p, linkable ns p = true -> p < length ns.
Proof.
  intros ns p H. unfold linkable, kind_of in H. destruct (nth_error ns p) eqn:NX; [|discriminate].
  eapply nth_in_range; eauto.
Qed.

Lemma add_nodes : forall i s s', add i s = Some s' ->
  nodes s' = nodes s ++ [mkNode (i_parent i) (i_kind i) (i_eff i)].
Proof.
  intros i s s' A. unfold add in A. destruct (Nat.ltb (i_parent i) (length (nodes s))); [|discriminate].
  destruct (i_eff i).
  - now apply handle_Handle in A.
  - now inversion A.
Qed.

Lemma add_step : forall i s s', G s -> add i s = Some s' -> (exists tl, N = nodes s' ++ tl) -> G s'.
Proof.
  intros i s s' (SL & I) A [tl HN]. destruct WFN as (PL & WFb & WFc).
  pose proof (add_nodes _ _ _ A) as N'. unfold add in A. set (n := length (nodes s)) in *.
  set (nd := mkNode (i_parent i) (i_kind i) (i_eff i)) in *.
  assert (LN : length (nodes s') = S n) by (rewrite N', app_length; simpl; lia).
  assert (NX : nth_error N n = Some nd).
  { rewrite HN, N'. apply nth_prefix. rewrite nth_error_app2, Nat.sub_diag; auto. }
  assert (EF : is_eff N n = i_eff i) by (unfold is_eff; now rewrite NX).
  split; [lia|]. rewrite LN.
  destruct (Nat.ltb (i_parent i) n); [|discriminate]. destruct (i_eff i) eqn:EFi.
  - apply handle_Handle in A. destruct A as [_ A]. specialize (A tl). simpl in A. rewrite <- N', <- HN in A.
    apply (INV_ext_at _ _ _ (fun p => upto n p ++ event_of N p n)); [|intros p _; now rewrite upto_S, EF].
    apply (handle_inv _ _ _ _ _ A); auto.
    + unfold kind_of. rewrite NX. intros K. inversion K. now apply (WFb n nd).
    + apply events_range_coh; auto.
    + intros p c L EC Hin. destruct (upto_prefix (S n) p) as [X HX]; [rewrite HN, app_length; lia|].
      apply (HD p L _ c X); [|exact Hin]. now rewrite HX, upto_S, EF, EC, <- app_assoc.
  - inversion A. apply (INV_ext_at _ _ _ (upto n)); [exact I|].
    intros p _. now rewrite upto_S, EF, app_nil_r.
Qed.

Lemma add_all_nodes : forall l s s', add_all l s = Some s' -> exists tl, nodes s' = nodes s ++ tl.
Proof.
  induction l as [|i r IH]; intros s s' A; simpl in A.
  - inversion A. exists []. now rewrite app_nil_r.
  - destruct (add i s) as [s1|] eqn:A1; [|discriminate].
    destruct (IH _ _ A) as [tl N2]. rewrite (add_nodes _ _ _ A1), <- app_assoc in N2. eauto.
Qed.

Lemma add_all_G : forall l s s', add_all l s = Some s' -> nodes s' = N -> G s -> G s'.
Proof.
  induction l as [|i r IH]; intros s s' A HN Gs; simpl in A.
  - now inversion A; subst.
  - destruct (add i s) as [s1|] eqn:A1; [|discriminate].
    destruct (add_all_nodes _ _ _ A) as [tl N1]. apply (IH s1 s'); auto.
    apply (add_step i s s1); auto. exists tl. congruence.
Qed.

Lemma filter_final_edge : forall ns pv p p' a, final_edge ns pv p' = Some a ->
  filter (tgt ns p) (rev a) = if Nat.eqb p' p then a else [].
Proof.
  intros ns pv p p' a H. unfold final_edge in H.
  destruct (lookup p' pv) as [last|]; [|inversion H; now destruct (Nat.eqb p' p)].
  destruct (output_of ns p') as [o|] eqn:O; [|discriminate].
  destruct (Nat.eqb last o); inversion H.
  apply child_with_kind_spec in O. destruct O as (PO & O0 & _). apply Nat.eqb_neq in O0.
  simpl. unfold tgt. simpl. rewrite PO, O0, andb_true_r. now destruct (Nat.eqb p' p).
Qed.

Lemma final_edges_filter : forall ns pv p ps es, final_edges ns pv ps = Some es -> NoDup ps ->
  filter (tgt ns p) (rev es) =
    (if mem p ps then match final_edge ns pv p with Some a => a | None => [] end else []) /\
  (In p ps -> final_edge ns pv p <> None).
Proof.
  induction ps as [|p' r IH]; intros es H ND; simpl in H.
  - inversion H. split; [reflexivity|intros []].
  - destruct (final_edge ns pv p') as [a|] eqn:FE; [|discriminate].
    destruct (final_edges ns pv r) as [b|] eqn:FR; [|discriminate]. inversion H; subst es.
    inversion ND as [|? ? NI ND']; subst. destruct (IH b eq_refl ND') as [IH1 IH2].
    rewrite rev_app_distr, filter_app, IH1, (filter_final_edge _ _ _ _ _ FE). simpl mem.
    rewrite (Nat.eqb_sym p p'). destruct (Nat.eqb_spec p' p) as [->|NE]; simpl.
    + rewrite FE. apply mem_false in NI. rewrite NI. split; [apply app_nil_r|discriminate].
    + split; [reflexivity|]. intros [E|Hin]; [congruence|auto].
Qed.

(* the earlier edges point into the old table, where [N] agrees with it *)
Lemma G_init : forall tl, N = nodes s0 ++ tl ->
  (forall a b, In (a, b) (edges s0) -> b < length (nodes s0)) ->
  G (mkSt (nodes s0) [] (edges s0)).
Proof.
  intros tl N0 HE0. split; [unfold start; simpl; lia|]. simpl.
  assert (E0 : forall q, upto start q = []) by (intros q; unfold upto; now rewrite Nat.sub_diag).
  intros q. rewrite E0. split; [reflexivity|]. intros _. split; [reflexivity|]. split; [|now intros []].
  simpl. rewrite app_nil_r, !region_edges_redges. simpl. apply filter_ext_in.
  intros [a b] Hab. apply in_rev, HE0 in Hab. unfold tgt, parent_of. simpl.
  now rewrite N0, nth_error_app1.
Qed.

Theorem order_edges_chain : forall l W,
  track s0 l = Some W -> nodes W = N ->
  (forall a b, In (a, b) (edges s0) -> b < length (nodes s0)) ->
  forall p, linkable N p = true ->
    region_edges W p = region_edges s0 p ++ expected_edges N start p.
Proof.
  intros l W T HN HE0 p L.
  unfold track in T. destruct (add_all l (mkSt (nodes s0) [] (edges s0))) as [s|] eqn:A; [|discriminate].
  unfold finish in T. destruct (final_edges (nodes s) (prev s) (seq 0 (length (nodes s)))) as [es|] eqn:F; [|discriminate].
  inversion T; subst W. simpl in HN.
  destruct (add_all_nodes _ _ _ A) as [tl N0]. simpl in N0. rewrite HN in N0.
  pose proof (G_init tl N0 HE0) as G0.
  destruct (add_all_G _ _ _ A HN G0) as (_ & I).
  destruct s as [ns pv eg]. simpl in *. subst ns.
  destruct (I p) as [_ B]. destruct (B L) as (B1 & B2 & B3).
  unfold upto in B1, B2, B3. fold (ctx_events N start p) in B1, B2, B3.
  unfold redges in B2. cbn [prev edges] in B1, B2.
  pose proof (linkable_range _ _ L) as PR.
  rewrite region_edges_redges. unfold redges. simpl. rewrite rev_app_distr, filter_app, B2, <- app_assoc. f_equal.
  assert (Hin : In p (seq 0 (length N))) by (apply in_seq; lia).
  destruct (final_edges_filter _ _ p _ _ F (seq_NoDup _ _)) as [FF FO].
  rewrite FF, (proj2 (mem_In p _) Hin). specialize (FO Hin). unfold final_edge in *. rewrite B1 in *.
  unfold expected_edges, ctx_chain.
  destruct (nodup_first (ctx_events N start p)) as [|c0 ch] eqn:CH; [reflexivity|].
  destruct (input_of N p) as [i|] eqn:IN; [|exfalso; apply B3; [discriminate|reflexivity]].
  destruct (last_opt (c0 :: ch)) as [q|] eqn:LQ; [|apply last_opt_nil_inv in LQ; discriminate].
  destruct (output_of N p) as [o|]; [|congruence]. destruct (Nat.eqb q o); [congruence|].
  unfold inp. rewrite IN. symmetry. now apply pairs_cons_snoc.
Qed.

End OneCtx.

(** The boolean hypotheses evaluated by the harness on every insertion log imply the
    propositions used above. *)
Lemma wf_nodes : forall ns, wf ns = true -> forall i x, nth_error ns i = Some x ->
     (Nat.eqb i 0 || Nat.ltb (n_parent x) i) = true /\
     (n_eff x && kind_eqb (n_kind x) KInput) = false /\
     is_container ns (n_parent x) = true.
Proof.
  intros ns H i x NX. unfold wf in H. rewrite forallb_forall in H.
  assert (In i (seq 0 (length ns))) by (apply in_seq; apply nth_in_range in NX; lia).
  apply H in H0. unfold wf_node in H0. rewrite NX in H0.
  apply andb_prop in H0. destruct H0 as [H0 C]. apply andb_prop in H0. destruct H0 as [A B].
  apply negb_true_iff in B. auto.
Qed.

Lemma wf_sound : forall ns, wf ns = true -> WF ns.
Proof.
  intros ns H. pose proof (wf_nodes ns H) as N.
  split; [|split].
  - intros i x NX I0. destruct (N i x NX) as (A & _ & _). apply orb_prop in A. destruct A as [A|A].
    + apply Nat.eqb_eq in A. contradiction.
    + apply Nat.ltb_lt in A. exact A.
  - intros i x NX EF K. destruct (N i x NX) as (_ & B & _). rewrite EF, K in B. discriminate.
  - intros i p PI K. unfold parent_of in PI. destruct (nth_error ns i) as [x|] eqn:NX; inversion PI. subst p.
    destruct (N i x NX) as (_ & _ & C). unfold is_container in C. rewrite K in C. discriminate.
Qed.

Lemma events_container : forall ns start p, wf ns = true -> ctx_events ns start p <> [] ->
  In p (containers ns).
Proof.
  intros ns start p H NE. destruct (wf_sound _ H) as (PL & _ & _).
  destruct (ctx_events ns start p) as [|c r] eqn:E; [congruence|].
  assert (Hc : In c (ctx_events ns start p)) by (rewrite E; now left).
  apply events_range_in in Hc. destruct Hc as (m & _ & _ & Hc).
  apply (proj_in ns PL) in Hc. destruct Hc as [PC _]. unfold parent_of in PC.
  destruct (nth_error ns c) as [y|] eqn:NC; inversion PC. subst p.
  destruct (wf_nodes ns H c y NC) as (_ & _ & IC). apply filter_In. split; [|exact IC].
  apply in_seq. unfold is_container, kind_of in IC.
  destruct (nth_error ns (n_parent y)) eqn:NP; [apply nth_in_range in NP; lia|discriminate].
Qed.

Lemma disciplined_sound : forall ns start, wf ns = true -> disciplined ns start = true ->
  forall p, Disc (ctx_events ns start p).
Proof.
  intros ns start W H p. unfold disciplined in H. rewrite forallb_forall in H.
  destruct (ctx_events ns start p) eqn:E; [apply Disc_nil|]. rewrite <- E.
  apply discb_sound, H, (events_container ns start); auto. rewrite E. discriminate.
Qed.

Lemma local_ok_sound : forall before after, local_ok before after = true ->
  forall a b, In (a, b) (edges before) -> b < length (nodes before).
Proof.
  intros before after H a b Hab. unfold local_ok in H. apply andb_prop in H. destruct H as [_ H2].
  rewrite forallb_forall in H2. apply H2 in Hab. now apply Nat.ltb_lt in Hab.
Qed.

Lemma ctx_ok_sound : forall s0 W, ctx_ok s0 W = (true, true, true) ->
  WF (nodes W) /\
  (forall a b, In (a, b) (edges s0) -> b < length (nodes s0)) /\
  (forall p, Disc (ctx_events (nodes W) (length (nodes s0)) p)).
Proof.
  intros s0 W OK. unfold ctx_ok in OK. injection OK as Hw Hd Hl.
  split; [|split]; eauto using wf_sound, disciplined_sound, local_ok_sound.
Qed.

Lemma is_region_linkable : forall ns p, is_region ns p = true -> linkable ns p = true.
Proof. intros ns p H. unfold is_region, linkable in *. destruct (kind_of ns p) as [k|]; [|discriminate]. destruct k; auto; discriminate. Qed.

Lemma region_in_parent_chain : forall ns start r p, parents_lt ns ->
  ctx_chain ns start r <> [] -> kind_of ns r <> Some KFuncDefn -> parent_of ns r = Some p -> r <> 0 ->
  In r (ctx_chain ns start p).
Proof.
  intros ns start r p PL NE KF PR R0. unfold ctx_chain, ctx_events in *. apply nf_in.
  apply (events_range_coh ns start _ PL r); auto.
  - intros Z. apply NE. now rewrite Z.
  - rewrite (event_step _ _ _ PL R0 PR), Nat.eqb_refl. now left.
Qed.
