(** C33 — lemmas.  The theorems about histories use the GENERATED code only through
    [init_spec], [enter_spec], [exit_spec] and [gate_run_flag] below; each is re-proved
    against the freshly generated definitions on every run.  The statements about the gate
    table and the call sites (Props.v 1b, 1c, 5, [all_gates_complete]) evaluate it directly. *)
From Coq Require Import ZArith Bool List.
From V.C33 Require Import ModelBase GenExperimental Model.
Import ListNotations.
Open Scope Z_scope.

Lemma init_spec : forall c g, cm_init c g = (target c, mkObj g).
Proof. destruct c; reflexivity. Qed.
Lemma enter_spec : forall c g o, cm_enter c g o = (g, o).
Proof. destruct c, o; reflexivity. Qed.
Lemma exit_spec : forall c g o, cm_exit c g o = (original o, o, false).
Proof. destruct c, o; reflexivity. Qed.

Lemma gate_run_flag : forall gt g,
  gate_run gt g = Ok tt /\ g = true \/ (exists e, gate_run gt g = Raise e) /\ g = false.
Proof. destruct gt, g; simpl; eauto. Qed.
Lemma gate_total : forall gt g, gate_run gt g = Ok tt \/ exists e, gate_run gt g = Raise e.
Proof. intros. destruct (gate_run gt g) as [[]|e]; eauto. Qed.

Lemma all_gates_complete : forall gt, In gt all_gates.
Proof. destruct gt; simpl; tauto. Qed.

(** `with C(): body`: the constructor sets the flag, __enter__ does nothing, __exit__ writes
    back what the constructor saw and suppresses nothing. *)
Lemma with_spec : forall c body st,
  run_act (AWith c body) st =
  let r := run_acts body (mkState (target c) (heap st) (seen st)) in
  (mkState (flag st) (heap (fst (fst r))) (seen (fst (fst r))), snd (fst r),
   ([2; c2z c; b2z (target c)] :: snd r)
   ++ [[3; c2z c; b2z (flag st); b2z (flag st); b2z (snd (fst r))]]).
Proof.
  intros. simpl. rewrite init_spec, enter_spec.
  destruct (run_acts body _) as [[st2 raised] tr]. rewrite exit_spec. simpl.
  now rewrite andb_true_r.
Qed.

Lemma set_nth_same : forall {A} k (x : A) l, nth_error l k = Some x -> set_nth k x l = l.
Proof.
  induction k; destruct l; simpl; intros; try discriminate; try congruence.
  f_equal. apply IHk. assumption.
Qed.
Lemma set_nth_none : forall {A} k (x : A) l, nth_error l k = None -> set_nth k x l = l.
Proof.
  induction k; destruct l; simpl; intros; try discriminate; try reflexivity.
  f_equal. apply IHk. assumption.
Qed.
(** The four observers of Model.v at once; the trace theorems of Props.v are projections of
    [run_sound] ([good_elim]). *)
Definition good (e : event) : bool := exit_restored e && entry_set e && ctor_set e && gate_consistent e.
Definition Good (tr : list event) : Prop := Forall (fun e => good e = true) tr.

Lemma good_elim : forall e, good e = true ->
  exit_restored e = true /\ entry_set e = true /\ ctor_set e = true /\ gate_consistent e = true.
Proof. intro e. unfold good. rewrite !andb_true_iff. tauto. Qed.

Lemma b2z_eqb : forall b, Z.eqb (b2z b) (b2z b) = true.
Proof. intro. apply Z.eqb_refl. Qed.

Lemma good_ctor : forall c, good [1; c2z c; b2z (target c)] = true.
Proof. destruct c; reflexivity. Qed.
Lemma good_entry : forall c, good [2; c2z c; b2z (target c)] = true.
Proof. destruct c; reflexivity. Qed.
Lemma good_exit : forall c b x, good [3; c; b2z b; b2z b; x] = true.
Proof. intros. unfold good. simpl. now rewrite b2z_eqb. Qed.
Lemma good_check : forall gt g,
  good [4; gate_index gt; match gate_run gt g with Ok _ => 1 | Raise _ => 0 end; b2z g] = true.
Proof. intros. destruct (gate_run_flag gt g) as [[-> ->]|[[e ->] ->]]; reflexivity. Qed.

(** Every kept object carries what the observer saw before its constructor ran, and kept
    objects stay as they are. *)
Definition Inv (st : state) : Prop := map (fun p => original (snd p)) (heap st) = seen st.
Definition extends (st st' : state) : Prop :=
  forall k p, nth_error (heap st) k = Some p -> nth_error (heap st') k = Some p.

Lemma extends_same : forall st st', heap st' = heap st -> extends st st'.
Proof. intros st st' H k p. now rewrite H. Qed.

Definition sound_res (st : state) (r : state * bool * list event) : Prop :=
  Inv (fst (fst r)) /\ extends st (fst (fst r)) /\ Good (snd r).

Lemma sound_stay : forall st b tr, Inv st -> Good tr -> sound_res st (st, b, tr).
Proof. intros st b tr HI HG. split; [exact HI|]. split; [now apply extends_same | exact HG]. Qed.

Scheme act_mut := Induction for act Sort Prop
  with acts_mut := Induction for acts Sort Prop.
Combined Scheme act_acts_ind from act_mut, acts_mut.

Lemma run_sound :
  (forall a st, Inv st -> sound_res st (run_act a st)) /\
  (forall l st, Inv st -> sound_res st (run_acts l st)).
Proof.
  apply act_acts_ind.
  - intros c st HI. simpl. rewrite init_spec.
    split; [exact HI|]. split; [now apply extends_same|]. constructor; [apply good_ctor|constructor].
  - intros c body IH st HI. rewrite with_spec.
    destruct (IH (mkState (target c) (heap st) (seen st)) HI) as (I2 & E2 & G2).
    split; [exact I2|]. split; [exact E2|].
    constructor; [apply good_entry|]. apply Forall_app. split; [exact G2|].
    constructor; [apply good_exit|constructor].
  - intros c st HI. simpl. rewrite init_spec. split.
    + unfold Inv in *. simpl. rewrite map_app, HI. reflexivity.
    + split; [|constructor; [apply good_ctor|constructor]].
      intros k p Hk. simpl. rewrite nth_error_app1; [exact Hk|]. apply nth_error_Some. congruence.
  - intros k body IH st HI. simpl.
    destruct (nth_error (heap st) k) as [[c o]|] eqn:Hh;
      [|apply sound_stay; [exact HI|now repeat constructor]].
    destruct (nth_error (seen st) k) as [before|] eqn:Hs;
      [|apply sound_stay; [exact HI|now repeat constructor]].
    rewrite enter_spec, (set_nth_same k (c, o) (heap st) Hh).
    destruct (IH (mkState (flag st) (heap st) (seen st)) HI) as (I2 & E2 & G2).
    destruct (run_acts body _) as [[st2 raised] tr]. simpl in I2, E2, G2.
    (* the object re-read at exit is the one found at entry, and it carries the observer's value *)
    rewrite (E2 _ _ Hh), exit_spec, (set_nth_same k _ _ (E2 _ _ Hh)).
    rewrite <- HI, nth_error_map, Hh in Hs. injection Hs as <-.
    split; [exact I2|]. split; [exact E2|].
    constructor; [reflexivity|]. apply Forall_app. split; [exact G2|].
    constructor; [apply good_exit|constructor].
  - intros gt st HI. simpl. pose proof (good_check gt (flag st)) as G.
    destruct (gate_run gt (flag st)); apply sound_stay; try exact HI; now repeat constructor.
  - intros st HI. apply sound_stay; [exact HI|now repeat constructor].
  - intros body IH st HI. simpl. destruct (IH st HI) as (I & E & G).
    destruct (run_acts body st) as [[st1 raised] tr].
    split; [exact I|]. split; [exact E|]. apply Forall_app. split; [exact G|now repeat constructor].
  - intros st HI. apply sound_stay; [exact HI|constructor].
  - intros a IHa rest IHr st HI. simpl. destruct (IHa st HI) as (I1 & E1 & G1).
    destruct (run_act a st) as [[st1 [|]] tr]; [now split|].
    destruct (IHr st1 I1) as (I2 & E2 & G2). destruct (run_acts rest st1) as [[st2 r2] tr2].
    split; [exact I2|]. split; [intros k p Hk; exact (E2 _ _ (E1 _ _ Hk))|]. apply Forall_app. now split.
Qed.

Lemma run_good : forall l g, Good (snd (run_acts l (init_state g))).
Proof. intros. now apply (proj2 run_sound l (init_state g)). Qed.

Lemma passive_scoped :
  (forall a, passive_act a = true -> scoped_act a = true) /\
  (forall l, passive_acts l = true -> scoped_acts l = true).
Proof.
  apply act_acts_ind; simpl; try discriminate; auto.
  intros a IHa rest IHr H. apply andb_true_iff in H as [Ha Hr]. now rewrite IHa, IHr.
Qed.

Lemma sites_ok : forallb req_met required_sites = true.
Proof. vm_compute. reflexivity. Qed.
Lemma every_feature_required : forall f, existsb (fun r => match r_feature r, f with
   | Lists, Lists | FunctionTensors, FunctionTensors | CapturingClosures, CapturingClosures | Modifiers, Modifiers => true
   | _, _ => false end) required_sites = true.
Proof. destruct f; reflexivity. Qed.
