(** V.C10.Props — C10: compiler output and diagnostics are deterministic.   PARTIAL.

    What is proved: for the MODELLED front end (CFG.analyze: liveness with witness blocks and key
    order + assignment analysis; check_cfg: definedness and branch-type checks up to the first
    diagnostic, incl. the BadBranch note and the type hints) the outcome -- accept/reject, kind of
    error, variable, location (witness use), notes -- is the same for EVERY pop order of the one
    remaining unordered work list (ForwardAnalysis.run), and that work list is the only
    order-observing site of the anchored files that is an oracle of the model (sites_tie,
    oracle_inventory).  For the released code (before fix-1/2/3) the statement is REFUTED at the
    two other sites (witnesses below, replayed on the real compiler by props/C10/check.py).
    What is NOT proved: HUGR byte identity and every diagnostic produced outside the modelled
    passes (statement type checking, linearity, lowering, serialisation) -- sampled only; the
    [Reviewed] dispositions of Sites.v. *)
From Coq Require Import List String Permutation.
From V.C09 Require Import Analysis Spec.
From V.C10 Require Import Model Proofs GenSites Sites.
Import ListNotations.

(* all pop orders: s1, s2 are ANY two terminal states of the nondeterministic work-list relation
   of ForwardAnalysis.run on the function's CFG (V.C09 sched_run).  Stated for /repo after
   fix-1/2, Model.front_end = front_end_gen [] union_keys; Proofs.diag_oracle_independent_lemma is
   the same statement for every backward schedule [lsched] and rows-match order [rm]. *)
Theorem diag_oracle_independent : forall g0 inputs inout glob,
  wf_cfg (base g0) = true ->
  forall s1 s2,
    sched_run (ass_step Repaired (fe_cfg g0 inout) (fe_names inputs)) fq
              (ass_init (fe_cfg g0 inout) (fe_names inputs) (fe_names inputs)) s1 ->
    sched_run (ass_step Repaired (fe_cfg g0 inout) (fe_names inputs)) fq
              (ass_init (fe_cfg g0 inout) (fe_names inputs) (fe_names inputs)) s2 ->
    front_end g0 inputs inout glob (befD s1) (befM s1) =
    front_end g0 inputs inout glob (befD s2) (befM s2).
Proof. intros. apply diag_oracle_independent_lemma; auto. Qed.
Print Assumptions diag_oracle_independent.

(* the executable form the correspondence harness evaluates: any two schedules *)
Theorem diag_schedule_independent : forall g0 inputs inout glob fs1 fs2,
  wf_cfg (base g0) = true ->
  front_end_run [] union_keys fs1 g0 inputs inout glob = front_end_run [] union_keys fs2 g0 inputs inout glob.
Proof. intros. apply front_end_run_sched_independent; auto. Qed.
Print Assumptions diag_schedule_independent.

(* the front end reads ass_before / maybe_ass_before as SETS: equal sets, equal diagnostics *)
Theorem diag_depends_on_sets_only : forall g0 inputs inout glob D M D' M',
  same_sets (List.length g0) D D' -> same_sets (List.length g0) M M' ->
  front_end g0 inputs inout glob D M = front_end g0 inputs inout glob D' M'.
Proof. intros. apply front_end_gen_same_sets; auto. Qed.
Print Assumptions diag_depends_on_sets_only.

(* a non-trivial instance: a loop, two variables with branch-dependent types, one maybe-undefined *)
Definition ex_cfg : xcfg :=   (* c=0 a=1 b=2 ; entry branches, both arms assign a,b with different types *)
  [mkX (mkBlock [3;2] [] [0] []) [] [] [];
   mkX (mkBlock [] [] [] []) [4] [] [];
   mkX (mkBlock [4] [] [] [1;2]) [0] [] [(1,(1,2)); (2,(1,3))];
   mkX (mkBlock [4] [] [] [1;2]) [0] [] [(1,(2,4)); (2,(2,5))];
   mkX (mkBlock [1] [] [1;2] [3]) [2;3] [] [(3,(101,6))]].
Definition ex_inputs : row := [(0,(3,1))].
Example ex_nontrivial :
  wf_cfg (base ex_cfg) = true /\
  enc (front_end_run [] union_keys [] ex_cfg ex_inputs [] (fun _ => false)) = [3;4;1;2;1;4;2] /\
  enc (front_end_run [] union_keys [3;1;4;1;5] ex_cfg ex_inputs [] (fun _ => false)) = [3;4;1;2;1;4;2].
Proof. vm_compute. auto. Qed.

(** ** check_rows_match as released (a set of names): the VERDICT is order independent ... *)
Theorem rows_match_verdict_order_independent : forall LB r1 r2 b ks ks',
  Permutation ks ks' ->
  (rows_match_on LB r1 r2 b ks = None <-> rows_match_on LB r1 r2 b ks' = None).
Proof.
  intros LB r1 r2 b ks ks' P. unfold rows_match_on. rewrite !first_some_none.
  split; apply Permutation_Forall; [|symmetry]; exact P.
Qed.
Print Assumptions rows_match_verdict_order_independent.

(** ** ... but the reported variable is not: REFUTATION for the released code (site R) *)
(* same program, names visited in row order vs. reversed: different variable in the diagnostic.
   Real program: props/C10/corpus/rows_match_seed.py under PYTHONHASHSEED 0 vs 2 (pre-fix tree). *)
Theorem rows_match_variable_as_released_refuted :
  exists g inputs (perm perm' : list nat -> list nat),
    (forall l, Permutation (perm l) l) /\ (forall l, Permutation (perm' l) l) /\
    front_end_run [] (rm_coded perm) [] g inputs [] (fun _ => false) <>
    front_end_run [] (rm_coded perm') [] g inputs [] (fun _ => false).
Proof.
  exists ex_cfg, ex_inputs, (fun l => l), (@rev nat). split; [|split].
  - intros; apply Permutation_refl.
  - intros; apply Permutation_sym, Permutation_rev.
  - vm_compute. discriminate.
Qed.
Print Assumptions rows_match_variable_as_released_refuted.

(** ** REFUTATION for the released backward work list (site B): the liveness witness, hence the
       LOCATION of the diagnostic, depends on the pop order *)
(* def f(c, d): if c: x = 1 ; if d: t1 = (x,) else: t2 = (x,) ; return 0
   c=0 d=1 x=2 t1=3 t2=4.  Front of the ordered work list (fix-2): the use in block 5 is
   reported; popping block 6 then block 4 first: the use in block 6.
   Real program: props/C10/corpus/witness_layout.py (pre-fix tree, two interpreter runs). *)
Definition wit_cfg : xcfg :=
  [mkX (mkBlock [3;2] [] [0] []) [] [] [];
   mkX (mkBlock [] [] [] []) [7] [] [];
   mkX (mkBlock [4] [] [] [2]) [0] [] [(2,(1,3))];
   mkX (mkBlock [4] [] [] []) [0] [] [];
   mkX (mkBlock [6;5] [] [1] []) [2;3] [] [];
   mkX (mkBlock [7] [] [2] [3]) [4] [] [(3,(101,4))];
   mkX (mkBlock [7] [] [2] [4]) [4] [] [(4,(102,5))];
   mkX (mkBlock [1] [] [] []) [5;6] [] []].
Definition wit_inputs : row := [(0,(3,1)); (1,(3,2))].
Theorem liveness_witness_as_released_refuted :
  exists g inputs lsched lsched',
    wf_cfg (base g) = true /\
    enc (front_end_run lsched union_keys [] g inputs [] (fun _ => false)) = [2;5;2;1;0;0] /\
    enc (front_end_run lsched' union_keys [] g inputs [] (fun _ => false)) = [2;6;2;1;0;0].
Proof. exists wit_cfg, wit_inputs, [], [6;4]. vm_compute. auto. Qed.
Print Assumptions liveness_witness_as_released_refuted.

(* the inventory regenerated from the tree under test is exactly the reviewed one ... *)
Theorem sites_tie :
  gen_set_sites = map fst reviewed_set_sites /\ gen_unknown_sites = map fst reviewed_unknown_sites.
Proof. split; reflexivity. Qed.
Print Assumptions sites_tie.

(* the same for the set-order / hash() / id() / repr() sites of the WHOLE package (a new
   `hash(...)` anywhere in the compiler breaks this; nothing is proved about these sites) *)
Theorem all_sites_tie : gen_all_set_sites = map fst reviewed_all_set_sites.
Proof. reflexivity. Qed.
Print Assumptions all_sites_tie.

(* ... and its only oracle is the one diag_oracle_independent quantifies over *)
Theorem oracle_inventory :
  oracles_of reviewed_set_sites =
  ["F: pop order of the forward work list = sched_run (ass_step ...) / schedule fs"%string].
Proof. reflexivity. Qed.
Print Assumptions oracle_inventory.
