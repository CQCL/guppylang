(** V.C10.Proofs — check_cfg reads ass_before / maybe_ass_before only through membership tests
    ([check_cfg_from_ext]), so the equal SETS that C09's [order_independent] gives for two pop
    orders of the forward work list yield equal diagnostics. *)
From Coq Require Import List Bool Arith.
From V.C09 Require Import Analysis SetLemmas Spec ProofsTop Props.
From V.C10 Require Import Model.

Lemma first_some_ext : forall A B (f f' : A -> option B) l,
  (forall a, f a = f' a) -> first_some f l = first_some f' l.
Proof. induction l as [|a t IH]; intros H; simpl; auto. rewrite H, IH; auto. Qed.

Section Ext.
Variables (g : xcfg) (LB : lvals) (asg : list nat) (glob : nat -> bool).
Variables (d d' : nat -> bool) (m m' : nat -> nat -> bool) (rm : row -> row -> list nat).
Hypothesis Hd : forall x, d x = d' x.
Hypothesis Hm : forall w x, m w x = m' w x.

Lemma check_var_ext : forall locals xw,
  check_var g asg glob m locals xw = check_var g asg glob m' locals xw.
Proof. intros locals [x w]. unfold check_var. rewrite Hm. reflexivity. Qed.

Lemma check_bb_ext : forall b inputs,
  check_bb g LB asg glob d m b inputs = check_bb g LB asg glob d' m' b inputs.
Proof.
  intros. unfold check_bb.
  erewrite (first_some_ext _ _ _ _ (xuse g 0)) by (intros x; rewrite Hd; reflexivity).
  destruct (if b =? 0 then _ else None); auto.
  erewrite first_some_ext; [reflexivity|].
  intros s. apply first_some_ext, check_var_ext.
Qed.

Lemma bfs_ext : forall fuel queue compiled,
  bfs g LB asg glob d m rm fuel queue compiled = bfs g LB asg glob d' m' rm fuel queue compiled.
Proof.
  induction fuel as [|f IH]; intros; simpl; auto.
  destruct queue as [|[r b] q]; auto.
  destruct (assoc b compiled).
  - destruct (rows_match_on LB r r0 b (rm r r0)); auto.
  - rewrite check_bb_ext. destruct (check_bb g LB asg glob d' m' b r) as [e|[outs douts]]; auto.
Qed.

Lemma check_cfg_from_ext : forall inputs,
  check_cfg_from g LB asg glob d m rm inputs = check_cfg_from g LB asg glob d' m' rm inputs.
Proof.
  intros. unfold check_cfg_from. rewrite check_bb_ext.
  destruct (check_bb g LB asg glob d' m' 0 inputs) as [e|[outs douts]]; [reflexivity | apply bfs_ext].
Qed.
End Ext.

Lemma in_range_memb : forall n L L', same_sets n L L' ->
  forall w x, (w <? n) && memb x (getv L w) = (w <? n) && memb x (getv L' w).
Proof.
  intros n L L' H w x. destruct (Nat.ltb_spec w n); simpl; auto.
  apply eq_true_iff_eq. rewrite !memb_In. auto.
Qed.

Lemma length_xwith : forall g inout, length (xwith_exit_uses g inout) = length g.
Proof. intros. unfold xwith_exit_uses. apply setv_length. Qed.

Lemma nblocks_fe : forall g inout, nblocks (fe_cfg g inout) = length g.
Proof. intros. unfold fe_cfg. rewrite nblocks_with_exit_uses. unfold nblocks, base. apply map_length. Qed.

Lemma front_end_gen_same_sets : forall lsched rm g0 inputs inout glob D M D' M',
  same_sets (length g0) D D' -> same_sets (length g0) M M' ->
  front_end_gen lsched rm g0 inputs inout glob D M = front_end_gen lsched rm g0 inputs inout glob D' M'.
Proof.
  intros lsched rm g0 inputs inout glob D M D' M' HD HM. unfold front_end_gen.
  generalize (wl_run (xwith_exit_uses g0 inout) (map (fun x => (x, exit_idx)) inout) lsched).
  intros ws. destruct (fst ws); [|reflexivity].
  apply check_cfg_from_ext; intros; rewrite length_xwith; apply in_range_memb; assumption.
Qed.

Lemma wf_fe : forall g0 inout, wf_cfg (base g0) = true -> wf_cfg (fe_cfg g0 inout) = true.
Proof. intros. unfold fe_cfg. apply wf_with_exit_uses; auto. Qed.

Lemma diag_oracle_independent_lemma : forall lsched rm g0 inputs inout glob,
  wf_cfg (base g0) = true ->
  forall s1 s2,
    sched_run (ass_step Repaired (fe_cfg g0 inout) (fe_names inputs)) fq
              (ass_init (fe_cfg g0 inout) (fe_names inputs) (fe_names inputs)) s1 ->
    sched_run (ass_step Repaired (fe_cfg g0 inout) (fe_names inputs)) fq
              (ass_init (fe_cfg g0 inout) (fe_names inputs) (fe_names inputs)) s2 ->
    front_end_gen lsched rm g0 inputs inout glob (befD s1) (befM s1) =
    front_end_gen lsched rm g0 inputs inout glob (befD s2) (befM s2).
Proof.
  intros lsched rm g0 inputs inout glob W s1 s2 H1 H2.
  destruct (order_independent (fe_cfg g0 inout) (wf_fe g0 inout W)) as [_ HA].
  destruct (HA _ _ _ _ H1 H2) as [HD HM]. rewrite nblocks_fe in HD, HM.
  apply front_end_gen_same_sets; auto.
Qed.

Lemma front_end_run_sched_independent : forall lsched rm g0 inputs inout glob fs1 fs2,
  wf_cfg (base g0) = true ->
  front_end_run lsched rm fs1 g0 inputs inout glob = front_end_run lsched rm fs2 g0 inputs inout glob.
Proof.
  intros lsched rm g0 inputs inout glob fs1 fs2 W. unfold front_end_run, assignment.
  destruct (run_terminates (fe_cfg g0 inout) (wf_fe g0 inout W)) as [_ HT].
  destruct (HT (fe_names inputs) (fe_names inputs) fs1) as [_ R1].
  destruct (HT (fe_names inputs) (fe_names inputs) fs2) as [_ R2].
  apply diag_oracle_independent_lemma; auto.
Qed.

Lemma first_some_none : forall A B (f : A -> option B) l,
  first_some f l = None <-> Forall (fun a => f a = None) l.
Proof.
  induction l as [|a t IH]; simpl.
  - split; auto.
  - rewrite Forall_cons_iff, <- IH. destruct (f a).
    + split; [|intros []]; discriminate.
    + split; [auto | intros [_ H]; exact H].
Qed.

(* the reported variable is always a mismatching one of the visiting order *)
Lemma first_some_in : forall A B (f : A -> option B) l e,
  first_some f l = Some e -> exists a, In a l /\ f a = Some e.
Proof.
  induction l as [|a t IH]; simpl; intros e H; [discriminate|].
  destruct (f a) eqn:E.
  - inversion H; subst. exists a; auto.
  - destruct (IH e H) as [a' [Hi Hf]]. exists a'; auto.
Qed.
