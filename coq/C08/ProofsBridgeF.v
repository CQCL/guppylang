(** V.C08.ProofsBridgeF — from the statement level to [build]: the raw graph the visit leaves carries
    the layout of the whole body, so its walks from the entry are exactly the syntactic paths;
    [build] only prunes unreachable-to-reachable edges, which changes no walk from the entry.
    Event level: assignment-free paths along real edges ([rreach]) against item lists. *)
From Coq Require Import ZArith List Lia.
From V.C03 Require Import PyAst Cfg Builder ProofsBase ProofsLayout ProofsReach.
From V.C08 Require Import CfgCheck Spec ProofsBase Bridge ProofsBridgeA ProofsBridgeD ProofsBridgeC.
Import ListNotations.

Section Raw.
Variables (p : stmts) (final : option nat) (g' : list block) (n' : nat).
Hypothesis F : cf_stmts p = true.
Hypothesis V : visit_stmts p entry_idx (Some entry_idx) j0 init_state = BOk final (mkB g' n').
Let A := rawG final g'.

Lemma raw_visit :
  grows (bs_blocks init_state) entry_idx g' /\ rok (bs_blocks init_state) entry_idx g' final /\
  edges_ok A /\ exit_clean A /\
  lay_l A p (0, 0) j0 (exit_of g' final) /\ forall a, exit_of g' final = Some a -> jump A a exit_idx.
Proof.
  destruct (body_lay clay vlay eq edges_ok edges_link p final g' n' (proj2 cf_lay p F) V)
    as (Gr&R&Je&K).
  split; [exact Gr|]. split; [exact R|]. split; [|exact K]. apply Je.
  split; [simpl; lia|]. split.
  - intros b t Ht. exfalso. destruct b as [|[|b]]; simpl in Ht; try (destruct Ht; fail).
    unfold blk in Ht. simpl in Ht. destruct b; destruct Ht.
  - intros b q Hp. exfalso. destruct b as [|[|b]]; simpl in Hp; try discriminate.
    unfold blk in Hp. simpl in Hp. destruct b; discriminate.
Qed.

Theorem raw_paths : forall items, (exists c', walk A (0, 0) items c') <-> (exists o, spath_l p items o).
Proof.
  destruct raw_visit as (_&_&_&(S1&S2)&L&Out).
  assert (Stuck : forall i2 c', walk A (exit_idx, 0) i2 c' -> i2 = []).
  { intros i2 c' W. destruct (walk_inv _ _ _ _ W) as [(Z&_)|(i1&c1&i3&->&St&T)]; auto.
    exfalso. apply wstep_iff in St. fold A in S1, S2. rewrite S1, S2 in St.
    destruct St as [(s&Hn&_)|(_&t&[]&_)]. discriminate. }
  (* the body ends one jump before the exit block, where a return leads too *)
  destruct (both_exit A (0, 0) j0 _ (Some (exit_idx, 0)) _
              (fun a X => or_intror (ex_intro _ exit_idx (conj (Out a X) eq_refl)))
              (proj2 (lay_paths A) p F (0, 0) j0 _ L)) as (Fw&Bw).
  intros items. split.
  - intros (c'&W). destruct (Bw items c' W) as (i1&i2&o&->&P&BO).
    assert (Z : i2 = []).
    { destruct BO as [Z|(c1&X&T)]; [exact Z|].
      destruct o; simpl in X; try discriminate; inversion X; subst c1; exact (Stuck _ _ T). }
    subst i2. rewrite app_nil_r. exists o. exact P.
  - intros (o&X). destruct (Fw items o X) as (c'&W&_). exists c'. exact W.
Qed.
End Raw.

(* [g] is [A] with some edges removed: what [build]'s pruning makes of the raw graph *)
Definition sub_graph (g A : list block) : Prop :=
  length g = length A /\
  forall i, b_stmts (blk g i) = b_stmts (blk A i) /\ b_pred (blk g i) = b_pred (blk A i) /\
            (forall t, In t (b_succs (blk g i)) -> In t (b_succs (blk A i))) /\
            (forall t, In t (b_dummy (blk g i)) -> In t (b_dummy (blk A i))).

Section Prune.
Variables (A X : list block) (fl : nat -> bool).
Hypothesis FX : flagged A fl X.

Lemma prune_sub : sub_graph (prune X) A.
Proof.
  destruct FX as (L&B). split; [rewrite prune_length; exact L|].
  intros i. rewrite blk_prune, B. unfold pruneF. simpl. split; auto. split; auto. split.
  - intros t Ht. destruct (fl i); auto. apply filter_In in Ht. tauto.
  - intros t Ht. apply filter_In in Ht. tauto.
Qed.

Lemma walk_prune : closed A fl ->
  forall c items c', walk A c items c' -> (fl (fst c) = true \/ length A <= fst c) ->
  walk (prune X) c items c' /\ (fl (fst c') = true \/ length A <= fst c').
Proof.
  intros C c items c' W. induction W as [c|c i1 c1 i2 c2 S1 W IH]; intros Hc; [split; [constructor|exact Hc]|].
  assert (K : wstep (prune X) c i1 c1 /\ (fl (fst c1) = true \/ length A <= fst c1)).
  { destruct c as [b k]. simpl in Hc. apply wstep_iff in S1. rewrite wstep_iff.
    destruct Hc as [Hc|Hc].
    - destruct (prune_same A fl X b FX Hc) as (->&->&->). split; [exact S1|].
      destruct S1 as [(s&_&_&->)|(_&t&Ht&->&_)]; simpl; auto.
      destruct (Nat.lt_ge_cases t (length A)); auto. left.
      destruct (Nat.lt_ge_cases b (length A)) as [Lc|Lc]; [apply (C b Lc Hc t Ht); auto|].
      rewrite blk_overflow in Ht by auto. destruct Ht.
    - exfalso. rewrite blk_overflow in S1 by auto. simpl in S1.
      destruct S1 as [(s&Hn&_)|(_&t&[]&_)]. destruct k; discriminate. }
  destruct K as (K1&K2). destruct (IH K2) as (W'&E). split; [econstructor; eauto|exact E].
Qed.
End Prune.

Lemma walk_sub : forall g A c items c', sub_graph g A -> walk g c items c' -> walk A c items c'.
Proof.
  intros g A c items c' (_&S0) W. induction W as [c|c i1 c1 i2 c2 St W IH]; [constructor|].
  econstructor; eauto. destruct c as [b k]. apply wstep_iff in St. apply wstep_iff.
  destruct (S0 b) as (E1&E2&E3&_). rewrite <- E1, <- E2.
  destruct St as [St|(Ek&t&Ht&St)]; [left; exact St|right]. split; auto. exists t. auto.
Qed.

Lemma sub_wf : forall g A, sub_graph g A -> edges_ok A -> wf_ecfg (ecfg_of g).
Proof.
  intros g A (L&S0) (LA&H&_).
  assert (K : forall b t, In t (flow (ecfg_of g) b) -> okid A t).
  { intros b t Ht. rewrite flow_ecfg_of in Ht. apply (H b t). destruct (S0 b) as (_&_&E3&E4).
    unfold edges. apply in_app_or in Ht. apply in_or_app. destruct Ht; auto. }
  split; [rewrite nb_ecfg_of; lia|]. split.
  - intros b t _ Ht. rewrite nb_ecfg_of, L. apply (K b t Ht).
  - intros b _ Ht. destruct (K b 0 Ht). lia.
Qed.

Theorem build_paths : forall p rn g s, cf_stmts p = true -> build p rn = BOk g s ->
  wf_ecfg (ecfg_of g) /\
  (forall items, (exists c', walk g (0, 0) items c') <-> (exists o, spath_l p items o)) /\
  forall items u k, walk g (0, 0) items (u, k) -> forall q, b_pred (blk g u) = Some q -> b_succs (blk g u) <> [].
Proof.
  intros p rn g s F B. destruct (build_flagged p rn g s B) as (final&g'&n'&V&K).
  destruct (raw_visit p final g' n' F V) as (Gr&R&EO&_). destruct (K Gr R) as (X&fl&->&FX&CX&E0).
  pose proof (prune_sub _ X fl FX) as SG.
  pose proof (fun items c' W => walk_prune _ X fl FX CX (0, 0) items c' W (or_introl E0)) as Keep.
  split; [exact (sub_wf _ _ SG EO)|]. split.
  - intros items. rewrite <- (raw_paths p final g' n' F V items). split; intros (c'&W); exists c'.
    + exact (walk_sub _ _ _ _ _ SG W).
    + exact (proj1 (Keep _ _ W)).
  - (* pruning takes successors from unflagged blocks only, and a walk from the entry stays in flagged ones *)
    intros items u k W q Pq. destruct (proj2 (Keep _ _ (walk_sub _ _ _ _ _ SG W))) as [Fu|Lu]; simpl in *.
    + destruct (prune_same _ fl X u FX Fu) as (_&E2&E3). rewrite E2 in Pq. rewrite E3.
      exact (proj2 (proj2 EO) u q Pq).
    + rewrite blk_overflow in Pq by (rewrite prune_length, (proj1 FX); exact Lu). discriminate.
Qed.

Inductive rreach (g : ecfg) (x : nat) : nat -> Prop :=
| rr_entry : rreach g x 0
| rr_step p b : rreach g x p -> p < nb g -> ~ assigns x (evs g p) -> In b (e_succ (eblk g p)) -> rreach g x b.

Lemma rreach_reach_nodef : forall g x u, rreach g x u -> reach_nodef g x u.
Proof.
  intros g x u H. induction H; [apply rn_entry|]. eapply rn_step; eauto. unfold flow. apply in_or_app. auto.
Qed.

Section Walks.
Variable G : list block.
Variable x : nat.

Lemma rreach_walk : forall u, rreach (ecfg_of G) x u ->
  exists items, walk G (0, 0) items (u, 0) /\ nodef x items.
Proof.
  intros u H. induction H as [|p b H (items&W&N) Lp Na Hb].
  - exists []. split; [constructor|]. intros it [].
  - rewrite evs_ecfg_of in Na. rewrite eblk_ecfg_of in Hb. simpl in Hb.
    eexists. split; [|apply nodef_app; [exact N|exact (nodef_block G x p Na)]].
    eapply walk_trans; [exact W|]. eapply walk_trans; [apply walk_block|]. apply walk_one.
    destruct (b_pred (blk G p)) eqn:Pq; [apply ws_branch|apply ws_jump]; auto.
Qed.

Lemma use_walk : forall u items, (forall q, b_pred (blk G u) = Some q -> b_succs (blk G u) <> []) ->
  walk G (0, 0) items (u, 0) -> nodef x items ->
  reads_first x (ev_block (blk G u)) ->
  exists pre last c', walk G (0, 0) (pre ++ [last]) c' /\ nodef x pre /\ reads_first x (ev_item last).
Proof.
  intros u items I W N R. unfold ev_block in R.
  destruct (split_reads _ _ _ R) as [(l1&s&l2&E&N1&Rs)|(N1&Rt)].
  - pose proof (walk_stmts G u [] l1 (s :: l2) E) as W1. simpl in W1.
    exists (items ++ map IStmt l1), (IStmt s), (u, S (length l1)). split; [|split; auto].
    + eapply walk_trans; [eapply walk_trans; [exact W|exact W1]|]. apply walk_one. apply ws_stmt.
      rewrite E. rewrite nth_error_app2 by lia. rewrite Nat.sub_diag. reflexivity.
    + apply nodef_app; auto. apply nodef_stmts; auto.
  - destruct (b_pred (blk G u)) as [q|] eqn:Pq; [|destruct Rt].
    destruct (b_succs (blk G u)) as [|t ts] eqn:St; [destruct (I q eq_refl eq_refl)|].
    exists (items ++ map IStmt (b_stmts (blk G u))), (ICond q), (t, 0). split; [|split; auto].
    + eapply walk_trans; [eapply walk_trans; [exact W|apply walk_block]|]. apply walk_one. apply ws_branch; auto.
      rewrite St. simpl. auto.
    + apply nodef_app; auto. apply nodef_stmts; auto.
Qed.

(* the block of [c] is reached along real edges without an assignment to [x], and none of its
   statements before [c] assigns [x] *)
Definition clean (c : pos) : Prop :=
  rreach (ecfg_of G) x (fst c) /\
  exists l1 l2, b_stmts (blk G (fst c)) = l1 ++ l2 /\ length l1 = snd c /\
                ~ assigns x (flat_map ev_stmt l1).

Lemma clean_start : forall b, rreach (ecfg_of G) x b -> clean (b, 0).
Proof. intros b R. split; auto. exists [], (b_stmts (blk G b)). simpl. split; auto. split; auto. apply assigns_nil. Qed.

Lemma clean_step : forall c i1 c1, wstep G c i1 c1 -> clean c -> nodef x i1 -> clean c1.
Proof.
  intros [b k] i1 c1 S (R&l1&l2&E&L&Nd) N. simpl in *. apply wstep_iff in S.
  destruct S as [(s&Hn&->&->)|(->&t&Ht&->&->)].
  - split; auto. simpl. rewrite E in Hn. rewrite nth_error_app2 in Hn by lia. rewrite L, Nat.sub_diag in Hn.
    destruct l2 as [|s' l2']; [discriminate|]. simpl in Hn. inversion Hn; subst s'.
    exists (l1 ++ [s]), l2'. split; [rewrite <- app_assoc; auto|]. split; [rewrite app_length; simpl; lia|].
    rewrite flat_map_app. simpl. rewrite app_nil_r. intros A. apply assigns_app in A. destruct A as [A|A]; auto.
    apply (N (IStmt s)); simpl; auto.
  - apply clean_start. apply rr_step with b; auto.
    + rewrite nb_ecfg_of. destruct (Nat.lt_ge_cases b (length G)); auto.
      rewrite blk_overflow in Ht by auto. destruct Ht.
    + rewrite evs_ecfg_of. unfold ev_block.
      assert (l2 = []) by (rewrite E, app_length in L; destruct l2; auto; simpl in L; lia).
      subst. rewrite app_nil_r in E. rewrite E. intros H. apply assigns_app in H.
      destruct H as [H|H]; auto. destruct (b_pred (blk G b)); [exact (uses_no_assign x e H)|exact (assigns_nil x H)].
    + rewrite eblk_ecfg_of. simpl. auto.
Qed.

Lemma step_reads : forall c last c1, wstep G c [last] c1 -> clean c -> reads_first x (ev_item last) ->
  fst c < length G /\ rreach (ecfg_of G) x (fst c) /\ reads_first x (evs (ecfg_of G) (fst c)).
Proof.
  intros [b k] last c1 S (Rn&l1&l2&E&L&Nd) R. simpl in *. apply wstep_iff in S.
  assert (Lb : b < length G).
  { destruct (Nat.lt_ge_cases b (length G)); auto. exfalso. rewrite blk_overflow in S by auto. simpl in S.
    destruct S as [(s&Hn&_)|(_&t&[]&_)]. destruct k; discriminate. }
  split; auto. split; auto. rewrite evs_ecfg_of. unfold ev_block.
  destruct S as [(s&Hn&Ei&_)|(->&t&Ht&_&Ei)].
  - inversion Ei; subst last. rewrite E in Hn. rewrite nth_error_app2 in Hn by lia. rewrite L, Nat.sub_diag in Hn.
    destruct l2 as [|s' l2']; [discriminate|]. simpl in Hn. inversion Hn; subst s'.
    rewrite E, flat_map_app. simpl. rewrite <- !app_assoc, !reads_first_app. auto.
  - assert (l2 = []) by (rewrite E, app_length in L; destruct l2; auto; simpl in L; lia).
    subst. rewrite app_nil_r in E. rewrite E. apply reads_first_app. right. split; [exact Nd|].
    destruct (b_pred (blk G b)); inversion Ei; subst. exact R.
Qed.

Lemma walk_to_use : forall c items c', walk G c items c' ->
  forall pre last, items = pre ++ [last] -> nodef x pre -> reads_first x (ev_item last) -> clean c ->
  exists u, u < length G /\ rreach (ecfg_of G) x u /\ reads_first x (evs (ecfg_of G) u).
Proof.
  intros c items c' W. induction W as [c|c i1 c1 i2 c2 S1 W IH]; intros pre last E N R C.
  - destruct pre; discriminate.
  - assert (Hi : i1 = [] \/ exists it, i1 = [it]) by (inversion S1; eauto).
    destruct Hi as [->|(it&->)].
    + simpl in E. apply (IH pre last E N R). apply (clean_step c [] c1 S1 C). intros it [].
    + destruct pre as [|p0 pre'].
      * simpl in E. inversion E; subst it. exists (fst c). apply (step_reads c last c1 S1 C R).
      * simpl in E. inversion E; subst it. apply (IH pre' last H1).
        -- intros it Hit. apply N. simpl. auto.
        -- exact R.
        -- apply (clean_step c [p0] c1 S1 C). intros it [<-|[]]. apply N. simpl. auto.
Qed.
End Walks.

(* the last clause of [edges_ok] on its own, as something one action of the builder preserves *)
Definition Isucc (g : list block) : Prop := forall b q, b_pred (blk g b) = Some q -> b_succs (blk g b) <> [].
Definition pres {A} (m : M A) : Prop :=
  forall s a s', m s = BOk a s' -> Isucc (bs_blocks s) -> Isucc (bs_blocks s').

Lemma pres_fresh_tmp : pres fresh_tmp.
Proof. intros s a s' H I. unfold fresh_tmp in H. inversion H; subst; auto. Qed.
