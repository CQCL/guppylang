(** V.C08.ProofsExact — check_cfg is exact.  An undefined use exists iff the variable is live
    into the entry block and is not an input; that is what the entry block's tests decide.  Once
    they have passed no other block can fail them, so the BFS ends in a genuine row mismatch or
    accepts.  On the variables live into its block a stored row is the typing of a path (of every
    path, once all edges are compared). *)
From Coq Require Import List Bool Arith Lia.
From V.C09 Require Import Analysis SetLemmas Spec.
From V.C08 Require Import CfgCheck Spec ProofsBase.
Import ListNotations.

Lemma chk_flow : forall g p b, In b (chk g p) -> In b (flow g p).
Proof. intros g p b. unfold chk, flow. destruct (Nat.eqb p 0); auto. intros; apply in_or_app; auto. Qed.

Section Exact.
Variable g : ecfg.
Variable E0 : env.
Variable glob s1 s2 : list nat.
Hypothesis W : wf_ecfg g.
Let F := analyze g (keys E0) glob s1 s2.
Let cg := to_cfg g.
Notation live b := (getv (f_live F) b).

Lemma flow_lt : forall b s, b < nb g -> In s (flow g b) -> s < nb g.
Proof. destruct W as [_ [H _]]. exact H. Qed.

Lemma no_pred0 : forall p, p < nb g -> ~ In 0 (flow g p).
Proof. destruct W as [_ [_ H]]. exact H. Qed.

Lemma nb_pos : 0 < nb g.
Proof. destruct W as [H _]. exact H. Qed.

Lemma live_iff' : forall b x, b < nb g -> (In x (live b) <-> live_at g x b).
Proof. intros. apply (live_iff g E0 glob s1 s2 W); auto. Qed.

Lemma needs_as : forall x, In x (f_as F) -> needs_def F x = true.
Proof. intros x H. unfold needs_def. apply memb_In in H. rewrite H. reflexivity. Qed.

Lemma live_eqn : forall b x, b < nb g ->
  (In x (live b) <-> reads_first x (evs g b) \/
                     (~ assigns x (evs g b) /\ exists s, In s (flow g b) /\ In x (live s))).
Proof.
  intros b x Hb. rewrite live_iff' by exact Hb. split.
  - intros H. inversion H as [b' _ Hr|b' s _ Ha Hs Hl]; subst b'; [left; exact Hr|right].
    split; [exact Ha|]. exists s. split; [exact Hs|]. apply live_iff'; [exact (flow_lt b s Hb Hs)|exact Hl].
  - intros [Hr|(Ha&s&Hs&Hl)]; [exact (la_use g x b Hb Hr)|].
    apply la_step with s; auto. apply live_iff'; [exact (flow_lt b s Hb Hs)|exact Hl].
Qed.

Lemma first_succ_spec : forall after p ss,
  match first_succ_undef F after p ss with
  | None => forall s, In s ss -> succ_undef F after s = []
  | Some e => exists s x xs, e = SuccUndef p s (x :: xs) /\ In s ss /\ succ_undef F after s = x :: xs
  end.
Proof.
  intros after p ss. induction ss as [|s t IH]; simpl; [tauto|].
  destruct (succ_undef F after s) as [|x xs] eqn:Q; [|exists s, x, xs; auto].
  destruct (first_succ_undef F after p t).
  - destruct IH as (s'&x'&xs'&A&B&C). exists s', x', xs'. auto.
  - intros s' [<-|Hs]; auto.
Qed.

Lemma check_bb_spec : forall b row,
  match check_bb g F b row with
  | Ok after => after = exec (evs g b) row /\ (b = 0 -> entry_undef g F = []) /\
                forall s, In s (flow g b) -> succ_undef F after s = []
  | Rej e => (exists x, e = EntryUndef x /\ b = 0 /\ In x (entry_undef g F)) \/
             (exists s x xs, e = SuccUndef b s (x :: xs) /\ In s (flow g b) /\
                succ_undef F (exec (evs g b) row) s = x :: xs)
  end.
Proof.
  intros b row. unfold check_bb. fold (evs g b).
  destruct (if Nat.eqb b 0 then entry_undef g F else []) as [|x l] eqn:Q.
  - pose proof (first_succ_spec (exec (evs g b) row) b (flow_s g b)) as S.
    destruct (first_succ_undef F (exec (evs g b) row) b (flow_s g b)); [right; exact S|].
    split; [reflexivity|]. split; [intros ->; exact Q|exact S].
  - left. exists x. destruct (Nat.eqb_spec b 0) as [->|]; [|discriminate]. rewrite Q. simpl. auto.
Qed.

Lemma entry_undef_In : forall x, In x (entry_undef g F) <->
  reads_first x (evs g 0) /\ lookup x E0 = None /\ needs_def F x = true.
Proof.
  intros x. unfold entry_undef. fold (evs g 0). rewrite filter_In, used_char. split.
  - intros (Hr&Hc). apply andb_true_iff in Hc. destruct Hc as (Hd&Hn). apply negb_true_iff, memb_false in Hd.
    split; auto. split; auto. destruct (lookup x E0) eqn:N; auto.
    exfalso. apply Hd, (def0_iff g E0 glob s1 s2 W). congruence.
  - intros (Hr&Hl&Hn). split; auto. fold F. rewrite Hn, andb_true_r. apply negb_true_iff, memb_false.
    intros I. apply (def0_iff g E0 glob s1 s2 W) in I. congruence.
Qed.

Lemma succ_undef_In : forall after s x, In x (succ_undef F after s) <->
  In x (live s) /\ lookup x after = None /\ needs_def F x = true.
Proof.
  intros. unfold succ_undef. rewrite filter_In. destruct (lookup x after); split; intros [A B]; try tauto; try discriminate.
  destruct B; discriminate.
Qed.

Lemma succ_undef_after : forall b row s x, In x (succ_undef F (exec (evs g b) row) s) <->
  In x (live s) /\ lookup x row = None /\ ~ assigns x (evs g b) /\ needs_def F x = true.
Proof. intros. rewrite succ_undef_In, lookup_exec_none. tauto. Qed.

Lemma live_to_use : forall x s, live_at g x s -> reach_nodef g x s ->
  exists u, u < nb g /\ reach_nodef g x u /\ reads_first x (evs g u).
Proof.
  intros x s H. induction H as [b Hb Hf|b c Hb Ha Hc _ IH]; intros Hr; eauto.
  apply IH. apply rn_step with b; auto.
Qed.

Lemma use_to_live : forall x u, reach_nodef g x u -> live_at g x u -> live_at g x 0.
Proof.
  intros x u H. induction H as [|p b Hr IH Hp Ha Hb]; intros Hl; auto.
  apply IH. apply la_step with b; auto.
Qed.

Lemma undef_live : forall x, (exists u, undef_use g E0 x u) <-> lookup x E0 = None /\ live_at g x 0.
Proof.
  intros x. split.
  - intros (u&Hl&Hu&Hr&Hf). split; auto. apply (use_to_live x u Hr). apply la_use; auto.
  - intros [Hl Hv]. destruct (live_to_use x 0 Hv (rn_entry g x)) as (u&A&B&C).
    exists u. unfold undef_use. auto.
Qed.

Lemma entry_tests_iff : forall x,
  (In x (entry_undef g F) \/ exists s, In s (flow g 0) /\ In x (succ_undef F (exec (evs g 0) E0) s)) <->
  needs_def F x = true /\ exists u, undef_use g E0 x u.
Proof.
  intros x. rewrite undef_live, <- (live_iff' 0 x nb_pos), (live_eqn 0 x nb_pos). split.
  - intros [H|(s&Hs&Hx)].
    + apply entry_undef_In in H. destruct H as (Hr&Hl&Hn). auto.
    + apply succ_undef_after in Hx. destruct Hx as (Hv&Hl&Ha&Hn).
      split; [exact Hn|]. split; [exact Hl|]. right. split; [exact Ha|]. exists s. auto.
  - intros (Hn&Hl&[Hr|(Ha&s&Hs&Hv)]).
    + left. apply entry_undef_In. auto.
    + right. exists s. split; [exact Hs|]. apply succ_undef_after. auto.
Qed.

(** liveness makes restriction harmless *)
Definition agree (b : nat) (E1 E2 : env) : Prop := forall x, In x (live b) -> lookup x E1 = lookup x E2.

Lemma restrict_agree : forall b E, agree b (restrict E (live b)) E.
Proof. intros b E x Hx. rewrite lookup_restrict. apply memb_In in Hx. rewrite Hx. reflexivity. Qed.

Lemma exec_agree : forall p b E1 E2, p < nb g -> In b (flow g p) -> agree p E1 E2 ->
  agree b (exec (evs g p) E1) (exec (evs g p) E2).
Proof.
  intros p b E1 E2 Hp Hb A x Hx. apply exec_same.
  - intros y Hy. apply A, live_eqn; auto.
  - intros Na. apply A, live_eqn; eauto.
Qed.

(** What holds of a row with which the search enters block [b] ([entered]): on the variables live into
    [b] it is the typing of some path ([P_env]); it binds every live variable that must be in scope
    ([covers]) and nothing else ([tight]). *)
Definition P_env (b : nat) (row : env) : Prop := exists E, reach_env g E0 b E /\ agree b row E.

Definition covers (b : nat) (row : env) : Prop :=
  forall x, In x (live b) -> needs_def F x = true -> lookup x row <> None.

(* the entry row [E0] may bind inputs that are not live, hence [b <> 0] *)
Definition tight (b : nat) (row : env) : Prop :=
  forall x, lookup x row <> None -> needs_def F x = true /\ (b <> 0 -> In x (live b)).

Definition entered (b : nat) (row : env) : Prop := b < nb g /\ P_env b row /\ covers b row /\ tight b row.

Lemma entered_keys : forall b row, entered b row -> b <> 0 ->
  forall x, lookup x row <> None <-> (In x (live b) /\ needs_def F x = true).
Proof.
  intros b row (_&_&Cv&T) Hb0 x. split.
  - intros Hx. destruct (T x Hx) as [Hn Hl]. auto.
  - intros [Hl Hn]. exact (Cv x Hl Hn).
Qed.

Lemma entered_entry : ~ (exists x u, needs_def F x = true /\ undef_use g E0 x u) -> entered 0 E0.
Proof.
  intros NU. split; [apply nb_pos|]. split; [|split].
  - exists E0. split; [apply re_entry|]. intros x _. reflexivity.
  - intros x Hx Hn N. apply live_iff' in Hx; [|apply nb_pos].
    destruct (proj2 (undef_live x) (conj N Hx)) as (u&Hu). apply NU. exists x, u. auto.
  - intros x Hx. split; [|congruence]. apply needs_as, (as_iff g E0 glob s1 s2). auto.
Qed.

Lemma covers_after : forall b row s, b < nb g -> In s (flow g b) -> covers b row ->
  covers s (exec (evs g b) row).
Proof.
  intros b row s Hb Hs Cv x Hx Hn N. apply lookup_exec_none in N. destruct N as [N Na].
  apply (Cv x); auto. apply live_eqn; eauto.
Qed.

Lemma entered_child : forall p rowp b, entered p rowp -> In b (chk g p) ->
  entered b (restrict (exec (evs g p) rowp) (live b)).
Proof.
  intros p rowp b (Hp&(Ep&Re&Ae)&Cv&T) Hb.
  pose proof (chk_flow g p b Hb) as Hf.
  split; [apply (flow_lt p); auto|]. split; [|split].
  - exists (exec (evs g p) Ep). split; [apply re_step; auto|].
    intros x Hx. rewrite (restrict_agree b _ x Hx). exact (exec_agree p b rowp Ep Hp Hf Ae x Hx).
  - intros x Hl Hn. rewrite (restrict_agree b _ x Hl). exact (covers_after p rowp b Hp Hf Cv x Hl Hn).
  - intros x. rewrite lookup_restrict. destruct (memb x (live b)) eqn:M; [|congruence].
    intros Hx. split; [|intros _; apply memb_In; exact M].
    (* a name that needs no definition is bound neither by the row nor by the block *)
    destruct (needs_def F x) eqn:N; [reflexivity|]. destruct Hx. apply lookup_exec_none. split.
    + destruct (lookup x rowp) eqn:L; [|reflexivity]. destruct (T x) as [Hn _]; congruence.
    + intros Ha. rewrite needs_as in N; [discriminate|]. apply (as_iff g E0 glob s1 s2). right. exists p. auto.
Qed.

(** whatever a successor asks for is assigned by the block or was live into it: only the entry
    block's tests can fail *)
Lemma entered_check : forall b row, entered b row -> b <> 0 ->
  check_bb g F b row = Ok (exec (evs g b) row).
Proof.
  intros b row (Hb&_&Cv&_) Hb0. generalize (check_bb_spec b row).
  destruct (check_bb g F b row) as [after|e]; [intros (->&_); reflexivity|].
  intros [(_&_&->&_)|(s&x&xs&_&Hs&Hq)]; [congruence|].
  assert (Hx : In x (succ_undef F (exec (evs g b) row) s)) by (rewrite Hq; left; reflexivity).
  apply succ_undef_In in Hx. destruct Hx as (Hv&Hl&Hn). destruct (covers_after b row s Hb Hs Cv x Hv Hn Hl).
Qed.

Definition is_undef (e : error) : Prop :=
  match e with EntryUndef _ => True | SuccUndef p _ _ => p = 0 | _ => False end.

Definition undef_ok (e : error) : Prop :=
  match e with
  | EntryUndef x => needs_def F x = true /\ undef_use g E0 x 0
  | SuccUndef p s xs => p = 0 /\ s < nb g /\ forall x, In x xs ->
      needs_def F x = true /\ lookup x E0 = None /\ reach_nodef g x s
  | _ => False
  end.

Lemma undef_ok_is_undef : forall e, undef_ok e -> is_undef e.
Proof. intros [y|p s xs|p s xs|p s|]; simpl; tauto. Qed.

Lemma entry_spec :
  match check_bb g F 0 E0 with
  | Ok after => after = exec (evs g 0) E0 /\ ~ exists x u, needs_def F x = true /\ undef_use g E0 x u
  | Rej e => (exists x u, needs_def F x = true /\ undef_use g E0 x u) /\ undef_ok e
  end.
Proof.
  pose proof nb_pos as H0. generalize (check_bb_spec 0 E0). destruct (check_bb g F 0 E0) as [after|e].
  - intros (->&Q0&Qs). split; [reflexivity|]. intros (x&u&Hn&Hu).
    destruct (proj2 (entry_tests_iff x) (conj Hn (ex_intro _ u Hu))) as [I|(s&Hs&I)].
    + rewrite (Q0 eq_refl) in I. destruct I.
    + rewrite (Qs s Hs) in I. destruct I.
  - intros [(x&->&_&Hx)|(s&x&xs&->&Hs&Hq)].
    + apply entry_undef_In in Hx. destruct Hx as (Hr&Hl&Hn).
      assert (Hu : undef_use g E0 x 0) by (split; auto; split; auto; split; [apply rn_entry|exact Hr]).
      split; [exists x, 0; auto|split; assumption].
    + split.
      { assert (Hx : In x (succ_undef F (exec (evs g 0) E0) s)) by (rewrite Hq; left; reflexivity).
        destruct (proj1 (entry_tests_iff x) (or_intror (ex_intro _ s (conj Hs Hx)))) as (Hn&u&Hu). eauto. }
      split; auto. split; [apply (flow_lt 0); auto|].
      intros y Hy. rewrite <- Hq in Hy. apply succ_undef_after in Hy. destruct Hy as (Hv&Hl&Ha&Hn).
      split; [exact Hn|]. split; [exact Hl|]. exact (rn_step g y 0 s (rn_entry g y) H0 Ha Hs).
Qed.

Definition mismatch_ok (e : error) : Prop :=
  match e with
  | RowMismatch _ s xs => xs <> [] /\ forall x, In x xs -> ty_conflict g E0 x s
  | _ => False
  end.

Lemma mismatch_conflict : forall e, mismatch_ok e -> exists x s, ty_conflict g E0 x s.
Proof.
  intros [y|p s xs|p s [|x xs]|p s|]; simpl; try tauto. intros [_ K]. exists x, s. apply K. left. reflexivity.
Qed.

Lemma find_cons : forall b b' v c, find b ((b', v) :: c) = if Nat.eqb b b' then Some v else find b c.
Proof. reflexivity. Qed.

Lemma out_edges_In : forall p ss a b, In (a, b) (out_edges p ss) <-> a = p /\ In b ss.
Proof.
  intros. unfold out_edges. rewrite <- in_rev, in_map_iff. split.
  - intros [s [E H]]. inversion E. subst. auto.
  - intros [-> H]. exists b. auto.
Qed.

(** the last clause, once the queue is empty, says that every type-propagating edge has been compared *)
Definition Inv (q : list (nat * nat)) (c : compiled) : Prop :=
  (exists after, find 0 c = Some (E0, after)) /\
  (forall b row after, find b c = Some (row, after) ->
     entered b row /\ after = exec (evs g b) row) /\
  (forall p b, In (p, b) q -> (exists v, find p c = Some v) /\ In b (chk g p)) /\
  (forall p rowp afterp b, find p c = Some (rowp, afterp) -> In b (chk g p) ->
     In (p, b) q \/
     exists rowb afterb, find b c = Some (rowb, afterb) /\ agree b rowb afterp).

Lemma Inv_init : entered 0 E0 ->
  Inv (out_edges 0 (flow_s g 0)) [(0, (E0, exec (evs g 0) E0))].
Proof.
  intros Ent.
  assert (Z : forall p v, find p [(0, (E0, exec (evs g 0) E0))] = Some v -> p = 0 /\ v = (E0, exec (evs g 0) E0)).
  { intros p v Hf. rewrite find_cons in Hf. destruct (Nat.eqb_spec p 0); [|discriminate].
    inversion Hf. auto. }
  split; [eexists; reflexivity|]. split; [|split].
  - intros b row after' Hf. destruct (Z _ _ Hf) as [-> Ev]. inversion Ev. subst.
    split; [assumption|reflexivity].
  - intros p b Hin. apply out_edges_In in Hin. destruct Hin as [-> Hs]. split; [simpl; eauto|exact Hs].
  - intros p rowp afterp b Hf Hb. destruct (Z _ _ Hf) as [-> _]. left. apply out_edges_In. auto.
Qed.

Lemma Inv_head : forall p b q c, Inv ((p, b) :: q) c ->
  exists rowp afterp, find p c = Some (rowp, afterp) /\ b <> 0 /\
    entered b (restrict afterp (live b)).
Proof.
  intros p b q c (_&Ic&Iq&_). destruct (Iq p b (or_introl eq_refl)) as [[[rowp afterp] Fp] Hb].
  destruct (Ic p rowp afterp Fp) as [Entp ->]. exists rowp, (exec (evs g p) rowp).
  split; [exact Fp|]. split; [|exact (entered_child p rowp b Entp Hb)].
  intros ->. destruct Entp as [Hp _]. apply (no_pred0 p Hp). apply chk_flow. exact Hb.
Qed.

Lemma Inv_compared : forall p b q c rowp afterp rowb afterb, Inv ((p, b) :: q) c ->
  find p c = Some (rowp, afterp) -> find b c = Some (rowb, afterb) ->
  agree b rowb afterp -> Inv q c.
Proof.
  intros p b q c rowp afterp rowb afterb (I0&Ic&Iq&Ie) Fp Fb S0. split; [exact I0|]. split; [exact Ic|]. split.
  - intros p' b' H. apply Iq. right. exact H.
  - intros p0 rowp0 afterp0 b0 Fp0 Hb'.
    destruct (Ie p0 rowp0 afterp0 b0 Fp0 Hb') as [[Eq|Hin]|R]; auto.
    inversion Eq. subst p0 b0. right. rewrite Fp in Fp0. inversion Fp0. subst. eauto.
Qed.

Lemma Inv_compile : forall p b q c rowp afterp, Inv ((p, b) :: q) c ->
  find p c = Some (rowp, afterp) -> find b c = None -> b <> 0 ->
  entered b (restrict afterp (live b)) ->
  Inv (q ++ out_edges b (e_succ (eblk g b)))
      ((b, (restrict afterp (live b), exec (evs g b) (restrict afterp (live b)))) :: c).
Proof.
  intros p b q c rowp afterp I Fp Fb Hb0 Entb.
  assert (Hc : chk g b = e_succ (eblk g b)).
  { unfold chk. apply Nat.eqb_neq in Hb0. rewrite Hb0. reflexivity. }
  destruct I as ((after0&F0)&Ic&Iq&Ie). split; [|split; [|split]].
  - exists after0. rewrite find_cons. destruct (Nat.eqb_spec 0 b); [congruence|exact F0].
  - intros b' row' after' Hf. rewrite find_cons in Hf. destruct (Nat.eqb b' b) eqn:Q.
    + apply Nat.eqb_eq in Q. subst b'. inversion Hf. subst. auto.
    + apply Ic. exact Hf.
  - intros p' b' Hin. apply in_app_or in Hin. destruct Hin as [Hin|Hin].
    + destruct (Iq p' b' (or_intror Hin)) as [[v Fv] Hc']. split; auto.
      rewrite find_cons. destruct (Nat.eqb p' b); eauto.
    + apply out_edges_In in Hin. destruct Hin as [-> Hs]. rewrite Hc. split; [|exact Hs].
      rewrite find_cons, Nat.eqb_refl. eauto.
  - intros p0 rowp0 afterp0 b0 Fp0 Hb'. rewrite find_cons in Fp0. destruct (Nat.eqb p0 b) eqn:Q.
    + apply Nat.eqb_eq in Q. subst p0. left. apply in_or_app. right.
      apply out_edges_In. rewrite <- Hc. auto.
    + destruct (Ie p0 rowp0 afterp0 b0 Fp0 Hb') as [[Eq|Hin]|[rowb0 [afterb0 [Fb0 S0]]]].
      * inversion Eq. subst p0 b0. right. rewrite Fp in Fp0. inversion Fp0. subst.
        eexists _, _. rewrite find_cons, Nat.eqb_refl. split; [reflexivity|].
        apply restrict_agree.
      * left. apply in_or_app. auto.
      * right. exists rowb0, afterb0. split; auto. rewrite find_cons.
        destruct (Nat.eqb b0 b) eqn:Q2; auto. apply Nat.eqb_eq in Q2. subst. congruence.
Qed.

(* an edge is queued once, when its source is compiled: [todo] lists the blocks still to compile *)
Definition fuel_ok (n : nat) (q : list (nat * nat)) (c : compiled) : Prop :=
  exists todo, (forall b, b < nb g -> find b c = None -> In b todo) /\
               length q + length (flat_map (flow_s g) todo) < n.

Lemma out_edges_length : forall p ss, length (out_edges p ss) = length ss.
Proof. intros. unfold out_edges. rewrite rev_length. apply map_length. Qed.

Lemma fuel_pop : forall n e q c, fuel_ok (S n) (e :: q) c -> fuel_ok n q c.
Proof. intros n e q c (todo&T&M). exists todo. split; auto. simpl in M. lia. Qed.

Lemma fuel_compile : forall n e b q c v, fuel_ok (S n) (e :: q) c -> b < nb g -> find b c = None ->
  fuel_ok n (q ++ out_edges b (e_succ (eblk g b))) ((b, v) :: c).
Proof.
  intros n e b q c v (todo&T&M) Hb Fb. destruct (in_split b todo (T b Hb Fb)) as (l1&l2&->).
  exists (l1 ++ l2). split.
  - intros b' Hb' Hf. rewrite find_cons in Hf. destruct (Nat.eqb_spec b' b); [discriminate|].
    specialize (T b' Hb' Hf). apply in_app_or in T. apply in_or_app.
    destruct T as [T|[T|T]]; auto. congruence.
  - assert (L : length (e_succ (eblk g b)) <= length (flow_s g b)) by (unfold flow_s; rewrite app_length; lia).
    rewrite flat_map_app in *. simpl in M. rewrite !app_length in *. rewrite out_edges_length. lia.
Qed.

Lemma fuel_init : forall v, fuel_ok (S (n_edges g)) (out_edges 0 (flow_s g 0)) [(0, v)].
Proof.
  intros v. exists (seq 1 (nb g - 1)). split.
  - intros b Hb Hf. rewrite find_cons in Hf. destruct (Nat.eqb_spec b 0); [discriminate|].
    apply in_seq. lia.
  - unfold n_edges. fold (nb g). pose proof nb_pos. destruct (nb g) as [|n]; [lia|].
    simpl. rewrite Nat.sub_0_r, app_length, out_edges_length. lia.
Qed.

Lemma rows_keys_ok_true : forall r1 r2, (forall x, lookup x r1 <> None <-> lookup x r2 <> None) ->
  rows_keys_ok r1 r2 = true.
Proof.
  intros r1 r2 H. unfold rows_keys_ok. apply forallb_forall. intros x Hx.
  assert (A : lookup x r1 <> None).
  { apply in_app_or in Hx. destruct Hx as [Hx|Hx]; [apply lookup_keys; auto|apply H; apply lookup_keys; auto]. }
  pose proof A as B. apply H in B.
  destruct (lookup x r1); [|congruence]. destruct (lookup x r2); [reflexivity|congruence].
Qed.

Lemma rows_mismatch_In : forall r1 r2 x, In x (rows_mismatch r1 r2) <->
  exists t1 t2, lookup x r1 = Some t1 /\ lookup x r2 = Some t2 /\ t1 <> t2.
Proof.
  intros r1 r2 x. unfold rows_mismatch. rewrite filter_In. split.
  - intros [_ H]. destruct (lookup x r1) as [t1|]; [|discriminate]. destruct (lookup x r2) as [t2|]; [|discriminate].
    exists t1, t2. split; auto. split; auto. apply negb_true_iff in H. apply Nat.eqb_neq in H. exact H.
  - intros (t1&t2&L1&L2&Ne). split.
    + apply in_or_app. left. apply lookup_keys. congruence.
    + rewrite L1, L2. apply negb_true_iff, Nat.eqb_neq. exact Ne.
Qed.

Lemma rows_agree : forall r1 r2, (forall x, lookup x r1 <> None <-> lookup x r2 <> None) ->
  rows_mismatch r1 r2 = [] -> forall x, lookup x r1 = lookup x r2.
Proof.
  intros r1 r2 H M x. pose proof (H x) as Hx. pose proof (rows_mismatch_In r1 r2 x) as I. rewrite M in I.
  destruct (lookup x r1) as [t1|], (lookup x r2) as [t2|].
  - destruct (Nat.eq_dec t1 t2) as [->|Ne]; [reflexivity|]. destruct (proj2 I). eauto.
  - exfalso. apply (proj1 Hx); [discriminate|reflexivity].
  - exfalso. apply (proj2 Hx); [discriminate|reflexivity].
  - reflexivity.
Qed.

Lemma bfs_spec : forall fuel q c, Inv q c -> fuel_ok fuel q c ->
  match bfs g F fuel q c with Ok c' => Inv [] c' | Rej e => mismatch_ok e end.
Proof.
  induction fuel as [|f IH]; intros q c I M; [destruct M as (?&_&M); lia|]. cbn [bfs].
  destruct q as [|[p b] q']; [exact I|].
  destruct (Inv_head _ _ _ _ I) as (rowp&afterp&Fp&Hb0&Entb). pose proof (proj1 Entb) as Hbn.
  rewrite Fp. cbv beta iota zeta. set (row := restrict afterp (live b)) in *.
  destruct (find b c) as [[rowb afterb]|] eqn:Fb.
  - (* both rows bind exactly the live variables that must be in scope: no KeyError *)
    destruct (proj1 (proj2 I) b rowb afterb Fb) as [Entb' _].
    assert (D : forall x, lookup x row <> None <-> lookup x rowb <> None).
    { intros x. rewrite (entered_keys b row Entb Hb0 x), (entered_keys b rowb Entb' Hb0 x). tauto. }
    rewrite (rows_keys_ok_true _ _ D). destruct (rows_mismatch row rowb) as [|x xs] eqn:Mm.
    + apply IH; [|exact (fuel_pop _ _ _ _ M)].
      apply (Inv_compared p b q' c rowp afterp rowb afterb I Fp Fb).
      intros x Hx. rewrite <- (rows_agree _ _ D Mm x). exact (restrict_agree b afterp x Hx).
    + split; [discriminate|]. intros y Hy. rewrite <- Mm in Hy.
      destruct (proj1 (rows_mismatch_In _ _ _) Hy) as [t1 [t2 [L1 [L2 Ne]]]].
      destruct Entb as (_&(E1&R1&A1)&_). destruct Entb' as (_&(E2&R2&A2)&_&T2).
      assert (Hl : In y (live b)) by (apply (T2 y); congruence).
      split; [apply live_iff'; [exact Hbn|exact Hl]|].
      exists E1, E2, t1, t2. rewrite <- (A1 y Hl), <- (A2 y Hl).
      exact (conj R1 (conj R2 (conj L1 (conj L2 Ne)))).
  - rewrite (entered_check b row Entb Hb0).
    apply IH; [exact (Inv_compile p b q' c rowp afterp I Fp Fb Hb0 Entb)|].
    exact (fuel_compile _ _ _ _ _ _ M Hbn Fb).
Qed.

Lemma closed_rows : forall c', Inv [] c' -> forall b E, reach_env g E0 b E ->
  exists rowb afterb, find b c' = Some (rowb, afterb) /\ agree b rowb E.
Proof.
  intros c' ((after&F0)&Ic&_&Cl) b E R. induction R as [|p E b R IH Hp Hb].
  - exists E0, after. split; [exact F0|]. intros x _. reflexivity.
  - destruct IH as (rowp&afterp&Fp&Ap).
    destruct (Cl p rowp afterp b Fp Hb) as [[]|(rowb&afterb&Fb&Ab)].
    exists rowb, afterb. split; [exact Fb|].
    destruct (Ic p rowp afterp Fp) as [_ ->].
    intros x Hx. rewrite (Ab x Hx). exact (exec_agree p b rowp E Hp (chk_flow g p b Hb) Ap x Hx).
Qed.

Lemma closed_no_conflict : forall c' x s, Inv [] c' -> ~ ty_conflict g E0 x s.
Proof.
  intros c' x s I (Hl&E1&E2&t1&t2&R1&R2&L1&L2&Ne).
  destruct (closed_rows c' I s E1 R1) as (row&aft&Fs&A1).
  destruct (closed_rows c' I s E2 R2) as (row'&aft'&Fs'&A2).
  rewrite Fs in Fs'. inversion Fs'. subst row' aft'.
  assert (Hs : s < nb g) by (inversion Hl; assumption).
  apply live_iff' in Hl; [|exact Hs]. rewrite <- (A1 x Hl), (A2 x Hl) in L1. congruence.
Qed.

Lemma check_cfg_eq : check_cfg g E0 glob s1 s2 =
  match check_bb g F 0 E0 with
  | Rej e => Rej e
  | Ok after => bfs g F (S (n_edges g)) (out_edges 0 (flow_s g 0)) [(0, (E0, after))]
  end.
Proof. reflexivity. Qed.

(** the three ways a check can end: the entry block's tests fail; they pass and the search ends
    in a row mismatch; it accepts.  An undefined use wins over a type conflict. *)
Theorem verdict :
  match check_cfg g E0 glob s1 s2 with
  | Ok _ => ~ (exists x u, needs_def F x = true /\ undef_use g E0 x u) /\ ~ exists x s, ty_conflict g E0 x s
  | Rej e => ((exists x u, needs_def F x = true /\ undef_use g E0 x u) /\ undef_ok e) \/
             (~ (exists x u, needs_def F x = true /\ undef_use g E0 x u) /\
              (exists x s, ty_conflict g E0 x s) /\ mismatch_ok e)
  end.
Proof.
  rewrite check_cfg_eq. generalize entry_spec.
  destruct (check_bb g F 0 E0) as [after|e]; [intros (->&NU)|intros U; left; exact U].
  pose proof (bfs_spec _ _ _ (Inv_init (entered_entry NU)) (fuel_init _)) as P.
  destruct (bfs g F _ _ _) as [c'|e]; [|right; exact (conj NU (conj (mismatch_conflict e P) P))].
  split; [exact NU|]. intros (x&s&C). exact (closed_no_conflict c' x s P C).
Qed.

Lemma report_type_cands_sound : forall e x u, check_cfg g E0 glob s1 s2 = Rej e ->
  In (x, u) (report_type_cands g e) ->
  exists s, ty_conflict g E0 x s.
Proof.
  intros e x u H Hin.
  destruct e as [y|p s xs|p s xs|p s|]; unfold report_type_cands in Hin; try (destruct Hin; fail).
  pose proof verdict as V. rewrite H in V. destruct V as [[_ []]|(_&_&_&K)].
  apply in_flat_map in Hin. destruct Hin as [y [Hy Hin]].
  apply in_map_iff in Hin. destruct Hin as [u' [Eq Hu]]. inversion Eq. subst. exists s. auto.
Qed.

Lemma iter_nodef_sound : forall x n Wl,
  (forall w, In w Wl -> w < nb g /\ reach_nodef g x w) ->
  forall w, In w (iter_nodef g x n Wl) -> w < nb g /\ reach_nodef g x w.
Proof.
  intros x n. induction n as [|n IH]; intros Wl H w Hw; simpl in Hw; auto.
  apply (IH (norm (step_nodef g x Wl))); auto.
  intros w' Hw'. unfold norm in Hw'. apply q_add_In in Hw'. destruct Hw' as [Hw'|[]].
  unfold step_nodef in Hw'. apply in_app_or in Hw'. destruct Hw' as [Hw'|Hw']; auto.
  apply in_flat_map in Hw'. destruct Hw' as [b [Hb Hw']].
  destruct (H b Hb) as [Hbn Hr].
  destruct (memb x (assigned_of (e_evs (eblk g b)))) eqn:M; [destruct Hw'|].
  apply memb_false in M. fold (evs g b) in M. rewrite assigned_char in M.
  unfold flow_s in Hw'. fold (flow g b) in Hw'.
  split; [apply (flow_lt b); auto|apply rn_step with b; auto].
Qed.

Lemma witness_sound : forall x s u, s < nb g -> reach_nodef g x s -> In u (witness_blocks g x s) ->
  u < nb g /\ reach_nodef g x u /\ reads_first x (evs g u).
Proof.
  intros x s u Hs Hr Hu. unfold witness_blocks in Hu. apply filter_In in Hu. destruct Hu as [Hu Hm].
  destruct (iter_nodef_sound x (length g) [s]) with (w := u) as [A B]; auto.
  - intros w [<-|[]]. auto.
  - split; auto. split; auto. apply used_char. apply memb_In. exact Hm.
Qed.

(** the left side is [report_cands]'s flag for the wording "might be undefined" *)
Lemma maybe_wording : forall x u, u < nb g -> lookup x E0 = None ->
  (memb x (f_as F) && memb x (getv (f_maybe F) u) = true <->
   assigned_before cg (keys E0) x u).
Proof.
  intros x u Hu Hx. rewrite andb_true_iff, !memb_In.
  rewrite (maybe_iff g E0 glob s1 s2 W u x Hu Hx : In x (getv (f_maybe F) u) <-> _). split; [tauto|]. intros H. split; auto.
  (* a variable assigned on some path is assigned somewhere *)
  apply (as_iff g E0 glob s1 s2). right.
  assert (K : forall b, assigned_after cg (keys E0) x b -> exists b', b' < nb g /\ assigns x (evs g b')).
  { intros b Hb. induction Hb as [b Hb Hd|b Hb Hp Hd|b p Hb Hp _ IH]; auto.
    - exists b. split; [unfold cg in Hb; rewrite nblocks_to_cfg in Hb; auto|apply def_to_cfg; auto].
    - exfalso. apply lookup_keys in Hd. auto. }
  destruct H as [[_ Hd]|[p [_ Hp]]]; [exfalso; apply lookup_keys in Hd; auto|apply (K p Hp)].
Qed.

End Exact.
