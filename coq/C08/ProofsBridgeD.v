(** V.C08.ProofsBridgeD — walks through a laid-out statement, on a finished graph: the walks that
    start where the statement starts spell exactly its syntactic paths ([lay_paths]): every path is
    a walk ([fwd]), and every walk is a path followed by a walk from where the path's outcome leads
    ([bwd]). *)
From Coq Require Import ZArith List Bool Lia.
From V.C03 Require Import PyAst Cfg Builder ProofsExpr ProofsLayout.
From V.C08 Require Import Bridge ProofsBridgeA.
Import ListNotations.

(* the position to which a path with outcome [o] leads, for a statement with normal exit [e] and jump
   targets [j]; [None]: nowhere (the path stops, or the statement has no such exit) *)
Definition lands (j : jumps) (e : option pos) (o : out) : option pos :=
  match o with
  | ONorm => e
  | OBrk => option_map (fun b => (b, 0)) (j_brk j)
  | OCont => option_map (fun b => (b, 0)) (j_cont j)
  | ORet => Some (j_ret j, 0)
  | OStop => None
  end.

Lemma walk_inv : forall G c items c', walk G c items c' ->
  (items = [] /\ c' = c) \/ exists i1 c1 i2, items = i1 ++ i2 /\ wstep G c i1 c1 /\ walk G c1 i2 c'.
Proof. intros G c items c' W. inversion W; subst; [left; auto|right; eauto 6]. Qed.

Section On.
Variable G : list block.

(* [items] is spelt by a walk from [c] that arrives where the outcome [o] leads (anywhere, if [o] is a stop) *)
Definition wout (c : pos) (j : jumps) (e : option pos) (items : list item) (o : out) : Prop :=
  exists c', walk G c items c' /\ (o = OStop \/ lands j e o = Some c').

Lemma wout_prefix : forall c0 i0 c j e items o,
  walk G c0 i0 c -> wout c j e items o -> wout c0 j e (i0 ++ items) o.
Proof. intros c0 i0 c j e items o W (c'&T&H). exists c'. split; [exact (walk_trans G _ _ _ _ _ W T) | exact H]. Qed.

Lemma wout_stop_nil : forall c j e, wout c j e [] OStop.
Proof. intros. exists c. split; [constructor | left; reflexivity]. Qed.

Definition fwd (c : pos) (j : jumps) (e : option pos) (P : list item -> out -> Prop) : Prop :=
  forall items o, P items o -> wout c j e items o.

(* what a walk spells beyond a path with outcome [o]: nothing, or [i2] on a walk from where [o] leads to [c'];
   [splits]: the items of a walk to [c'] are a path of [P] followed by such a remainder *)
Definition bout (j : jumps) (e : option pos) (o : out) (i2 : list item) (c' : pos) : Prop :=
  i2 = [] \/ exists c1, lands j e o = Some c1 /\ walk G c1 i2 c'.

Definition splits (j : jumps) (e : option pos) (P : list item -> out -> Prop) (items : list item) (c' : pos) : Prop :=
  exists i1 i2 o, items = i1 ++ i2 /\ P i1 o /\ bout j e o i2 c'.

Definition bwd (c : pos) (j : jumps) (e : option pos) (P : list item -> out -> Prop) : Prop :=
  forall items c', walk G c items c' -> splits j e P items c'.

Lemma bwd_stop : forall j e (P : list item -> out -> Prop) c', P [] OStop -> splits j e P [] c'.
Proof. intros. exists [], [], OStop. split; auto. split; auto. left. auto. Qed.

Definition both (c : pos) (j : jumps) (e : option pos) (P : list item -> out -> Prop) : Prop :=
  fwd c j e P /\ bwd c j e P.

Lemma both_simple : forall c j s o' e, at_stmt G c s ->
  both (next c) j e (fun items o => items = [] /\ o = o') -> both c j e (simple_path s o').
Proof.
  intros c j s o' e A (F&B). split.
  - intros items o [[-> ->]|[-> ->]]; [|apply wout_stop_nil].
    apply (wout_prefix c [IStmt s] (next c)); [apply walk_stmt; exact A | exact (F [] o' (conj eq_refl eq_refl))].
  - intros items c' W.
    destruct (walk_inv _ _ _ _ W) as [(->&_)|(i1&c1&i2&->&S&T)]; [apply bwd_stop; right; auto|].
    apply (at_stmt_step G c s _ _ A) in S. destruct S as (->&->).
    destruct (B i2 c' T) as (i3&i4&o&->&(->&->)&BO).
    exists [IStmt s], i4, o'. split; auto. split; [left; auto|exact BO].
Qed.

(* an exit one jump before another is as good *)
Lemma both_exit : forall c j e e' (P : list item -> out -> Prop),
  (forall a, e = Some a -> e' = Some a \/ exists m, jump G a m /\ e' = Some (m, 0)) ->
  both c j e P -> both c j e' P.
Proof.
  intros c j e e' P He (F&B).
  assert (H : forall o a, lands j e o = Some a ->
                lands j e' o = Some a \/ exists m, jump G a m /\ lands j e' o = Some (m, 0)).
  { intros o a X. destruct o; simpl in *; auto. }
  split.
  - intros items o X. destruct (F items o X) as (a&W&[S|Y]); [exists a; auto|].
    destruct (H o a Y) as [Z|(m&Ja&Z)]; [exists a; auto|].
    exists (m, 0). split; [|right; exact Z]. rewrite <- (app_nil_r items).
    exact (walk_trans G _ _ _ _ _ W (walk_jump G a m Ja)).
  - intros items c' W. destruct (B items c' W) as (i1&i2&o&->&X&BO).
    exists i1, i2, o. split; auto. split; auto.
    destruct BO as [Z|(a&Y&T)]; [left; exact Z|].
    destruct (H o a Y) as [Z|(m&Ja&Z)]; [right; exists a; auto|].
    destruct (walk_inv _ _ _ _ T) as [(Z'&_)|(i3&c3&i4&->&S&T')]; [left; exact Z'|].
    apply (jump_step G a m _ _ Ja) in S. destruct S as (->&->). right. exists (m, 0). auto.
Qed.

Lemma both_after_jump : forall c t j e (P : list item -> out -> Prop),
  jump G c t -> both (t, 0) j e P -> both c j e P.
Proof.
  intros c t j e P Jc (F&B). split.
  - intros items o X. exact (wout_prefix c [] (t, 0) j e items o (walk_jump G c t Jc) (F items o X)).
  - intros items c' W. destruct (walk_inv _ _ _ _ W) as [(->&_)|(i1&c1&i2&->&S&T)].
    + (* nothing spelt: where the walk stands plays no role *)
      destruct (B [] (t, 0) (w_refl G (t, 0))) as (i1&i2&o&E&X&_). symmetry in E. apply app_eq_nil in E.
      destruct E as (->&->). exists [], [], o. split; auto. split; auto. left. auto.
    + apply (jump_step G c t _ _ Jc) in S. destruct S as (->&->). exact (B i2 c' T).
Qed.

Lemma both_leave : forall c j e o, lands j e o = Some c -> both c j e (fun items o' => items = [] /\ o' = o).
Proof.
  intros c j e o X. split.
  - intros items o' (->&->). exists c. split; [constructor|auto].
  - intros items c' W. exists [], items, o. split; auto. split; auto. right. exists c. auto.
Qed.

Lemma both_leave_stop : forall c j e o, lands j e o = Some c ->
  both c j e (fun items o' => items = [] /\ (o' = o \/ o' = OStop)).
Proof.
  intros c j e o X. destruct (both_leave c j e o X) as (F&B). split.
  - intros items o' [-> [->| ->]]; [apply F; auto|apply wout_stop_nil].
  - intros items c' W. destruct (B items c' W) as (i1&i2&o1&->&(->&->)&BO). exists [], i2, o. auto.
Qed.

Lemma both_if : forall c j e p t f (P1 P2 : list item -> out -> Prop),
  branch G c p t f -> both (t, 0) j e P1 -> both (f, 0) j e P2 ->
  both c j e (fun items o => (items = [] /\ o = OStop) \/
                             exists i1, items = ICond p :: i1 /\ (P1 i1 o \/ P2 i1 o)).
Proof.
  intros c j e p t f P1 P2 Br (F1&B1) (F2&B2). split.
  - intros items o [[-> ->]|(i1&->&X)]; [apply wout_stop_nil|].
    destruct X as [X|X].
    + apply (wout_prefix c [ICond p] (t, 0)); [apply (walk_branch G c _ t f); auto | exact (F1 _ _ X)].
    + apply (wout_prefix c [ICond p] (f, 0)); [apply (walk_branch G c _ t f); auto | exact (F2 _ _ X)].
  - intros items c' W.
    destruct (walk_inv _ _ _ _ W) as [(->&_)|(i0&c1&i3&->&S&T)]; [apply bwd_stop; auto|].
    apply (branch_step G c _ t f _ _ Br) in S. destruct S as (->&D).
    assert (K : splits j e (fun i o => P1 i o \/ P2 i o) i3 c').
    { destruct D as [-> | ->].
      - destruct (B1 i3 c' T) as (i1&i2&o&E&X&BO). exists i1, i2, o. auto.
      - destruct (B2 i3 c' T) as (i1&i2&o&E&X&BO). exists i1, i2, o. auto. }
    destruct K as (i1&i2&o&->&X&BO). exists (ICond p :: i1), i2, o. split; auto. split; [right; exists i1; auto|exact BO].
Qed.

Lemma sloop_through : forall (P : list item -> out -> Prop) ci i1 o1, P i1 o1 ->
  exists o, sloop P ci (ci :: i1) o.
Proof.
  intros P ci i1 o1 H. destruct o1.
  - exists OStop. rewrite <- (app_nil_r i1). eapply sl_next; eauto. constructor.
  - exists ONorm. apply sl_brk; auto.
  - exists OStop. rewrite <- (app_nil_r i1). eapply sl_next; eauto. constructor.
  - exists ORet. apply sl_out; auto.
  - exists OStop. apply sl_out; auto.
Qed.

(* falling through the body and [continue] both lead back to the head *)
Lemma both_loop : forall j p h t f (P : list item -> out -> Prop),
  branch G (h, 0) p t f -> both (t, 0) (mkJ (j_ret j) (Some h) (Some f)) (Some (h, 0)) P ->
  both (h, 0) j (Some (f, 0)) (sloop P (ICond p)).
Proof.
  intros j p h t f P Br (FB&BB). split.
  { intros items o X.
    pose proof (walk_branch G (h, 0) _ t f t Br (or_introl eq_refl)) as ToBody.
    induction X as [| |i1 o1 i2 o2 P1 Ho1 LL2 IH|i1 P1|i1 o1 P1 Ho1].
    - exists (f, 0). split; [apply (walk_branch G (h, 0) _ t f); auto|auto].
    - apply wout_stop_nil.
    - (* once around, back at the head *)
      apply (wout_prefix (h, 0) (ICond p :: i1) (h, 0)); [|exact IH].
      destruct (FB i1 o1 P1) as (a&T&[S|Xa]); [destruct Ho1; congruence|].
      apply (walk_trans G _ [ICond p] _ i1 _ ToBody). destruct Ho1 as [-> | ->]; inversion Xa; subst a; exact T.
    - destruct (FB i1 OBrk P1) as (a&T&[S|Xa]); [discriminate|]. inversion Xa; subst a.
      exists (f, 0). split; [exact (walk_trans G _ [ICond p] _ i1 _ ToBody T)|auto].
    - apply (wout_prefix (h, 0) [ICond p] (t, 0) j _ i1 o1 ToBody).
      destruct (FB i1 o1 P1) as (a&T&H). exists a. split; [exact T|]. destruct Ho1 as [-> | ->]; [exact H|auto]. }
  { (* every round spells the condition, so the rest of the walk is shorter *)
    assert (Loop : forall n items c', length items < n -> walk G (h, 0) items c' ->
              splits j (Some (f, 0)) (sloop P (ICond p)) items c').
    { induction n as [|n IH]; intros items c' Ln W; [inversion Ln|].
      destruct (walk_inv _ _ _ _ W) as [(->&_)|(i0&c1&i3&->&Sx&T)]; [apply bwd_stop; constructor|].
      apply (branch_step G (h, 0) _ t f _ _ Br) in Sx. destruct Sx as (->&[->| ->]).
      2: { exists [ICond p], i3, ONorm. split; auto. split; [constructor|]. right. exists (f, 0). auto. }
      destruct (BB i3 c' T) as (i1&i2&o1&->&P1&BO).
      destruct BO as [->|(a&Xa&T1)].
      { destruct (sloop_through P (ICond p) i1 o1 P1) as (o&L).
        exists (ICond p :: i1), [], o. split; auto. split; [exact L|left; auto]. }
      assert (Again : o1 = ONorm \/ o1 = OCont -> a = (h, 0) ->
                 splits j (Some (f, 0)) (sloop P (ICond p)) ((ICond p :: i1) ++ i2) c').
      { intros Ho1 ->. destruct (IH i2 c') as (i6&i7&o&->&L6&BO6); [|exact T1|].
        - simpl in Ln. rewrite !app_length in Ln. lia.
        - exists (ICond p :: i1 ++ i6), i7, o. split; [simpl; rewrite <- app_assoc; auto|].
          split; [eapply sl_next; eauto|exact BO6]. }
      destruct o1; simpl in Xa; try discriminate; inversion Xa.
      - apply Again; auto.
      - exists (ICond p :: i1), i2, ONorm. split; auto. split; [apply sl_brk; auto|]. right. exists a. subst a. auto.
      - apply Again; auto.
      - exists (ICond p :: i1), i2, ORet. split; auto. split; [apply sl_out; auto|]. right. exists a. subst a. auto. }
    intros items c' W. exact (Loop (S (length items)) items c' (Nat.lt_succ_diag_r _) W). }
Qed.

Lemma both_cons : forall c j e1 e (P1 P2 : list item -> out -> Prop), P2 [] OStop ->
  both c j e1 P1 -> (forall c1, e1 = Some c1 -> both c1 j e P2) ->
  both c j e (fun items o => (exists i1 i2, items = i1 ++ i2 /\ P1 i1 ONorm /\ P2 i2 o) \/
                             (P1 items o /\ o <> ONorm)).
Proof.
  intros c j e1 e P1 P2 Stop (F1&B1) K. split.
  - intros items o [(i1&i2&->&X1&X2)|(X1&No)].
    + destruct (F1 i1 ONorm X1) as (c1&T1&[S|E1]); [discriminate|].
      apply (wout_prefix c i1 c1); [exact T1|]. exact (proj1 (K c1 E1) _ _ X2).
    + destruct (F1 items o X1) as (c1&T1&H). exists c1. split; [exact T1|]. destruct o; try congruence; exact H.
  - intros items c' W.
    destruct (B1 items c' W) as (i1&i2&o&->&X1&BO).
    destruct o.
    2-5: exists i1, i2; eexists; (split; [reflexivity|]); (split; [right; split; [exact X1|discriminate]|exact BO]).
    destruct BO as [->|(c1&E1&T1)].
    + (* the walk ends inside the first statement *)
      exists i1, [], OStop. split; auto. split; [|left; auto].
      left. exists i1, []. split; [rewrite app_nil_r; auto|]. auto.
    + destruct (proj2 (K c1 E1) i2 c' T1) as (i21&i22&o2&->&X2&BO2).
      exists (i1 ++ i21), i22, o2. split; [rewrite app_assoc; auto|]. split; [left; exists i1, i21; auto|exact BO2].
Qed.

Lemma spath_stop : (forall s, spath_s s [] OStop) /\ (forall ss, spath_l ss [] OStop).
Proof.
  apply stmt_mutind; intros; simpl; auto; try (right; auto; fail).
  - constructor.
  - destruct e; right; auto.
  - right. split; auto. discriminate.
Qed.

(* on the fragment an expression statement is never a bare temporary, so it is in its block *)
Lemma cf_expr_lay : forall x c j e, cf_stmt (SExpr x) = true -> lay_s G (SExpr x) c j e ->
  at_stmt G c (SExpr (fold_neg x)) /\ e = Some (next c).
Proof.
  intros x c j e F (c1&x1&(->&->)&H). simpl in F. apply andb_prop in F. destruct F as [_ F].
  apply negb_true_iff in F. destruct (is_tmp_name (fold_neg x)) eqn:T; [|exact H].
  destruct (is_tmp_fold x T) as (m&->). discriminate.
Qed.

Theorem lay_paths :
  (forall s, cf_stmt s = true -> forall c j e, lay_s G s c j e -> both c j e (spath_s s)) /\
  (forall ss, cf_stmts ss = true -> forall c j e, lay_l G ss c j e -> both c j e (spath_l ss)).
Proof.
  assert (Norm : forall c j, both c j (Some c) (fun items o => items = [] /\ o = ONorm)).
  { intros c j. apply both_leave. reflexivity. }
  assert (Ret : forall c j, jump G c (j_ret j) -> both c j None (fun items o => items = [] /\ o = ORet)).
  { intros c j Jc. apply (both_after_jump c _ j None _ Jc), both_leave. reflexivity. }
  apply stmt_mutind; simpl.
  - intros t x _ c j e (c2&(c1&x1&(->&->)&A&->)&->). apply both_simple; [exact A|apply Norm].
  - intros x op y _ c j e (c2&(c1&y1&(->&->)&A&->)&->). apply both_simple; [exact A|apply Norm].
  - intros x F c j e L. destruct (cf_expr_lay x c j e F L) as (A&->). apply both_simple; [exact A|apply Norm].
  - intros x body Hb orelse Ho F c j e (t&f&e1&e2&Br&L1&L2&Jn). destruct (cf_if _ _ _ F) as (_&F1&F2).
    apply (both_if c j e _ t f _ _ Br).
    + exact (both_exit _ j e1 e _ (fun a X => joined_exit G e1 e2 e a Jn (or_introl X)) (Hb F1 _ _ _ L1)).
    + exact (both_exit _ j e2 e _ (fun a X => joined_exit G e1 e2 e a Jn (or_intror X)) (Ho F2 _ _ _ L2)).
  - intros x body Hb orelse _ F c j e (_&h&t&f&eb&Jc&Br&Lb&Bk&->). destruct (cf_while _ _ _ F) as (_&F1).
    apply (both_after_jump c h j _ _ Jc), (both_loop j _ h t f _ Br).
    (* the body falls through one jump before the head *)
    apply (both_exit _ _ eb); [|exact (Hb F1 _ _ _ Lb)].
    intros a Ea. right. exists h. split; [exact (Bk a Ea)|reflexivity].
  - intros _ c j e (b&Eb&Jc&->). apply (both_after_jump c b j None _ Jc), both_leave_stop. simpl. rewrite Eb. reflexivity.
  - intros _ c j e (b&Eb&Jc&->). apply (both_after_jump c b j None _ Jc), both_leave_stop. simpl. rewrite Eb. reflexivity.
  - intros _ c j e ->. apply both_leave_stop. reflexivity.
  - intros [x|] _ c j e.
    + intros (c2&(c1&x1&(->&->)&A&->)&Jc&->). apply both_simple; [exact A|apply Ret; exact Jc].
    + intros (A&Jc&->). apply both_simple; [exact A|apply Ret; exact Jc].
  - intros _ c j e ->. apply both_leave_stop. reflexivity.
  - intros s Hs r Hr F c j e (e1&L1&L2). apply andb_prop in F. destruct F as [F1 F2].
    apply (both_cons c j e1 e _ _ (proj2 spath_stop r) (Hs F1 _ _ _ L1)). intros c1 ->. exact (Hr F2 _ _ _ L2).
Qed.
End On.

Inductive walkn (G : list block) : nat -> pos -> list item -> pos -> Prop :=
| wn_refl c : walkn G 0 c [] c
| wn_cons n c i1 c1 i2 c2 : wstep G c i1 c1 -> walkn G n c1 i2 c2 -> walkn G (S n) c (i1 ++ i2) c2.

Lemma walkn_walk : forall G n c items c', walkn G n c items c' -> walk G c items c'.
Proof. intros G n c items c' W. induction W; econstructor; eauto. Qed.
