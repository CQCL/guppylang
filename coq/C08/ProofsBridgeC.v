(** V.C08.ProofsBridgeC — the event CFG [ecfg_of G] of a graph of C03, block by block, and the
    event-level reading of item lists: [nodef], reads and assignments of a block's statements. *)
From Coq Require Import ZArith List Lia.
From V.C08 Require Import CfgCheck Spec ProofsBase Bridge.
From V.C03 Require Import Cfg ProofsBase.
Import ListNotations.

Lemma eblk_ecfg_of : forall G b,
  eblk (ecfg_of G) b = mkEB (b_succs (blk G b)) (b_dummy (blk G b)) (ev_block (blk G b)).
Proof.
  intros. unfold eblk, ecfg_of, blk.
  change empty_eb with ((fun b0 => mkEB (b_succs b0) (b_dummy b0) (ev_block b0)) empty_block).
  apply map_nth.
Qed.
Lemma nb_ecfg_of : forall G, nb (ecfg_of G) = length G.
Proof. intros. unfold nb, ecfg_of. apply map_length. Qed.
Lemma evs_ecfg_of : forall G b, evs (ecfg_of G) b = ev_block (blk G b).
Proof. intros. unfold evs. rewrite eblk_ecfg_of. reflexivity. Qed.
Lemma flow_ecfg_of : forall G b, flow (ecfg_of G) b = b_succs (blk G b) ++ b_dummy (blk G b).
Proof. intros. unfold flow. rewrite eblk_ecfg_of. reflexivity. Qed.

Lemma assigns_app : forall x l1 l2, assigns x (l1 ++ l2) <-> assigns x l1 \/ assigns x l2.
Proof.
  intros. unfold assigns. split.
  - intros (e&H&D). apply in_app_or in H. destruct H; [left|right]; eauto.
  - intros [(e&H&D)|(e&H&D)]; exists e; split; auto; apply in_or_app; auto.
Qed.
Lemma uses_no_assign : forall x e, ~ assigns x (uses e).
Proof.
  intros x e (ev&H&D). unfold uses in H. apply in_map_iff in H. destruct H as (y&<-&_). exact D.
Qed.
Lemma reads_first_app : forall x l1 l2,
  reads_first x (l1 ++ l2) <-> reads_first x l1 \/ (~ assigns x l1 /\ reads_first x l2).
Proof.
  intros x l1 l2. induction l1 as [|e t IH]; simpl.
  - pose proof (assigns_nil x). tauto.
  - rewrite IH, assigns_cons. tauto.
Qed.

Lemma split_reads : forall x l tl, reads_first x (flat_map ev_stmt l ++ tl) ->
  (exists l1 s l2, l = l1 ++ s :: l2 /\ ~ assigns x (flat_map ev_stmt l1) /\ reads_first x (ev_stmt s)) \/
  (~ assigns x (flat_map ev_stmt l) /\ reads_first x tl).
Proof.
  intros x l. induction l as [|a l IH]; intros tl R; simpl in *.
  - right. split; auto. apply assigns_nil.
  - rewrite <- app_assoc in R. destruct (proj1 (reads_first_app _ _ _) R) as [A|[A B]].
    + left. exists [], a, l. simpl. split; auto. split; auto. apply assigns_nil.
    + destruct (IH tl B) as [(l1&s&l2&->&N&Rs)|(N&Rt)].
      * left. exists (a :: l1), s, l2. simpl. split; auto. split; auto.
        intros H. apply assigns_app in H. tauto.
      * right. split; auto. intros H. apply assigns_app in H. tauto.
Qed.

Section ToEvents.
Variable G : list block.
Variable x : nat.

Definition nodef (items : list item) : Prop := forall it, In it items -> ~ assigns x (ev_item it).

Lemma nodef_app : forall a b, nodef a -> nodef b -> nodef (a ++ b).
Proof. intros a b Ha Hb it H. apply in_app_or in H. destruct H; auto. Qed.

Lemma nodef_stmts : forall l, ~ assigns x (flat_map ev_stmt l) -> nodef (map IStmt l).
Proof.
  intros l N it Hit A. apply in_map_iff in Hit. destruct Hit as (s&<-&Hs). apply N.
  destruct A as (e&He&D). exists e. split; auto. apply in_flat_map. exists s. auto.
Qed.

Lemma nodef_block : forall b, ~ assigns x (ev_block (blk G b)) ->
  nodef (map IStmt (b_stmts (blk G b)) ++ match b_pred (blk G b) with Some q => [ICond q] | None => [] end).
Proof.
  intros b N. apply nodef_app.
  - apply nodef_stmts. intros A. apply N. apply assigns_app. auto.
  - destruct (b_pred (blk G b)); [intros it [<-|[]]; apply uses_no_assign|intros it []].
Qed.

Lemma walk_stmts : forall b l0 l1 l2, b_stmts (blk G b) = l0 ++ l1 ++ l2 ->
  walk G (b, length l0) (map IStmt l1) (b, length l0 + length l1).
Proof.
  intros b l0 l1. revert l0. induction l1 as [|s l1 IH]; intros l0 l2 E; simpl.
  - rewrite Nat.add_0_r. constructor.
  - change (IStmt s :: map IStmt l1) with ([IStmt s] ++ map IStmt l1). econstructor.
    + apply ws_stmt. rewrite E. rewrite nth_error_app2 by lia. rewrite Nat.sub_diag. reflexivity.
    + replace (length l0 + S (length l1)) with (length (l0 ++ [s]) + length l1) by (rewrite app_length; simpl; lia).
      replace (S (length l0)) with (length (l0 ++ [s])) by (rewrite app_length; simpl; lia).
      apply (IH (l0 ++ [s]) l2). rewrite E. rewrite <- app_assoc. reflexivity.
Qed.

Lemma walk_block : forall b, walk G (b, 0) (map IStmt (b_stmts (blk G b))) (b, length (b_stmts (blk G b))).
Proof. intros b. apply (walk_stmts b [] _ []). rewrite app_nil_r. reflexivity. Qed.
End ToEvents.
