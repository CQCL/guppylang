(** V.C08.ProofsTop — an undefined use is always rejected, by the entry block's tests. *)
From V.C08 Require Import CfgCheck Spec ProofsExact.

Section Top.
Variable g : ecfg.
Variable E0 : env.
Variable glob s1 s2 : list nat.
Hypothesis W : wf_ecfg g.
Let F := analyze g (keys E0) glob s1 s2.

Definition some_undef : Prop := exists x u, needs_def F x = true /\ undef_use g E0 x u.

Lemma undef_first_lemma : some_undef ->
  exists e, check_cfg g E0 glob s1 s2 = Rej e /\ is_undef e.
Proof.
  intros U. pose proof (verdict g E0 glob s1 s2 W) as V. destruct (check_cfg g E0 glob s1 s2) as [c|e].
  - destruct V as [NU _]. contradiction.
  - destruct V as [[_ K]|[NU _]]; [|contradiction]. exists e. split; [reflexivity|].
    exact (undef_ok_is_undef g E0 glob s1 s2 e K).
Qed.

End Top.
