(** V.C08.ProofsBridgeA — walks against the positions of C03's statement layout ([lay_s], ProofsLayout.v):
    each kind of position fixes the steps of a walk that leave it.  The layout is instantiated for the
    fragment [cf_stmts]: a condition is one branching block ([branch], whichever way round its two
    successors), a lift-free value expression is no block at all; the builder keeps [edges_ok]. *)
From Coq Require Import ZArith List Lia.
From V.C03 Require Import PyAst Cfg Builder ProofsBase ProofsExpr ProofsBranch ProofsLayout.
From V.C08 Require Import Bridge.
Import ListNotations.

Lemma walk_trans : forall G a i1 b i2 c, walk G a i1 b -> walk G b i2 c -> walk G a (i1 ++ i2) c.
Proof.
  intros G a i1 b i2 c H. induction H; intros K; simpl; auto.
  rewrite <- app_assoc. econstructor; eauto.
Qed.
Lemma walk_one : forall G a i b, wstep G a i b -> walk G a i b.
Proof. intros. rewrite <- (app_nil_r i). econstructor; eauto. constructor. Qed.

Lemma wstep_iff : forall G b k i c1, wstep G (b, k) i c1 <->
  (exists s, nth_error (b_stmts (blk G b)) k = Some s /\ i = [IStmt s] /\ c1 = (b, S k)) \/
  (k = length (b_stmts (blk G b)) /\ exists t, In t (b_succs (blk G b)) /\ c1 = (t, 0) /\
     i = match b_pred (blk G b) with Some p => [ICond p] | None => [] end).
Proof.
  intros G b k i c1. split.
  - intros W. inversion W as [b0 k0 s Hn|b0 t Hp Hs|b0 p t Hp Hs]; subst.
    + left. eauto.
    + right. split; auto. exists t. rewrite Hp. auto.
    + right. split; auto. exists t. rewrite Hp. auto.
  - intros [(s&Hn&->&->)|(->&t&Hs&->&->)].
    + apply ws_stmt; auto.
    + destruct (b_pred (blk G b)) eqn:Hp; [apply ws_branch|apply ws_jump]; auto.
Qed.

Section Positions.
Variable G : list block.

(* which of the two successors is the true branch plays no role for paths *)
Definition branch (c : pos) (p : expr) (t f : nat) : Prop :=
  at_end G c /\ b_pred (blk G (fst c)) = Some p /\
  forall x, In x (b_succs (blk G (fst c))) <-> x = t \/ x = f.

Lemma at_stmt_step : forall c s i c1, at_stmt G c s -> (wstep G c i c1 <-> i = [IStmt s] /\ c1 = next c).
Proof.
  intros [b k] s i c1 (_&A). simpl in A. split.
  - intros W. apply wstep_iff in W. destruct W as [(s0&Hn&->&->)|(->&_)].
    + rewrite A in Hn. inversion Hn. auto.
    + rewrite nth_error_end in A. discriminate.
  - intros (->&->). apply ws_stmt. exact A.
Qed.

Lemma jump_step : forall c t i c1, jump G c t -> (wstep G c i c1 <-> i = [] /\ c1 = (t, 0)).
Proof.
  intros [b k] t i c1 (_&E&P&S). unfold at_end in E. simpl in *. subst k. split.
  - intros W. apply wstep_iff in W. rewrite P, S in W.
    destruct W as [(s0&Hn&_)|(_&t0&[<-|[]]&->&->)]; auto. rewrite nth_error_end in Hn. discriminate.
  - intros (->&->). apply ws_jump; [exact P|]. rewrite S. simpl. auto.
Qed.

Lemma branch_step : forall c p t f i c1, branch c p t f ->
  (wstep G c i c1 <-> i = [ICond p] /\ (c1 = (t, 0) \/ c1 = (f, 0))).
Proof.
  intros [b k] p t f i c1 (E&P&S). unfold at_end in E. simpl in *. subst k. split.
  - intros W. apply wstep_iff in W. rewrite P in W.
    destruct W as [(s0&Hn&_)|(_&t0&Ht&->&->)]; [rewrite nth_error_end in Hn; discriminate|].
    split; auto. apply S in Ht. destruct Ht as [->| ->]; auto.
  - intros (->&D). destruct D as [->| ->]; (apply ws_branch; [exact P|apply S; auto]).
Qed.

Lemma walk_stmt : forall c s, at_stmt G c s -> walk G c [IStmt s] (next c).
Proof. intros c s A. apply walk_one, (at_stmt_step c s _ _ A). auto. Qed.
Lemma walk_jump : forall c t, jump G c t -> walk G c [] (t, 0).
Proof. intros c t J. apply walk_one, (jump_step c t _ _ J). auto. Qed.
Lemma walk_branch : forall c p t f x, branch c p t f -> x = t \/ x = f -> walk G c [ICond p] (x, 0).
Proof. intros c p t f x B D. apply walk_one, (branch_step c p t f _ _ B). split; auto. destruct D as [->| ->]; auto. Qed.

Lemma branch_blind : forall c p t f, ProofsLayout.branch G c p t f -> branch c p t f /\ branch c p f t.
Proof. intros c p t f (_&E&P&S). unfold branch. rewrite S. simpl. intuition. Qed.
End Positions.

Definition edges (b : block) : list nat := b_succs b ++ b_dummy b.
(* the graph invariant carried through C03's [visit_lay]: entry and exit block exist, every edge (real or
   dummy) leads to an existing block other than the entry, a block with a branch predicate has a successor *)
Definition edges_ok (g : list block) : Prop :=
  2 <= length g /\ (forall b t, In t (edges (blk g b)) -> okid g t) /\
  forall b q, b_pred (blk g b) = Some q -> b_succs (blk g b) <> [].

(* a block index beyond the end already reads as the empty block *)
Lemma blk_app_empty : forall g b, blk (g ++ [empty_block]) b = blk g b.
Proof.
  intros g b. destruct (Nat.lt_ge_cases b (length g)) as [L|L]; [apply blk_app_old; exact L|].
  rewrite (blk_overflow g) by exact L. destruct (Nat.eq_dec b (length g)) as [->|N]; [apply blk_app_new|].
  apply blk_overflow. rewrite app_length. simpl. lia.
Qed.

Lemma blk_upd_cases : forall g i F b,
  blk (upd_nth i F g) b = blk g b \/ blk (upd_nth i F g) b = F (blk g b).
Proof.
  intros g i F b. destruct (Nat.eq_dec i b) as [->|N]; [|left; apply blk_upd_other; exact N].
  destruct (Nat.lt_ge_cases b (length g)) as [L|L]; [right; apply blk_upd_same; exact L|].
  left. rewrite !blk_overflow; auto. rewrite upd_nth_length. exact L.
Qed.

Lemma edges_new : forall g, edges_ok g -> edges_ok (g ++ [empty_block]).
Proof.
  intros g (L&H&I). unfold edges_ok, okid. rewrite app_length. simpl. split; [|split]; try lia.
  - intros b t. rewrite blk_app_empty. intros Ht. apply H in Ht. unfold okid in Ht. lia.
  - intros b q. rewrite blk_app_empty. apply I.
Qed.

Lemma edges_upd : forall g i F (T : list nat), edges_ok g ->
  (forall b t, In t (edges (F b)) -> In t (edges b) \/ In t T) -> (forall t, In t T -> okid g t) ->
  (forall b, b_succs (F b) <> [] \/ b_pred (F b) = b_pred b /\ b_succs (F b) = b_succs b) ->
  edges_ok (upd_nth i F g).
Proof.
  intros g i F T (L&H&I) HF HT HS. split; [rewrite upd_nth_length; auto|]. split.
  - intros b t Ht. unfold okid. rewrite upd_nth_length. change (okid g t).
    destruct (blk_upd_cases g i F b) as [E|E]; rewrite E in Ht; [eauto|]. destruct (HF _ _ Ht); eauto.
  - intros b q. destruct (blk_upd_cases g i F b) as [E|E]; rewrite E; [apply I|].
    destruct (HS (blk g b)) as [N|(P&S)]; [auto|]. rewrite P, S. apply I.
Qed.

Lemma edges_link : forall g a t, edges_ok g -> okid g t -> edges_ok (upd_nth a (add_succ t) g).
Proof.
  intros g a t J O. apply edges_upd with (T := [t]); auto.
  - intros b t0. unfold edges. simpl. rewrite !in_app_iff. simpl. tauto.
  - intros t0 [<-|[]]. auto.
  - intros b. left. apply not_eq_sym, app_cons_not_nil.
Qed.
Lemma edges_dummy : forall g a t, edges_ok g -> okid g t -> edges_ok (upd_nth a (add_dummy t) g).
Proof.
  intros g a t J O. apply edges_upd with (T := [t]); auto.
  - intros b t0. unfold edges. simpl. rewrite !in_app_iff. simpl. tauto.
  - intros t0 [<-|[]]. auto.
Qed.
Lemma edges_push : forall g a s, edges_ok g -> edges_ok (upd_nth a (push_stmt s) g).
Proof. intros g a s J. apply edges_upd with (T := []); auto. intros t []. Qed.
Lemma edges_close : forall g bb p f t, edges_ok g -> okid g f -> okid g t ->
  edges_ok (upd_nth bb (closeF p f t) g).
Proof.
  intros g bb p f t J Of Ot. apply edges_upd with (T := [f; t]); auto.
  - intros b t0. unfold edges. simpl. rewrite !in_app_iff. simpl. tauto.
  - intros t0 [<-|[<-|[]]]; auto.
  - intros b. left. apply not_eq_sym, app_cons_not_nil.
Qed.

Lemma cf_cases : forall c, cf_cond c = true ->
  (exists a, c = EUnary UNot a /\ cf_cond a = true) \/ (lift_free c = true /\ is_generic c = true).
Proof.
  intros c H. destruct c; try (right; apply andb_prop; exact H).
  destruct op; try (right; apply andb_prop; exact H). left. exists c. auto.
Qed.
Lemma core_generic : forall c, is_generic c = true -> core c = fold_neg c.
Proof. intros c H. destruct c; auto. destruct op; auto. discriminate. Qed.

Lemma generic_branch : forall c bb t f g n, lift_free c = true -> is_generic c = true ->
  build_branch c bb t f (mkB g n) = BOk tt (mkB (upd_nth bb (closeF (core c) f t) g) n).
Proof.
  intros c bb t f g n H1 H2. rewrite (core_generic _ H2), build_branch_generic by auto.
  unfold gen_branch, bind. rewrite build_lift_free by auto. apply close_branch_eq.
Qed.

Lemma cf_branch : forall c, cf_cond c = true -> forall bb t f g n s',
  build_branch c bb t f (mkB g n) = BOk tt s' ->
  exists t' f', s' = mkB (upd_nth bb (closeF (core c) f' t') g) n /\
                ((t' = t /\ f' = f) \/ (t' = f /\ f' = t)).
Proof.
  induction c; intros H bb t0 f0 g0 n0 s' B;
    (destruct (cf_cases _ H) as [(a&E&Ha)|(H1&H2)];
     [try discriminate |
      rewrite (generic_branch _ bb t0 f0 g0 n0 H1 H2) in B; inversion B; exists t0, f0; auto]).
  inversion E; subst. simpl in B. destruct (IHc Ha _ _ _ _ _ _ B) as (t'&f'&->&D).
  exists t', f'. split; auto. tauto.
Qed.

(* the two parameters of C03's layout for the fragment: a condition lies in ONE block, at whose end it is
   tested ([clay]); a lift-free value expression takes no position and is stored with [-c] folded ([vlay]) *)
Definition clay (G : list block) (c : expr) (c0 : pos) (t f : nat) : Prop := branch G c0 (core c) t f.
Definition vlay (G : list block) (x : expr) (c0 c1 : pos) (x1 : expr) : Prop := c1 = c0 /\ x1 = fold_neg x.

Notation lay_s := (lay_s clay vlay).
Notation lay_l := (lay_l clay vlay).

Lemma cf_cond_lay : forall c, cf_cond c = true -> cond_lay clay eq edges_ok c.
Proof.
  intros c F bb t f g n s' B k (O&Nb&_). destruct (cf_branch c F _ _ _ _ _ _ B) as (t'&f'&->&D).
  eexists _, n. split; [reflexivity|]. split; [reflexivity|]. split; [apply grows_close, O|].
  split; [destruct D as [(->&->)|(->&->)]; auto using edges_close|].
  intros G E. destruct (branch_blind G _ _ _ _ (branch_ext _ _ _ _ _ _ E (branch_close g bb k (core c) f' t' O Nb))) as (B1&B2).
  destruct D as [(->&->)|(->&->)]; assumption.
Qed.

Lemma lift_free_lay : forall e, lift_free e = true -> val_lay vlay eq edges_ok e.
Proof.
  intros e F bb g n e1 bb1 s1 B k ((O&<-)&Nb&_). rewrite build_lift_free in B by auto. inversion B; subst.
  exists g, n. split; auto. split; auto. split; [apply grows_refl|]. split; [simpl; auto|].
  split; [auto | intros G _; split; reflexivity].
Qed.

Lemma cf_if : forall c b o, cf_stmt (SIf c b o) = true -> cf_cond c = true /\ cf_stmts b = true /\ cf_stmts o = true.
Proof. simpl. intros c b o F. apply andb_prop in F. destruct F as [F F3]. apply andb_prop in F. tauto. Qed.
Lemma cf_while : forall c b o, cf_stmt (SWhile c b o) = true -> cf_cond c = true /\ cf_stmts b = true.
Proof. simpl. intros c b o F. apply andb_prop in F. destruct F as [F _]. apply andb_prop in F. exact F. Qed.

Theorem cf_lay :
  (forall s, cf_stmt s = true -> stmt_lay clay vlay eq edges_ok s) /\
  (forall ss, cf_stmts ss = true -> stmts_lay clay vlay eq edges_ok ss).
Proof.
  apply (visit_lay clay vlay eq (@eq_refl nat) (@eq_trans nat) edges_ok edges_new edges_link edges_dummy edges_push cf_stmt cf_stmts).
  - intros c b o F. destruct (cf_if c b o F) as (F1&F2&F3). auto using cf_cond_lay.
  - intros c b o F. destruct (cf_while c b o F) as (F1&F2). auto using cf_cond_lay.
  - intros s r F. apply andb_prop. exact F.
  - intros s F. destruct s; simpl in F; auto using lift_free_lay.
    + apply andb_prop in F. destruct F. auto using lift_free_lay.
    + destruct e; auto using lift_free_lay.
Qed.
