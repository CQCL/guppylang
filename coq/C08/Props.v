(** V.C08.Props — the property theorems of C08.

    Quantification: every finite CFG [g] of per-block ordered variable events (arbitrary real
    and dummy successor lists, loops, unreachable blocks) that is well formed ([wf_ecfg]: at
    least the entry block, successor indices are blocks, the entry block has no predecessor —
    checked by the harness on every CFG the real builder produces), every typing [E0] of the
    inputs (parameters and captured variables), every set [glob] of global names, and every
    pair of work-list schedules [s1 s2] of the two dataflow analyses (C09).
    [check_cfg] is the executable model of check_cfg / check_bb / check_rows_match
    (CfgCheck.v) of the code after fix-1.patch; the specification side (Spec.v: [undef_use],
    [ty_conflict], [reach_nodef], [reach_env], [live_at]) talks about paths only. *)
From Coq Require Import ZArith List Bool Arith Lia.
From V.C03 Require Import PyAst Builder.
From V.C09 Require Import Spec.
From V.C08 Require Import CfgCheck Spec ProofsBase ProofsExact ProofsTop
  Bridge ProofsBridgeC ProofsBridgeF.
Import ListNotations.

Notation facts_of g E0 glob s1 s2 := (analyze g (keys E0) glob s1 s2).

(** compute_variable_stats: `used` = the names read before any assignment of the block,
    `assigned` = the names assigned in the block. *)
Theorem stats_exact : forall evs x,
  (In x (used_of evs) <-> reads_first x evs) /\ (In x (assigned_of evs) <-> assigns x evs).
Proof. intros. split; [apply used_char|apply assigned_char]. Qed.
Print Assumptions stats_exact.

(** [undef_exact], program level: the model raises a not-defined / maybe-not-defined error
    iff some path (real or dummy edges, predicate values ignored) from the entry reaches a
    read of a variable that must be in scope without assigning it.  Such an error is always
    raised by the tests of the ENTRY block, before any type comparison: a program with an
    undefined use is never reported as a type error instead. *)
Theorem undef_exact : forall g E0 glob s1 s2, wf_ecfg g ->
  ((exists x u, needs_def (facts_of g E0 glob s1 s2) x = true /\ undef_use g E0 x u) <->
   (exists e, check_cfg g E0 glob s1 s2 = Rej e /\ is_undef e)).
Proof.
  intros g E0 glob s1 s2 W. split; [apply (undef_first_lemma g E0 glob s1 s2 W)|].
  intros (e&H&Iu). pose proof (verdict g E0 glob s1 s2 W) as V. rewrite H in V.
  destruct V as [[U _]|(_&_&M)]; [exact U|]. destruct e; contradiction.
Qed.
Print Assumptions undef_exact.

(** [undef_exact], variable level: the set of ALL variables rejected by the entry block's
    tests (the error names one of them) is exactly the set of variables with such a path. *)
Theorem undef_vars_exact : forall g E0 glob s1 s2 x, wf_ecfg g ->
  (In x (undef_vars g (facts_of g E0 glob s1 s2) E0) <->
   needs_def (facts_of g E0 glob s1 s2) x = true /\ exists u, undef_use g E0 x u).
Proof.
  intros g E0 glob s1 s2 x W. unfold undef_vars. rewrite in_app_iff, in_flat_map.
  exact (entry_tests_iff g E0 glob s1 s2 W x).
Qed.
Print Assumptions undef_vars_exact.

(** [undef_sound], per report: whichever candidate (wording, variable, block of the reported
    use) the user is shown, that use is reached without an assignment, and the wording is
    "might be undefined" (VarMaybeNotDefinedError) iff some path into the reported use
    assigns the variable (C09's [assigned_before]); otherwise "is not defined". *)
Theorem undef_sound : forall g E0 glob s1 s2 e k x u, wf_ecfg g ->
  check_cfg g E0 glob s1 s2 = Rej e ->
  In (k, x, u) (report_cands g (facts_of g E0 glob s1 s2) e) ->
  needs_def (facts_of g E0 glob s1 s2) x = true /\ undef_use g E0 x u /\
  (k = true <-> assigned_before (to_cfg g) (keys E0) x u).
Proof.
  intros g E0 glob s1 s2 e k x u W H Hin. pose proof (verdict g E0 glob s1 s2 W) as V. rewrite H in V.
  destruct V as [[_ K]|(_&_&M)]; [|destruct e; try contradiction; destruct Hin].
  destruct e as [y|p s xs|p s xs|p s|]; try contradiction.
  - (* the entry block's own test: "is not defined", and nothing flows into the entry block *)
    destruct Hin as [Hin|[]]. inversion Hin. subst. destruct K as [Kn Ku]. split; auto. split; auto.
    split; [discriminate|]. intros [[_ Hd]|[p [Hp _]]].
    + destruct Ku as [Hl _]. apply lookup_keys in Hd. congruence.
    + rewrite (entry_no_flow_pred g W) in Hp. destruct Hp.
  - destruct K as (_&Hs&K). apply in_flat_map in Hin. destruct Hin as [y [Hy Hin]].
    apply in_map_iff in Hin. destruct Hin as [u' [Eq Hu]]. inversion Eq. subst y u'. clear Eq.
    destruct (K x Hy) as [Kn [Kl Kr]].
    destruct (witness_sound g W x s u Hs Kr Hu) as [A [B C]].
    split; auto. split; [unfold undef_use; auto|].
    apply (maybe_wording g E0 glob s1 s2 W x u A Kl).
Qed.
Print Assumptions undef_sound.

(** [branch_type_exact]: when no use is undefined, check_rows_match fails iff some variable
    that is read after a join holds different types along two type-propagating paths into
    it. *)
Theorem branch_type_exact : forall g E0 glob s1 s2, wf_ecfg g ->
  ~ (exists x u, needs_def (facts_of g E0 glob s1 s2) x = true /\ undef_use g E0 x u) ->
  ((exists x s, ty_conflict g E0 x s) <->
   (exists p s xs, check_cfg g E0 glob s1 s2 = Rej (RowMismatch p s xs) /\ xs <> [])).
Proof.
  intros g E0 glob s1 s2 W NU. pose proof (verdict g E0 glob s1 s2 W) as V. split.
  - intros C. destruct (check_cfg g E0 glob s1 s2) as [c|e].
    + destruct V as [_ NC]. destruct (NC C).
    + destruct V as [[U _]|(_&_&M)]; [destruct (NU U)|].
      destruct e as [y|p s' xs|p s' xs|p s'|]; try contradiction. destruct M. eauto.
  - intros [p [s [xs [H Hne]]]]. rewrite H in V. destruct V as [[_ []]|(_&C&_)]. exact C.
Qed.
Print Assumptions branch_type_exact.

(** [branch_type_sound]: every variable check_rows_match may name is such a variable at that join. *)
Theorem branch_type_sound : forall g E0 glob s1 s2 p s xs, wf_ecfg g ->
  check_cfg g E0 glob s1 s2 = Rej (RowMismatch p s xs) ->
  xs <> [] /\ forall x, In x xs -> ty_conflict g E0 x s.
Proof.
  intros g E0 glob s1 s2 p s xs W H. pose proof (verdict g E0 glob s1 s2 W) as V. rewrite H in V.
  destruct V as [[_ []]|(_&_&M)]. exact M.
Qed.
Print Assumptions branch_type_sound.

(** [no_spurious] (and its converse): the CFG is accepted by these tests iff it is free of
    both problems.  In particular the model never runs out of fuel and check_rows_match never
    raises KeyError. *)
Theorem no_spurious : forall g E0 glob s1 s2, wf_ecfg g ->
  ((exists c, check_cfg g E0 glob s1 s2 = Ok c) <->
   (~ (exists x u, needs_def (facts_of g E0 glob s1 s2) x = true /\ undef_use g E0 x u) /\
    ~ (exists x s, ty_conflict g E0 x s))).
Proof.
  intros g E0 glob s1 s2 W. pose proof (verdict g E0 glob s1 s2 W) as V. split.
  - intros [c H]. rewrite H in V. exact V.
  - intros [NU NC]. destruct (check_cfg g E0 glob s1 s2) as [c|e]; [eauto|]. exfalso.
    destruct V as [[U _]|(_&C&_)]; [exact (NU U)|exact (NC C)].
Qed.
Print Assumptions no_spurious.

Theorem check_total : forall g E0 glob s1 s2 p s, wf_ecfg g ->
  check_cfg g E0 glob s1 s2 <> Rej OutOfFuel /\ check_cfg g E0 glob s1 s2 <> Rej (RowKeyError p s).
Proof.
  intros g E0 glob s1 s2 p s W. pose proof (verdict g E0 glob s1 s2 W) as V.
  split; intros H; rewrite H in V; destruct V as [[_ []]|(_&_&[])].
Qed.
Print Assumptions check_total.

(** * the link to Python's syntactic control-flow paths (C03's model of CFGBuilder)

    [p] is a function body in C03's PyAst, in the control-flow fragment [cf_stmts]
    (assignments, augmented assignments, expression statements, return, pass, break, continue,
    if / elif / else, while; conditions opaque: lift-free, not a literal True / False, possibly
    under [not]); [build p rn] is C03's executable model of CFGBuilder.build (tied to /repo by
    C03's own check); [spath_l p items o] says that [items] (simple statements and conditions
    in execution order, every condition allowed to go both ways, nothing after a jump) is a
    syntactic path of [p]; [ecfg_of g] reads C03's CFG as a CfgCheck event CFG. *)

Theorem syntactic_paths_are_cfg_walks : forall p rn g s items o,
  cf_stmts p = true -> build p rn = BOk g s -> spath_l p items o ->
  exists c', walk g (0, 0) items c'.
Proof.
  intros p rn g s items o F B X. destruct (build_paths p rn g s F B) as (_&Paths&_).
  exact (proj2 (Paths items) (ex_intro _ o X)).
Qed.
Print Assumptions syntactic_paths_are_cfg_walks.

Theorem built_graph_wf : forall p rn g s, cf_stmts p = true -> build p rn = BOk g s -> wf_ecfg (ecfg_of g).
Proof. intros p rn g s F B. exact (proj1 (build_paths p rn g s F B)). Qed.
Print Assumptions built_graph_wf.

Theorem cfg_walks_are_syntactic_paths : forall p rn g s items c',
  cf_stmts p = true -> build p rn = BOk g s -> walk g (0, 0) items c' ->
  exists o, spath_l p items o.
Proof.
  intros p rn g s items c' F B W. destruct (build_paths p rn g s F B) as (_&Paths&_).
  exact (proj1 (Paths items) (ex_intro _ c' W)).
Qed.
Print Assumptions cfg_walks_are_syntactic_paths.

(** [rreach] = [reach_nodef] restricted to real successors.  Together with [undef_exact] this ties
    the model's verdict to Python's syntactic paths for all live code; the only CFG paths without
    a syntactic counterpart are those through dummy (never-taken) edges, i.e. dead code — the
    known finding interpretation:dead-code-after-jump. *)
Theorem syntactic_undef_exact : forall p rn g s x,
  cf_stmts p = true -> build p rn = BOk g s ->
  ((exists pre last o, spath_l p (pre ++ [last]) o /\ nodef x pre /\ reads_first x (ev_item last)) <->
   (exists u, u < nb (ecfg_of g) /\ rreach (ecfg_of g) x u /\ reads_first x (evs (ecfg_of g) u))).
Proof.
  intros p rn g s x F B. destruct (build_paths p rn g s F B) as (_&Paths&Succ). split.
  - intros (pre&last&o&X&N&R). destruct (proj2 (Paths _) (ex_intro _ o X)) as (c'&W). rewrite nb_ecfg_of.
    exact (walk_to_use g x _ _ _ W pre last eq_refl N R (clean_start g x 0 (rr_entry _ x))).
  - intros (u&_&H&R). destruct (rreach_walk g x u H) as (items&W&N). rewrite evs_ecfg_of in R.
    destruct (use_walk g x u items (Succ items u 0 W) W N R) as (pre&last&c'&W'&N'&Rl).
    destruct (proj1 (Paths _) (ex_intro _ c' W')) as (o&P). exists pre, last, o. auto.
Qed.
Print Assumptions syntactic_undef_exact.

(** [undef_exact], syntactic form, direction "violation => rejected" ([last] reads x, no item of
    [pre] assigns it). *)
Theorem syntactic_undef_rejected : forall p rn g s x pre last o E0 glob s1 s2,
  cf_stmts p = true -> build p rn = BOk g s ->
  spath_l p (pre ++ [last]) o -> nodef x pre -> reads_first x (ev_item last) ->
  lookup x E0 = None -> needs_def (facts_of (ecfg_of g) E0 glob s1 s2) x = true ->
  exists e, check_cfg (ecfg_of g) E0 glob s1 s2 = Rej e /\ is_undef e.
Proof.
  intros p rn g s x pre last o E0 glob s1 s2 F B X N R L Nd.
  destruct (proj1 (syntactic_undef_exact p rn g s x F B)) as (u&Hu&Hr&Hf); [exists pre, last, o; auto|].
  apply (undef_first_lemma (ecfg_of g) E0 glob s1 s2 (built_graph_wf p rn g s F B)). exists x, u. split; [exact Nd|].
  unfold undef_use. auto using rreach_reach_nodef.
Qed.
Print Assumptions syntactic_undef_rejected.

(** [undef_sound], syntactic form: when the reported use is reached along real edges, the
    error is explained by a syntactic path of the source. *)
Theorem syntactic_undef_sound : forall p rn g s E0 glob s1 s2 e k x u,
  cf_stmts p = true -> build p rn = BOk g s ->
  check_cfg (ecfg_of g) E0 glob s1 s2 = Rej e ->
  In (k, x, u) (report_cands (ecfg_of g) (facts_of (ecfg_of g) E0 glob s1 s2) e) ->
  rreach (ecfg_of g) x u ->
  exists pre last o, spath_l p (pre ++ [last]) o /\ nodef x pre /\ reads_first x (ev_item last).
Proof.
  intros p rn g s E0 glob s1 s2 e k x u F B H Hin Hr.
  destruct (undef_sound (ecfg_of g) E0 glob s1 s2 e k x u (built_graph_wf p rn g s F B) H Hin) as (_&(_&Lu&_&Rf)&_).
  apply (syntactic_undef_exact p rn g s x F B). exists u. auto.
Qed.
Print Assumptions syntactic_undef_sound.

Lemma no_dummy_rreach : forall g x u, (forall b, e_dsucc (eblk g b) = []) -> reach_nodef g x u -> rreach g x u.
Proof.
  intros g x u D H. induction H as [|p b H IH Lp Na Hb]; [constructor|].
  apply rr_step with p; auto. unfold flow in Hb. rewrite D, app_nil_r in Hb. exact Hb.
Qed.

(** [undef_exact] at the level of the SOURCE, for programs without dead code (the built graph
    has no dummy edge). *)
Theorem syntactic_undef_exact_live : forall p rn g s E0 glob s1 s2,
  cf_stmts p = true -> build p rn = BOk g s ->
  (forall b, e_dsucc (eblk (ecfg_of g) b) = []) ->
  ((exists x pre last o, needs_def (facts_of (ecfg_of g) E0 glob s1 s2) x = true /\ lookup x E0 = None /\
      spath_l p (pre ++ [last]) o /\ nodef x pre /\ reads_first x (ev_item last)) <->
   (exists e, check_cfg (ecfg_of g) E0 glob s1 s2 = Rej e /\ is_undef e)).
Proof.
  intros p rn g s E0 glob s1 s2 F B D. split.
  - intros (x&pre&last&o&Nd&L&X&N&R).
    exact (syntactic_undef_rejected p rn g s x pre last o E0 glob s1 s2 F B X N R L Nd).
  - intros H. apply (undef_exact (ecfg_of g) E0 glob s1 s2 (built_graph_wf p rn g s F B)) in H.
    destruct H as (x&u&Nd&(L&Hu&Hr&Hf)).
    destruct (proj2 (syntactic_undef_exact p rn g s x F B)) as (pre&last&o&X&N&R).
    { exists u. auto using no_dummy_rreach. }
    exists x, pre, last, o. auto.
Qed.
Print Assumptions syntactic_undef_exact_live.

(** * the hypotheses are satisfiable: three small programs (variables c=0 x=1 y=2; types bool=1 int=2 float=3) *)
Lemma wf_by_cases : forall g, 0 < length g ->
  forallb (fun b => forallb (fun s => (s <? length g) && negb (s =? 0)) (flow_s g b)) (seq 0 (length g)) = true ->
  wf_ecfg g.
Proof.
  intros g H0 H. rewrite forallb_forall in H. split; auto. split.
  - intros b s Hb Hs. assert (I : In b (seq 0 (length g))) by (apply in_seq; unfold nb in Hb; lia).
    specialize (H b I). rewrite forallb_forall in H. specialize (H s Hs).
    apply andb_true_iff in H. destruct H as [H _]. apply Nat.ltb_lt in H. exact H.
  - intros p Hp Hs. assert (I : In p (seq 0 (length g))) by (apply in_seq; unfold nb in Hp; lia).
    specialize (H p I). rewrite forallb_forall in H. specialize (H 0 Hs).
    apply andb_true_iff in H. destruct H as [_ H]. discriminate.
Qed.

(* if c: x = 1 ; <join> read x        -> "x might be undefined" *)
Definition ex_undef : ecfg :=
  [mkEB [3; 2] [] [EUse 0]; mkEB [] [] []; mkEB [4] [] [EAssign 1 (RLit 2)]; mkEB [4] [] [];
   mkEB [1] [] [EUse 1]].
(* if c: x = 1 else: x = 1.0 ; <join> y = x     -> "x may refer to different types" *)
Definition ex_types : ecfg :=
  [mkEB [3; 2] [] [EUse 0]; mkEB [] [] []; mkEB [4] [] [EAssign 1 (RLit 2)];
   mkEB [4] [] [EAssign 1 (RLit 3)]; mkEB [1] [] [EAssign 2 (RCopy 1)]].
(* x = 1 ; while c: x = x + 1 ; read x ; plus dead code after the return reading x (dummy edge)  -> accepted *)
Definition ex_loop : ecfg :=
  [mkEB [2] [] [EAssign 1 (RLit 2)]; mkEB [] [] []; mkEB [4; 3] [] [EUse 0];
   mkEB [2] [] [EAssign 1 (RCopy 1)]; mkEB [1] [5] [EUse 1]; mkEB [] [] [EUse 1]].

Example ex_undef_rejected :
  wf_ecfg ex_undef /\
  check_cfg ex_undef [(0, 1)] [] [] [] = Rej (SuccUndef 0 3 [1]) /\
  report_cands ex_undef (facts_of ex_undef [(0, 1)] [] [] []) (SuccUndef 0 3 [1]) = [(true, 1, 4)] /\
  undef_use ex_undef [(0, 1)] 1 4.
Proof.
  assert (W : wf_ecfg ex_undef) by (apply wf_by_cases; [simpl; lia|vm_compute; reflexivity]).
  assert (H : check_cfg ex_undef [(0, 1)] [] [] [] = Rej (SuccUndef 0 3 [1])) by (vm_compute; reflexivity).
  split; auto. split; auto. split; [vm_compute; reflexivity|].
  apply (undef_sound ex_undef [(0, 1)] [] [] [] _ true 1 4 W H). vm_compute. auto.
Qed.

Example ex_types_rejected :
  wf_ecfg ex_types /\ check_cfg ex_types [(0, 1)] [] [] [] = Rej (RowMismatch 3 4 [1; 1]) /\
  ty_conflict ex_types [(0, 1)] 1 4.
Proof.
  assert (W : wf_ecfg ex_types) by (apply wf_by_cases; [simpl; lia|vm_compute; reflexivity]).
  assert (H : check_cfg ex_types [(0, 1)] [] [] [] = Rej (RowMismatch 3 4 [1; 1])) by (vm_compute; reflexivity).
  split; auto. split; auto.
  apply (branch_type_sound ex_types [(0, 1)] [] [] [] 3 4 [1; 1] W H). simpl. auto.
Qed.

Example ex_loop_accepted :
  wf_ecfg ex_loop /\ (exists c, check_cfg ex_loop [(0, 1)] [] [] [] = Ok c) /\
  ~ (exists x s, ty_conflict ex_loop [(0, 1)] x s).
Proof.
  assert (W : wf_ecfg ex_loop) by (apply wf_by_cases; [simpl; lia|vm_compute; reflexivity]).
  assert (H : exists c, check_cfg ex_loop [(0, 1)] [] [] [] = Ok c) by (eexists; vm_compute; reflexivity).
  split; auto. split; auto. apply (no_spurious ex_loop [(0, 1)] [] [] [] W). exact H.
Qed.

(** the bridge's hypotheses are satisfiable:  `if v0: v1 = 2` / `v1`  (v0 an input) *)
Definition ex_src : stmts :=
  SCons (SIf (EName (VU 0)) (SCons (SAssign (TName (VU 1)) (EConst (CInt 2%Z))) SNil) SNil)
        (SCons (SExpr (EName (VU 1))) SNil).

Example ex_bridge : exists g s,
  cf_stmts ex_src = true /\ build ex_src true = BOk g s /\ wf_ecfg (ecfg_of g) /\
  spath_l ex_src ([ICond (EName (VU 0))] ++ [IStmt (SExpr (EName (VU 1)))]) ONorm /\
  (exists e, check_cfg (ecfg_of g) [(0, 1)] [] [] [] = Rej e /\ is_undef e).
Proof.
  destruct (build ex_src true) as [g s|] eqn:B; [|vm_compute in B; discriminate].
  exists g, s.
  assert (F : cf_stmts ex_src = true) by reflexivity.
  assert (W : wf_ecfg (ecfg_of g)).
  { vm_compute in B. inversion B; subst. apply wf_by_cases; [simpl; lia|vm_compute; reflexivity]. }
  assert (X : spath_l ex_src ([ICond (EName (VU 0))] ++ [IStmt (SExpr (EName (VU 1)))]) ONorm).
  { simpl. left. exists [ICond (EName (VU 0))], [IStmt (SExpr (EName (VU 1)))]. split; auto. split.
    - right. exists []. split; auto.
    - left. exists [IStmt (SExpr (EName (VU 1)))], []. split; auto. split; [left; auto|auto]. }
  split; auto. split; auto. split; auto. split; auto.
  apply (syntactic_undef_rejected ex_src true g s 2 [ICond (EName (VU 0))] (IStmt (SExpr (EName (VU 1)))) ONorm
           [(0, 1)] [] [] [] F B X).
  - intros it [<-|[]]. simpl. apply uses_no_assign.
  - simpl. auto.
  - reflexivity.
  - vm_compute in B. inversion B; subst. vm_compute. reflexivity.
Qed.
