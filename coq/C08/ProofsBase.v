(** V.C08.ProofsBase — VariableStats, exec / restrict, and what the fields of [analyze] hold, from
    C09's theorems about the two analyses (Section Facts). *)
From Coq Require Import List Arith Lia.
From V.C09 Require Import Analysis SetLemmas Spec ProofsTop.
From V.C08 Require Import CfgCheck Spec.
Import ListNotations.

Lemma add_use_In : forall x y U A, In x (add_use y U A) <-> In x U \/ (y = x /\ ~ In x A).
Proof.
  intros. unfold add_use. destruct (memb y A) eqn:HA; simpl.
  - apply memb_In in HA. split; [auto|]. intros [H|[E H]]; auto. subst. tauto.
  - apply memb_false in HA. destruct (memb y U) eqn:HU.
    + apply memb_In in HU. split; auto. intros [H|[E _]]; auto. subst; auto.
    + rewrite in_app_iff. simpl. split.
      * intros [H|[H|[]]]; auto. subst. auto.
      * intros [H|[E _]]; auto.
Qed.

Lemma add_def_In : forall x z A, In x (add_def z A) <-> In x A \/ z = x.
Proof.
  intros. unfold add_def. destruct (memb z A) eqn:HA.
  - apply memb_In in HA. split; auto. intros [H|E]; auto. subst; auto.
  - rewrite in_app_iff. simpl. tauto.
Qed.

Lemma assigns_nil : forall x, ~ assigns x [].
Proof. intros x [e [[] _]]. Qed.
Lemma assigns_cons : forall x e t, assigns x (e :: t) <-> ev_defs e x \/ assigns x t.
Proof.
  intros. unfold assigns. split.
  - intros [e' [[E|H] D]]; [subst; auto|right; eauto].
  - intros [D|[e' [H D]]]; [exists e; simpl; auto|exists e'; simpl; auto].
Qed.

Lemma stats_assigned : forall evs U A x,
  In x (snd (stats_acc evs U A)) <-> In x A \/ assigns x evs.
Proof.
  induction evs as [|e t IH]; intros U A x; simpl.
  - pose proof (assigns_nil x). tauto.
  - destruct e as [y|z [ty|y]]; rewrite IH, assigns_cons; simpl; try rewrite add_def_In; tauto.
Qed.

Lemma stats_used : forall evs U A x,
  In x (fst (stats_acc evs U A)) <-> In x U \/ (~ In x A /\ reads_first x evs).
Proof.
  induction evs as [|e t IH]; intros U A x; simpl.
  - tauto.
  - destruct e as [y|z [ty|y]]; rewrite IH; simpl;
      try rewrite add_use_In; try rewrite add_def_In; tauto.
Qed.

Lemma used_char : forall evs x, In x (used_of evs) <-> reads_first x evs.
Proof. intros. unfold used_of. rewrite stats_used. simpl. tauto. Qed.
Lemma assigned_char : forall evs x, In x (assigned_of evs) <-> assigns x evs.
Proof. intros. unfold assigned_of. rewrite stats_assigned. simpl. tauto. Qed.

Lemma lookup_cons : forall x z t E, lookup x ((z, t) :: E) = if Nat.eqb x z then Some t else lookup x E.
Proof. reflexivity. Qed.

Lemma lookup_keys : forall x E, In x (keys E) <-> lookup x E <> None.
Proof.
  intros x E. induction E as [|[z t] E IH]; simpl.
  - split; [tauto|congruence].
  - destruct (Nat.eqb x z) eqn:Q.
    + apply Nat.eqb_eq in Q. subst. split; [discriminate|auto].
    + apply Nat.eqb_neq in Q. rewrite <- IH. split; [intros [H|H]; [congruence|auto]|auto].
Qed.

Lemma lookup_exec_none : forall evs E x,
  lookup x (exec evs E) = None <-> lookup x E = None /\ ~ assigns x evs.
Proof.
  induction evs as [|e t IH]; intros E x; simpl.
  - pose proof (assigns_nil x). tauto.
  - destruct e as [y|z r]; rewrite IH, assigns_cons; simpl.
    + tauto.
    + destruct (Nat.eqb x z) eqn:Q.
      * apply Nat.eqb_eq in Q. subst. split; [intros [H _]; discriminate|intros [_ H]; exfalso; auto].
      * apply Nat.eqb_neq in Q. split; [intros [H N]; split; auto; intros [D|D]; auto|intros [H N]; split; auto].
Qed.

Lemma exec_same : forall evs E1 E2 x,
  (forall y, reads_first y evs -> lookup y E1 = lookup y E2) ->
  (~ assigns x evs -> lookup x E1 = lookup x E2) ->
  lookup x (exec evs E1) = lookup x (exec evs E2).
Proof.
  induction evs as [|e t IH]; intros E1 E2 x Hr Hx; simpl.
  - apply Hx, assigns_nil.
  - destruct e as [y|z r].
    + apply IH.
      * intros y' Hy. apply Hr. right. split; [intros []|exact Hy].
      * intros Na. apply Hx. rewrite assigns_cons. intros [[]|D]; exact (Na D).
    + assert (T : rhs_ty r E1 = rhs_ty r E2).
      { destruct r as [ty|y]; simpl; [reflexivity|]. rewrite (Hr y); [reflexivity|]. left. reflexivity. }
      rewrite T. apply IH.
      * intros y Hy. rewrite !lookup_cons. destruct (Nat.eqb_spec y z) as [->|Ne]; [reflexivity|].
        apply Hr. right. split; [intros D; exact (Ne (eq_sym D))|exact Hy].
      * intros Na. rewrite !lookup_cons. destruct (Nat.eqb_spec x z) as [->|Ne]; [reflexivity|].
        apply Hx. rewrite assigns_cons. intros [D|D]; [exact (Ne (eq_sym D))|exact (Na D)].
Qed.

Lemma lookup_restrict : forall E l x,
  lookup x (restrict E l) = if memb x l then lookup x E else None.
Proof.
  intros E l x. unfold restrict. induction l as [|a l IH]; simpl; auto.
  fold (restrict E l) in *. destruct (Nat.eqb x a) eqn:Q.
  - apply Nat.eqb_eq in Q. subst. destruct (lookup a E) eqn:L; simpl.
    + rewrite Nat.eqb_refl. reflexivity.
    + rewrite IH. destruct (memb a l); auto.
  - destruct (lookup a E); simpl; rewrite ?Q; exact IH.
Qed.

Lemma blk_to_cfg : forall g b, blk (to_cfg g) b = to_block (eblk g b).
Proof.
  intros. unfold blk, to_cfg, eblk. change empty_block with (to_block empty_eb). apply map_nth.
Qed.
Lemma nblocks_to_cfg : forall g, nblocks (to_cfg g) = nb g.
Proof. intros. unfold nblocks, to_cfg, nb. apply map_length. Qed.
Lemma flow_to_cfg : forall g b, flow_succ true (to_cfg g) b = flow g b.
Proof. intros. unfold flow_succ, flow. rewrite blk_to_cfg. reflexivity. Qed.
Lemma use_to_cfg : forall g b x, In x (b_use (blk (to_cfg g) b)) <-> reads_first x (evs g b).
Proof. intros. rewrite blk_to_cfg. simpl. apply used_char. Qed.
Lemma def_to_cfg : forall g b x, In x (b_def (blk (to_cfg g) b)) <-> assigns x (evs g b).
Proof. intros. rewrite blk_to_cfg. simpl. apply assigned_char. Qed.

Lemma live_path_iff : forall g x b, live_on_path true (to_cfg g) x b <-> live_at g x b.
Proof.
  intros g x b. split; intro H.
  - induction H as [b Hb Hu|b c Hb Hd Hc _ IH].
    + apply la_use. { rewrite <- nblocks_to_cfg; auto. } apply use_to_cfg; auto.
    + apply la_step with c; auto.
      * rewrite <- nblocks_to_cfg; auto.
      * rewrite <- def_to_cfg; auto.
      * rewrite <- flow_to_cfg; auto.
  - induction H as [b Hb Hu|b c Hb Hd Hc _ IH].
    + apply lp_use. { rewrite nblocks_to_cfg; auto. } apply use_to_cfg; auto.
    + apply lp_step with c; auto.
      * rewrite nblocks_to_cfg; auto.
      * rewrite def_to_cfg; auto.
      * rewrite flow_to_cfg; auto.
Qed.

Lemma wf_to_cfg : forall g, wf_ecfg g -> wf_cfg (to_cfg g) = true.
Proof.
  intros g [_ [W _]]. unfold wf_cfg. apply forallb_forall. intros bl Hbl.
  apply In_nth with (d := empty_block) in Hbl. destruct Hbl as [b [Hb E]].
  fold (blk (to_cfg g) b) in E. subst bl. apply forallb_forall. intros s Hs.
  apply Nat.ltb_lt. rewrite nblocks_to_cfg. fold (nblocks (to_cfg g)) in Hb. rewrite nblocks_to_cfg in Hb.
  apply (W b s Hb). change (In s (flow_succ true (to_cfg g) b)) in Hs. rewrite flow_to_cfg in Hs. exact Hs.
Qed.

Lemma filter_nil : forall (A : Type) (f : A -> bool) l, (forall x, In x l -> f x = false) -> filter f l = [].
Proof.
  intros A f l. induction l as [|a l IH]; intros H; simpl; auto.
  rewrite (H a (or_introl eq_refl)). apply IH. intros; apply H; simpl; auto.
Qed.

Lemma entry_no_flow_pred : forall g, wf_ecfg g -> flow_pred true (to_cfg g) 0 = [].
Proof.
  intros g [_ [_ W]]. unfold flow_pred, inv_edges. apply filter_nil. intros p Hp.
  apply in_seq in Hp. rewrite nblocks_to_cfg in Hp. apply memb_false. rewrite flow_to_cfg. apply W. lia.
Qed.

Section Facts.
Variable g : ecfg.
Variable E0 : env.
Variable glob s1 s2 : list nat.
Hypothesis W : wf_ecfg g.
Let F := analyze g (keys E0) glob s1 s2.
Let cg := to_cfg g.

Lemma analyze_fields :
  f_live F = liveness Repaired true cg [] s1 /\
  f_def F = fst (assignment Repaired cg (keys E0) (keys E0) s2) /\
  f_maybe F = snd (assignment Repaired cg (keys E0) (keys E0) s2) /\
  f_as F = keys E0 ++ flat_map b_def cg /\ f_glob F = glob.
Proof.
  unfold F, analyze. fold cg. destruct (assignment Repaired cg (keys E0) (keys E0) s2). simpl. auto.
Qed.

Lemma live_iff : forall b x, b < nb g -> (In x (getv (f_live F) b) <-> live_at g x b).
Proof.
  intros b x Hb. destruct analyze_fields as [-> _].
  rewrite <- live_path_iff.
  destruct (liveness_correct_lemma true cg [] (wf_to_cfg g W) s1 b x) as [H _].
  { unfold cg. rewrite nblocks_to_cfg. exact Hb. }
  apply H. simpl. tauto.
Qed.

Lemma def0_iff : forall x, In x (getv (f_def F) 0) <-> lookup x E0 <> None.
Proof.
  intros x. destruct analyze_fields as [_ [-> _]].
  destruct W as [W0 _].
  destruct (assignment_correct_lemma cg (keys E0) (keys E0) (wf_to_cfg g W) s2 0 x) as [H _].
  { unfold cg. rewrite nblocks_to_cfg. exact W0. }
  rewrite H. rewrite <- lookup_keys. unfold unassigned_before. unfold cg. rewrite (entry_no_flow_pred g W).
  unfold all_vars. rewrite in_app_iff. simpl.
  destruct (in_dec Nat.eq_dec x (keys E0)) as [I|I].
  - split; auto. intros _. split; auto. intros [[_ N]|[p [[] _]]]. auto.
  - split; [|tauto]. intros [_ N]. exfalso. apply N. left. auto.
Qed.

Lemma maybe_iff : forall b x, b < nb g -> lookup x E0 = None ->
  (In x (getv (f_maybe F) b) <-> assigned_before cg (keys E0) x b).
Proof.
  intros b x Hb Hx. destruct analyze_fields as [_ [_ [-> _]]].
  destruct (assignment_correct_lemma cg (keys E0) (keys E0) (wf_to_cfg g W) s2 b x) as [_ [H _]].
  { unfold cg. rewrite nblocks_to_cfg. exact Hb. }
  apply H. rewrite lookup_keys. intros N. apply N. exact Hx.
Qed.

Lemma as_iff : forall x, In x (f_as F) <-> lookup x E0 <> None \/ exists b, b < nb g /\ assigns x (evs g b).
Proof.
  intros x. destruct analyze_fields as [_ [_ [_ [-> _]]]]. rewrite in_app_iff, lookup_keys, in_flat_map.
  split; intros [H|H]; auto; right.
  - destruct H as [bl [Hbl Hx]]. apply In_nth with (d := empty_block) in Hbl. destruct Hbl as [b [Hb E]].
    fold (blk cg b) in E. subst bl. exists b. split.
    + fold (nblocks cg) in Hb. unfold cg in Hb. rewrite nblocks_to_cfg in Hb. exact Hb.
    + apply def_to_cfg. exact Hx.
  - destruct H as [b [Hb Hx]]. exists (blk cg b). split.
    + unfold blk. apply nth_In. fold (nblocks cg). unfold cg. rewrite nblocks_to_cfg. exact Hb.
    + apply def_to_cfg. exact Hx.
Qed.

Lemma glob_eq : f_glob F = glob.
Proof. destruct analyze_fields as [_ [_ [_ [_ H]]]]. exact H. Qed.
End Facts.
