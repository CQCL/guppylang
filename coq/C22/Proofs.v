(** C22 — the leaf layer.  The spec side reads the HISTORY of a script (the reversed list of leaf
    operations), independently of the state the model keeps. *)
From Coq Require Import List Bool Arith Lia String.
Import ListNotations.
From V.C22 Require Import GenTracing ModelTracing ModelFrozen.
Local Open Scope nat_scope.

Lemma init_registers_spec : forall c d, init_registers c d false = negb d.
Proof. intros [] []; reflexivity. Qed.
Lemma use_raises_spec : forall c d u, use_raises c d u = u && negb c.
Proof. intros [] [] []; reflexivity. Qed.
Lemma use_pops_spec : forall c d, use_pops c d true = negb d.
Proof. intros [] []; reflexivity. Qed.
Lemma upd_registers_spec : forall c d u, upd_registers c d u = negb d && u.
Proof. intros [] [] []; reflexivity. Qed.
Lemma leak_raises_spec : forall ne, leak_raises ne = ne.
Proof. intros []; reflexivity. Qed.

(* from here on the generated functions are only used through these equations *)
Local Opaque init_registers use_raises use_pops upd_registers leak_raises.

Lemma dict_mem_In : forall id l, dict_mem id l = true <-> In id l.
Proof.
  intros id l. unfold dict_mem. rewrite existsb_exists. split.
  - intros [x [H1 H2]]. apply Nat.eqb_eq in H2. subst. exact H1.
  - intros H. exists id. split; [exact H | apply Nat.eqb_refl].
Qed.
Lemma dict_set_In : forall id l x, In x (dict_set id l) <-> x = id \/ In x l.
Proof.
  intros id l x. unfold dict_set. destruct (dict_mem id l) eqn:E.
  - apply dict_mem_In in E. split; [auto | intros [->|H]; auto].
  - rewrite in_app_iff. simpl. split; [intros [H|[H|[]]]; auto | intros [H|H]; auto].
Qed.
Lemma dict_set_In_other : forall id l x, x <> id -> (In x (dict_set id l) <-> In x l).
Proof. intros id l x Ne. rewrite dict_set_In. split; [intros [H|H]; [contradiction | exact H] | auto]. Qed.
Lemma dict_pop_Some : forall id l u, dict_pop id l = Some u -> forall x, In x u <-> (In x l /\ x <> id).
Proof.
  intros id l u. unfold dict_pop. destruct (dict_mem id l); [|discriminate].
  intros H x. inversion H. rewrite filter_In. rewrite negb_true_iff, Nat.eqb_neq. tauto.
Qed.
Lemma dict_pop_None : forall id l, dict_pop id l = None <-> ~ In id l.
Proof.
  intros id l. unfold dict_pop. destruct (dict_mem id l) eqn:E.
  - apply dict_mem_In in E. split; [discriminate | tauto].
  - split; [|reflexivity]. intros _ H. apply dict_mem_In in H. congruence.
Qed.

Fixpoint nallocs (r : list lop) : nat :=
  match r with [] => 0 | LUse _ :: r' => nallocs r' | _ :: r' => S (nallocs r') end.
Fixpoint kind_of (r : list lop) (id : nat) : option kind :=
  match r with
  | [] => None
  | LCreate k :: r' => if id =? nallocs r' then Some k else kind_of r' id
  | LReassign j k :: r' => if id =? nallocs r' then Some k else kind_of r' id
  | LUse _ :: r' => kind_of r' id
  end.
(** how often the object was consumed since it was created / last got a fresh wire *)
Fixpoint uses (r : list lop) (id : nat) : nat :=
  match r with
  | [] => 0
  | LCreate _ :: r' => if id =? nallocs r' then 0 else uses r' id
  | LUse j :: r' => if id =? j then S (uses r' id) else uses r' id
  | LReassign j _ :: r' => if id =? nallocs r' then 1 else if id =? j then 0 else uses r' id
  end.
(** every Guppy type that is copyable is droppable (there are no relevant types) *)
Definition wf_kind (k : kind) : Prop := copyable k = true -> droppable k = true.
Definition wf_ops (ops : list lop) : Prop :=
  forall k, (In (LCreate k) ops \/ exists j, In (LReassign j k) ops) -> wf_kind k.
Definition wf_op (o : lop) : Prop := match o with LCreate k | LReassign _ k => wf_kind k | LUse _ => True end.
Lemma wf_ops_Forall : forall ops, wf_ops ops <-> Forall wf_op ops.
Proof.
  intros ops. rewrite Forall_forall. split.
  - intros W [k|j|j k] H; simpl; [apply W; left; exact H | exact I | apply W; right; exists j; exact H].
  - intros F k [H|[j H]]; exact (F _ H).
Qed.
Lemma wf_ops_cons : forall o t, wf_ops (o :: t) <-> wf_op o /\ wf_ops t.
Proof. intros. rewrite !wf_ops_Forall. apply Forall_cons_iff. Qed.
Lemma wf_ops_app : forall a b, wf_ops (a ++ b) <-> wf_ops a /\ wf_ops b.
Proof. intros. rewrite !wf_ops_Forall. apply Forall_app. Qed.
Definition allowed (r : list lop) (o : lop) : Prop :=
  match o with
  | LCreate _ => True
  | LUse j => exists k, kind_of r j = Some k /\ (copyable k = true \/ uses r j = 0)
  | LReassign j _ => exists k, kind_of r j = Some k
  end.

Definition leaked (r : list lop) (id : nat) : Prop :=
  exists k, kind_of r id = Some k /\ droppable k = false /\ uses r id = 0.

Lemma kind_of_lt : forall r id k, kind_of r id = Some k -> id < nallocs r.
Proof.
  induction r as [|[k'|j|j k'] r IH]; simpl; intros id k; [discriminate | | apply IH |];
    (destruct (Nat.eqb_spec id (nallocs r)); [lia | intros H; apply IH in H; lia]).
Qed.

(** the state the model keeps is determined by the history (the registry holds the objects that would leak if the
    function ended now); the last conjunct is what accepted histories obey *)
Definition Inv (r : list lop) (s : st) : Prop :=
  next s = nallocs r /\
  (forall id, objs s id = match kind_of r id with Some k => Some (mkObj k (0 <? uses r id)) | None => None end) /\
  (forall id, In id (unused s) <-> leaked r id) /\
  (forall id k, kind_of r id = Some k -> wf_kind k /\ (copyable k = false -> uses r id <= 1)).

Lemma Inv0 : Inv [] st0.
Proof.
  repeat split; simpl; intros; try discriminate; try tauto.
  destruct H as [k [H _]]. discriminate.
Qed.

(** Every leaf operation rewrites one cell of the history's reading: object [j] gets kind [k] and use count [c].
    [r2] need not be one operation longer than [r1] (see [reset_inv]). *)
Lemma set_inv : forall r1 r2 s j k c u', Inv r1 s ->
  (forall id, kind_of r2 id = if id =? j then Some k else kind_of r1 id) ->
  (forall id, uses r2 id = if id =? j then c else uses r1 id) ->
  wf_kind k -> (copyable k = false -> c <= 1) ->
  (In j u' <-> droppable k = false /\ c = 0) -> (forall x, x <> j -> In x u' <-> In x (unused s)) ->
  Inv r2 (mkSt (nallocs r2) (upd (objs s) j (mkObj k (0 <? c))) u').
Proof.
  intros r1 r2 s j k c u' (N & O & U & K) Hk Hu W C Pj P.
  split; [reflexivity|]. split; [|split]; simpl.
  - intros id. unfold upd. rewrite Hk, Hu. destruct (id =? j); [reflexivity | apply O].
  - intros id. unfold leaked. rewrite Hk, Hu. destruct (Nat.eqb_spec id j) as [->|Ne]; [rewrite Pj | rewrite (P _ Ne); apply U].
    split; [intros H; exists k; auto | intros (k' & E & H); inversion E; subst k'; exact H].
  - intros id k0 H. rewrite Hk in H. rewrite Hu. destruct (Nat.eqb_spec id j) as [->|Ne].
    + inversion H; subst k0. auto.
    + exact (K _ _ H).
Qed.

Lemma registered_iff : forall r s j k, Inv r s -> kind_of r j = Some k ->
  (In j (unused s) <-> droppable k = false /\ uses r j = 0).
Proof.
  intros r s j k (_ & _ & U & _) E. rewrite U. split; [intros (k' & E' & H); congruence | exists k; tauto].
Qed.

Lemma step_create : forall r s k, Inv r s -> wf_kind k -> Inv (LCreate k :: r) (snd (create k s)).
Proof.
  intros r s k I W. pose proof I as (N & _ & U & K). unfold create. rewrite init_registers_spec, N.
  (* the two readings of the longer history are those of [r] with the new cell, by computation *)
  refine (set_inv r (LCreate k :: r) s (nallocs r) k 0 _ I (fun _ => eq_refl) (fun _ => eq_refl) W (fun _ => Nat.le_0_1) _ _).
  - (* the new id was not registered before *)
    destruct (droppable k); simpl; [|rewrite dict_set_In; split; auto].
    split; [|intros [D _]; discriminate]. intros H. apply U in H. destruct H as (k' & H & _). apply kind_of_lt in H. lia.
  - intros x Ne. destruct (droppable k); simpl; [reflexivity | apply dict_set_In_other, Ne].
Qed.

Lemma use_inv : forall r s j k u', Inv r s -> kind_of r j = Some k ->
  (copyable k = true \/ uses r j = 0) -> (forall x, In x u' <-> In x (unused s) /\ x <> j) ->
  Inv (LUse j :: r) (mkSt (next s) (upd (objs s) j (mkObj k true)) u').
Proof.
  intros r s j k u' I E A P. pose proof I as (N & _ & _ & K). destruct (K _ _ E) as (W & C). rewrite N.
  refine (set_inv r (LUse j :: r) s j k (S (uses r j)) u' I _ _ W _ _ _); simpl.
  - intros id. destruct (Nat.eqb_spec id j) as [->|]; [exact E | reflexivity].
  - intros id. destruct (Nat.eqb_spec id j) as [->|]; reflexivity.
  - intros Hc. destruct A as [A|A]; [congruence | rewrite A; apply Nat.le_refl].
  - rewrite P. split; [intros [_ Ne]; contradiction | intros [_ Z]; discriminate].
  - intros x Ne. rewrite P. split; [intros [H _]; exact H | auto].
Qed.

Lemma use_wire_char : forall r s j, Inv r s ->
  match use_wire j s with
  | Ok s' => allowed r (LUse j) /\ Inv (LUse j :: r) s'
  | Err e => match kind_of r j with
             | None => e = ENoObj j
             | Some k => e = EAlreadyUsed j /\ copyable k = false /\ uses r j = 1
             end
  end.
Proof.
  intros r s j I. pose proof I as (N & O & U & K). unfold use_wire. rewrite O.
  destruct (kind_of r j) as [k|] eqn:E; [|reflexivity].
  simpl. rewrite use_raises_spec, use_pops_spec. destruct ((0 <? uses r j) && negb (copyable k)) eqn:Raise.
  { apply andb_true_iff in Raise as [Us C]. apply Nat.ltb_lt in Us. apply negb_true_iff in C.
    destruct (K _ _ E) as (_ & C1). specialize (C1 C). split; [reflexivity | split; [exact C | lia]]. }
  assert (A : copyable k = true \/ uses r j = 0).
  { destruct (copyable k); [auto|]. rewrite andb_true_r in Raise. apply Nat.ltb_ge in Raise. right. lia. }
  assert (Al : allowed r (LUse j)) by (exists k; auto).
  pose proof (registered_iff _ _ _ _ I E) as Rg. destruct (droppable k) eqn:D; simpl.
  - (* droppable: never registered, nothing to pop *)
    split; [exact Al|]. apply use_inv; auto. intros x. split; [|tauto].
    intros H. split; [exact H|]. intros ->. apply Rg in H. destruct H. discriminate.
  - destruct (dict_pop j (unused s)) as [u|] eqn:P.
    + split; [exact Al|]. apply use_inv; auto. apply dict_pop_Some, P.
    + (* registered until it is used, and a second use raised above *)
      apply dict_pop_None in P. exfalso. apply P, Rg. destruct (K _ _ E) as (W & _).
      destruct A as [A|A]; [rewrite (W A) in D; discriminate | auto].
Qed.

(** stated between two histories that allocate the same objects, not for one more operation: in
    [step_reassign] the reset comes after the carrier was created and used, and [r2] is [LReassign j k2 :: r] *)
Lemma reset_inv : forall r1 r2 s j k, Inv r1 s -> kind_of r1 j = Some k ->
  nallocs r2 = nallocs r1 -> (forall id, kind_of r2 id = kind_of r1 id) ->
  (forall id, uses r2 id = if id =? j then 0 else uses r1 id) ->
  Inv r2 (mkSt (next s) (upd (objs s) j (mkObj k false))
               (if negb (droppable k) && (0 <? uses r1 j) then dict_set j (unused s) else unused s)).
Proof.
  intros r1 r2 s j k I E Hn Hk Hu. pose proof I as (N & _ & _ & K). destruct (K _ _ E) as (W & _).
  pose proof (registered_iff _ _ _ _ I E) as Rg. rewrite N, <- Hn.
  refine (set_inv r1 r2 s j k 0 _ I _ Hu W (fun _ => Nat.le_0_1) _ _).
  - intros id. rewrite Hk. destruct (Nat.eqb_spec id j) as [->|]; [exact E | reflexivity].
  - (* registered again, unless it still is *)
    destruct (droppable k); simpl; [rewrite Rg; split; intros [D _]; discriminate|].
    destruct (Nat.ltb_spec 0 (uses r1 j)) as [Us|Us]; [rewrite dict_set_In; split; auto|].
    apply Nat.le_0_r in Us. rewrite Rg, Us. reflexivity.
  - intros x Ne. destruct (negb (droppable k) && (0 <? uses r1 j)); [apply dict_set_In_other, Ne | reflexivity].
Qed.

Lemma create_fst : forall k s, fst (create k s) = next s.
Proof. reflexivity. Qed.

(** create the carrier, use it (fresh: cannot fail), reset [j] *)
Lemma step_reassign : forall r s j k2, Inv r s -> wf_kind k2 ->
  match step (LReassign j k2) s with
  | Ok s' => allowed r (LReassign j k2) /\ Inv (LReassign j k2 :: r) s'
  | Err _ => ~ allowed r (LReassign j k2)
  end.
Proof.
  intros r s j k2 I W2. pose proof I as (N & O & _ & K).
  unfold step. rewrite O. destruct (kind_of r j) as [k|] eqn:E.
  2:{ intros [k H]. congruence. }
  assert (Ej : j =? nallocs r = false) by (apply Nat.eqb_neq; apply kind_of_lt in E; lia).
  rewrite (surjective_pairing (create k2 s)), create_fst, N. unfold update_leaf.
  pose proof (use_wire_char _ _ (nallocs r) (step_create r s k2 I W2)) as G.
  destruct (use_wire (nallocs r) (snd (create k2 s))) as [s2|e]; simpl.
  2:{ exfalso. simpl in G. rewrite Nat.eqb_refl in G. destruct G as (_ & _ & G). discriminate. }
  destruct G as [_ I2]. pose proof I2 as (_ & O2 & _ & _).
  rewrite O2. simpl. rewrite Ej, E. simpl. rewrite upd_registers_spec.
  split; [exists k; reflexivity|].
  pose proof (reset_inv (LUse (nallocs r) :: LCreate k2 :: r) (LReassign j k2 :: r) s2 j k I2) as R.
  simpl in R. rewrite !Ej in R. apply R; auto.
  intros id. destruct (id =? nallocs r) eqn:E1, (id =? j) eqn:E2; auto.
  apply Nat.eqb_eq in E1, E2. subst. rewrite Nat.eqb_refl in Ej. discriminate.
Qed.

Lemma step_char : forall r s o, Inv r s -> wf_op o ->
  match step o s with Ok s' => allowed r o /\ Inv (o :: r) s' | Err _ => ~ allowed r o end.
Proof.
  intros r s [k|j|j k] I W.
  - simpl. split; [exact Logic.I | apply step_create; auto].
  - pose proof (use_wire_char r s j I) as G. simpl. destruct (use_wire j s); [exact G|].
    intros (k & E & A). rewrite E in G. destruct G as (_ & C & Us). destruct A; [congruence | lia].
  - exact (step_reassign r s j k I W).
Qed.

Lemma lrun_app : forall a b s, lrun (a ++ b) s = bind (lrun a s) (lrun b).
Proof.
  induction a as [|o a IH]; intros b s; simpl; [reflexivity|].
  destruct (step o s); simpl; [apply IH | reflexivity].
Qed.

Lemma lrun_single : forall o s, lrun [o] s = step o s.
Proof. intros. simpl. destruct (step o s); reflexivity. Qed.

Fixpoint legal (r : list lop) (ops : list lop) : Prop :=
  match ops with [] => True | o :: t => allowed r o /\ legal (o :: r) t end.

Lemma lrun_inv_gen : forall ops r s, Inv r s -> wf_ops ops ->
  match lrun ops s with
  | Ok s' => legal r ops /\ Inv (rev ops ++ r) s'
  | Err _ => ~ legal r ops
  end.
Proof.
  induction ops as [|o t IH]; intros r s I W; simpl.
  - split; [exact Logic.I | exact I].
  - apply wf_ops_cons in W. destruct W as [Wo Wt].
    pose proof (step_char r s o I Wo) as H. destruct (step o s) as [s'|e]; simpl.
    + destruct H as [A I']. specialize (IH (o :: r) s' I' Wt). destruct (lrun t s').
      * destruct IH as [L I'']. split; [split; assumption|]. rewrite <- app_assoc. exact I''.
      * intros [_ L]. apply IH. exact L.
    + intros [A _]. exact (H A).
Qed.

Lemma lrun_inv : forall ops s, wf_ops ops -> lrun ops st0 = Ok s -> legal [] ops /\ Inv (rev ops) s.
Proof.
  intros ops s W H. pose proof (lrun_inv_gen ops [] st0 Inv0 W) as G. rewrite H in G.
  rewrite app_nil_r in G. exact G.
Qed.

Lemma lookup_raise_call : forall ovr m arg fl, lookup m ovr = Some BRaise -> call ovr m arg fl = ORaised fl.
Proof. intros. unfold call. rewrite H. reflexivity. Qed.

(** one mutator is rejected on every constructed frozenlist: its body raises, or raises once
    `_initialised` is set and construction, through an `__init__` of that kind, has set it *)
Definition rejects (ovr : list (string * body)) (m : string) : bool :=
  match lookup m ovr with
  | Some BRaise => true
  | Some BInitGuard => match lookup "__init__" ovr with Some BInitGuard => true | _ => false end
  | _ => false
  end.

Lemma rejects_sound : forall ovr m, rejects ovr m = true ->
  forall xs arg fl, construct ovr xs = Some fl -> call ovr m arg fl = ORaised fl.
Proof.
  intros ovr m R xs arg fl C. unfold rejects in R. unfold construct, call in C.
  destruct (lookup m ovr) as [[| | |]|] eqn:Lm; try discriminate.
  - apply lookup_raise_call, Lm.
  - destruct (lookup "__init__" ovr) as [[| | |]|] eqn:Li; try discriminate.
    simpl in C. inversion C; subst fl. unfold call. rewrite Lm. reflexivity.
Qed.

Definition init_ok (ovr : list (string * body)) : bool :=
  match lookup "__init__" ovr with None => true | Some BInitGuard => true | _ => false end.
Lemma construct_contents : forall ovr xs, init_ok ovr = true ->
  exists fl, construct ovr xs = Some fl /\ contents fl = xs.
Proof.
  intros ovr xs I. unfold init_ok in I. unfold construct, call.
  destruct (lookup "__init__" ovr) as [[| | |]|]; try discriminate; simpl; eexists; split; reflexivity.
Qed.

Lemma frozen_total_lemma : forall ovr muts, init_ok ovr = true -> forallb (rejects ovr) muts = true ->
  forall xs, exists fl, construct ovr xs = Some fl /\ contents fl = xs /\
    forall m arg, In m muts -> call ovr m arg fl = ORaised fl.
Proof.
  intros ovr muts I F xs. destruct (construct_contents ovr xs I) as [fl [C1 C2]].
  exists fl. repeat split; auto. intros m arg Hm. rewrite forallb_forall in F.
  eapply rejects_sound; [apply F; exact Hm | exact C1].
Qed.
