(** C22 — the TREE layer (ModelTree.v): frozen flags reach every level, and every tree-level function
    is a sequence of leaf operations. *)
From Coq Require Import List Bool Arith Lia.
Import ListNotations.
From V.C22 Require Import GenTracing ModelTracing ModelTree Proofs.
Local Open Scope nat_scope.

Definition Reach (s s' : st) : Prop := exists ops, wf_ops ops /\ lrun ops s = Ok s'.
(** an "already used" error is a real second use of that object in a reachable leaf state *)
Definition FailsAt (s : st) (e : err) : Prop :=
  match e with
  | EAlreadyUsed id => exists s1, Reach s s1 /\ use_wire id s1 = Err (EAlreadyUsed id)
  | ELeak _ => False          (* only the end-of-function check reports leaks *)
  | _ => True
  end.
(** a computation started in leaf state [s] is a run of leaf operations, or fails with an error the leaf
    layer accounts for *)
Definition Sim {X} (s : st) (r : res X) (proj : X -> st) : Prop :=
  match r with Ok x => Reach s (proj x) | Err e => FailsAt s e end.

Lemma Reach_refl : forall s, Reach s s.
Proof. intros s. exists []. split; [apply wf_ops_Forall; constructor | reflexivity]. Qed.
Lemma Reach_trans : forall a b c, Reach a b -> Reach b c -> Reach a c.
Proof.
  intros a b c [o1 [W1 R1]] [o2 [W2 R2]]. exists (o1 ++ o2). split; [apply wf_ops_app; auto|].
  rewrite lrun_app, R1. exact R2.
Qed.
Lemma Reach_step : forall o s s', wf_op o -> step o s = Ok s' -> Reach s s'.
Proof.
  intros o s s' W St. exists [o]. split; [|rewrite lrun_single; exact St].
  apply wf_ops_Forall. repeat constructor. exact W.
Qed.
Lemma FailsAt_pre : forall s s1 e, Reach s s1 -> FailsAt s1 e -> FailsAt s e.
Proof.
  intros s s1 e R F. destruct e; simpl in *; auto. destruct F as [s2 [R2 U]]. exists s2. split; [eapply Reach_trans; eassumption | exact U].
Qed.
Lemma Sim_pre : forall X s s1 (r : res X) p, Reach s s1 -> Sim s1 r p -> Sim s r p.
Proof. intros X s s1 [x|e] p R S; simpl in *; [eapply Reach_trans; eassumption | eapply FailsAt_pre; eassumption]. Qed.
Lemma Sim_bind : forall X Y s (r : res X) (k : X -> res Y) p q,
  Sim s r p -> (forall x, Sim (p x) (k x) q) -> Sim s (bind r k) q.
Proof. intros X Y s [x|e] k p q S K; simpl in *; [eapply Sim_pre; [exact S | apply K] | exact S]. Qed.
Lemma Sim_ok : forall X s (x : X) p, Reach s (p x) -> Sim s (Ok x) p.
Proof. intros. exact H. Qed.

Lemma wf_all : forall (g : ty -> kind) l, (forall x, wf_kind (g x)) ->
  wf_kind (fold_right (fun x k => let kx := g x in mkKind (copyable kx && copyable k) (droppable kx && droppable k)) (mkKind true true) l).
Proof.
  intros g l G. induction l as [|x l IH]; simpl; [intro; reflexivity|].
  intros H. simpl in *. apply andb_true_iff in H. destruct H as [H1 H2].
  apply andb_true_iff. split; [apply G; exact H1 | apply IH; exact H2].
Qed.
Lemma kind_of_ty_wf : forall fuel sd t, wf_kind (kind_of_ty fuel sd t).
Proof.
  induction fuel as [|f IH]; intros sd t; simpl; [intro; reflexivity|].
  destruct t; try (intro; simpl in *; (reflexivity || discriminate)); apply wf_all; intros; apply IH.
Qed.

Lemma create_reach : forall k s, wf_kind k -> Reach s (snd (create k s)).
Proof.
  intros k s W. apply (Reach_step (LCreate k)); [exact W | reflexivity].
Qed.
Lemma create_t_leaf : forall sd t ts id ts', create_t sd t ts = (id, ts') ->
  create (kind_of_ty 8 sd t) (leaf ts) = (id, leaf ts').
Proof.
  intros sd t ts id ts' H. unfold create_t in H. destruct (create _ _) as [i l]. inversion H; subst. reflexivity.
Qed.
Lemma create_t_reach : forall sd t ts id ts', create_t sd t ts = (id, ts') -> Reach (leaf ts) (leaf ts').
Proof.
  intros sd t ts id ts' H. apply create_t_leaf in H.
  pose proof (create_reach (kind_of_ty 8 sd t) (leaf ts) (kind_of_ty_wf _ _ _)) as R. rewrite H in R. exact R.
Qed.
Lemma use_wire_sim : forall id s, Sim s (use_wire id s) (fun x => x).
Proof.
  intros id s. destruct (use_wire id s) as [s'|e] eqn:U; simpl.
  - apply (Reach_step (LUse id)); [exact I | exact U].
  - (* the one error of the leaf layer's that [use_wire] writes is the second use of [id], here and now *)
    pose proof U as U'. unfold use_wire in U'. destruct (objs s id); [|inversion U'; exact I].
    destruct (use_raises _ _ _); [inversion U'; subst e; exists s; split; [apply Reach_refl | exact U]|].
    destruct (use_pops _ _ _); [destruct (dict_pop _ _)|]; inversion U'. exact I.
Qed.
Lemma use_t_sim : forall id ts, Sim (leaf ts) (use_t id ts) leaf.
Proof.
  intros id ts. unfold use_t. pose proof (use_wire_sim id (leaf ts)) as S.
  destruct (use_wire id (leaf ts)); simpl in *; exact S.
Qed.
(** `GuppyObject(t, wire)` followed by the GuppyObject case of update_packed_value is one
    LReassign step *)
Lemma reassign_sim : forall k s vid o nid s1, wf_kind k -> objs s vid = Some o -> create k s = (nid, s1) ->
  Sim s (update_leaf vid nid s1) (fun x => x).
Proof.
  intros k s vid o nid s1 W E Cr.
  pose proof (Reach_step (LReassign vid k) s) as Whole. unfold step in Whole. rewrite E, Cr in Whole.
  pose proof (create_reach k s W) as C. rewrite Cr in C. simpl in C. unfold update_leaf in *.
  (* an error of the carrier's use is accounted for like any other use, one [LCreate] later *)
  pose proof (use_wire_sim nid s1) as U. destruct (use_wire nid s1) as [s2|e]; simpl in *.
  - destruct (objs s2 vid); [apply Whole; [exact W | reflexivity] | exact I].
  - exact (FailsAt_pre _ _ _ C U).
Qed.

Lemma ty_of_sim : forall s id ts, Sim s (ty_of id ts) (fun _ => s).
Proof. intros. unfold ty_of. destruct (otys ts id); [apply Reach_refl | exact I]. Qed.
Lemma new_list_leaf : forall fr vs ts, leaf (snd (new_list fr vs ts)) = leaf ts.
Proof. reflexivity. Qed.
Lemma new_struct_leaf : forall fr sid vs ts, leaf (snd (new_struct fr sid vs ts)) = leaf ts.
Proof. reflexivity. Qed.
Lemma create_t_reach' : forall sd t ts, Reach (leaf ts) (leaf (snd (create_t sd t ts))).
Proof. intros. destruct (create_t sd t ts) eqn:C. simpl. eapply create_t_reach. exact C. Qed.

Inductive Frozen (ts : tst) : val -> Prop :=
| FObj : forall id, Frozen ts (VObj id)
| FNone : Frozen ts VNone
| FInt : Frozen ts VInt
| FTup : forall vs, FrozenL ts vs -> Frozen ts (VTup vs)
| FList : forall loc vs, lists ts loc = Some (true, vs) -> FrozenL ts vs -> Frozen ts (VList loc)
| FStruct : forall loc sid vs, strs ts loc = Some (true, sid, vs) -> FrozenL ts vs -> Frozen ts (VStruct loc)
with FrozenL (ts : tst) : list val -> Prop :=
| FNil : FrozenL ts []
| FCons : forall v vs, Frozen ts v -> FrozenL ts vs -> FrozenL ts (v :: vs).
Scheme Frozen_mut := Induction for Frozen Sort Prop
  with FrozenL_mut := Induction for FrozenL Sort Prop.
Combined Scheme Frozen_mutind from Frozen_mut, FrozenL_mut.

(** no list or struct object is stored at or beyond the allocation counter; [ext]: every stored list / struct object is kept as it is *)
Definition hwf (ts : tst) : Prop := forall loc, nloc ts <= loc -> lists ts loc = None /\ strs ts loc = None.
Definition ext (ts ts' : tst) : Prop :=
  (forall loc x, lists ts loc = Some x -> lists ts' loc = Some x) /\
  (forall loc x, strs ts loc = Some x -> strs ts' loc = Some x).

Lemma ext_refl : forall ts, ext ts ts.
Proof. intros ts. split; auto. Qed.
Lemma ext_trans : forall a b c, ext a b -> ext b c -> ext a c.
Proof. intros a b c [L1 S1] [L2 S2]. split; auto. Qed.

Lemma Frozen_mono_both : forall ts ts', ext ts ts' ->
  (forall v, Frozen ts v -> Frozen ts' v) /\ (forall vs, FrozenL ts vs -> FrozenL ts' vs).
Proof.
  intros ts ts' [L S]. apply Frozen_mutind; intros; try (constructor; assumption).
  - apply FList with vs; [apply L|]; assumption.
  - apply FStruct with sid vs; [apply S|]; assumption.
Qed.
Lemma Frozen_mono : forall ts ts' v, ext ts ts' -> Frozen ts v -> Frozen ts' v.
Proof. intros ts ts' v E. apply (proj1 (Frozen_mono_both ts ts' E)). Qed.
Lemma FrozenL_mono : forall ts ts' vs, ext ts ts' -> FrozenL ts vs -> FrozenL ts' vs.
Proof. intros ts ts' v E. apply (proj2 (Frozen_mono_both ts ts' E)). Qed.

(* creating and using GuppyObjects leaves the list and struct objects alone *)
Lemma create_t_grows : forall sd t ts id ts', create_t sd t ts = (id, ts') -> hwf ts -> hwf ts' /\ ext ts ts'.
Proof.
  intros sd t ts id ts' H W. unfold create_t in H. destruct (create _ _). inversion H. split; [exact W | exact (ext_refl ts)].
Qed.
Lemma use_t_grows : forall id ts ts', use_t id ts = Ok ts' -> hwf ts -> hwf ts' /\ ext ts ts'.
Proof.
  intros id ts ts' H W. unfold use_t in H. destruct (use_wire id (leaf ts)); simpl in H; inversion H.
  split; [exact W | exact (ext_refl ts)].
Qed.
(* allocation is where [hwf] is needed: the new location held nothing *)
Lemma new_list_frozen : forall vs ts, hwf ts -> FrozenL ts vs ->
  let r := new_list true vs ts in hwf (snd r) /\ ext ts (snd r) /\ Frozen (snd r) (fst r).
Proof.
  intros vs ts W F. simpl. assert (E : ext ts (snd (new_list true vs ts))).
  { split; [|auto]. intros loc x H. simpl. unfold updm. destruct (Nat.eqb_spec loc (nloc ts)) as [->|]; [|exact H].
    destruct (W (nloc ts) (le_n _)). congruence. }
  split; [|split; [exact E|]].
  - intros loc Hl. simpl in *. unfold updm. split; [|apply W; lia]. destruct (Nat.eqb_spec loc (nloc ts)); [lia | apply W; lia].
  - apply FList with vs; [simpl; unfold updm; rewrite Nat.eqb_refl; reflexivity | exact (FrozenL_mono _ _ _ E F)].
Qed.
Lemma new_struct_frozen : forall sid vs ts, hwf ts -> FrozenL ts vs ->
  let r := new_struct true sid vs ts in hwf (snd r) /\ ext ts (snd r) /\ Frozen (snd r) (fst r).
Proof.
  intros sid vs ts W F. simpl. assert (E : ext ts (snd (new_struct true sid vs ts))).
  { split; [auto|]. intros loc x H. simpl. unfold updm. destruct (Nat.eqb_spec loc (nloc ts)) as [->|]; [|exact H].
    destruct (W (nloc ts) (le_n _)). congruence. }
  split; [|split; [exact E|]].
  - intros loc Hl. simpl in *. unfold updm. split; [apply W; lia|]. destruct (Nat.eqb_spec loc (nloc ts)); [lia | apply W; lia].
  - apply FStruct with sid vs; [simpl; unfold updm; rewrite Nat.eqb_refl; reflexivity | exact (FrozenL_mono _ _ _ E F)].
Qed.

(* from here on the primitives are used only through the lemmas above *)
Opaque create_t use_t kind_of_ty ty_of new_list new_struct.

(** the container cases of unpack_guppy_object, given that the level below freezes what it unpacks *)
Section Containers.
Variables (sd : sdefs) (rec : nat -> bool -> tst -> res (val * tst)).
Hypothesis rec_frozen : forall id ts v ts', hwf ts -> rec id true ts = Ok (v, ts') -> hwf ts' /\ ext ts ts' /\ Frozen ts' v.

Lemma children_frozen : forall tys ts vs ts', hwf ts ->
  map_m (fun t ts => let '(cid, ts1) := create_t sd t ts in rec cid true ts1) tys ts = Ok (vs, ts') ->
  hwf ts' /\ ext ts ts' /\ FrozenL ts' vs.
Proof.
  induction tys as [|t tys IHt]; intros ts vs ts' W H; simpl in H.
  - inversion H; subst. split; [exact W | split; [apply ext_refl | constructor]].
  - destruct (create_t sd t ts) as [cid ts1] eqn:C. destruct (create_t_grows _ _ _ _ _ C W) as [W1 E1].
    destruct (rec cid true ts1) as [[v tsa]|] eqn:R; simpl in H; [|discriminate].
    destruct (rec_frozen _ _ _ _ W1 R) as (Wa & Ea & Fa).
    destruct (map_m _ tys tsa) as [[vs2 tsb]|] eqn:M; simpl in H; [|discriminate].
    inversion H; subst; clear H. destruct (IHt _ _ _ Wa M) as (Wb & Eb & Fb).
    split; [exact Wb | split; [eapply ext_trans; [exact E1 | eapply ext_trans; eassumption] | ]].
    constructor; [exact (Frozen_mono _ _ _ Eb Fa) | exact Fb].
Qed.

Lemma container_frozen : forall (wrap : list val -> tst -> val * tst) id tys ts v ts',
  (forall vs tsa, hwf tsa -> FrozenL tsa vs ->
     let r := wrap vs tsa in hwf (snd r) /\ ext tsa (snd r) /\ Frozen (snd r) (fst r)) ->
  hwf ts ->
  (ts1 <- use_t id ts ;;
   r <- map_m (fun t ts => let '(cid, ts1) := create_t sd t ts in rec cid true ts1) tys ts1 ;;
   Ok (wrap (fst r) (snd r))) = Ok (v, ts') ->
  hwf ts' /\ ext ts ts' /\ Frozen ts' v.
Proof.
  intros wrap id tys ts v ts' Wr W H.
  destruct (use_t id ts) as [ts1|] eqn:U; simpl in H; [|discriminate].
  destruct (use_t_grows _ _ _ U W) as [W1 E1].
  destruct (map_m _ tys ts1) as [[vs tsa]|] eqn:M; simpl in H; [|discriminate]. inversion H as [Hw]; clear H.
  destruct (children_frozen _ _ _ _ W1 M) as (Wa & Ea & Fa).
  destruct (Wr _ _ Wa Fa) as (Wb & Eb & Fb). rewrite Hw in Wb, Eb, Fb.
  split; [exact Wb | split; [eapply ext_trans; [exact E1 | eapply ext_trans; eassumption] | exact Fb]].
Qed.
End Containers.

Lemma unpack_frozen : forall fuel sd id ts v ts', hwf ts -> unpack fuel sd id true ts = Ok (v, ts') ->
  hwf ts' /\ ext ts ts' /\ Frozen ts' v.
Proof.
  induction fuel as [|f IH]; intros sd id ts v ts' W H; [discriminate|].
  change (unpack (S f) sd id true ts) with (unpack_step (unpack f sd) sd id true ts) in H.
  unfold unpack_step in H. destruct (ty_of id ts) as [t|]; simpl in H; [|discriminate].
  assert (Base : forall x, Ok (x, ts) = Ok (v, ts') -> Frozen ts x -> hwf ts' /\ ext ts ts' /\ Frozen ts' v).
  { intros x E F. inversion E; subst. split; [exact W | split; [apply ext_refl | exact F]]. }
  destruct t as [| | |tys|e [|n]|sid]; try (apply (Base _ H); constructor).
  - apply (container_frozen sd (unpack f sd) (IH sd) (fun vs ts => (VTup vs, ts)) id tys ts); [| exact W | exact H].
    intros vs tsa Wa Fa. split; [exact Wa | split; [apply ext_refl | constructor; exact Fa]].
  - exact (container_frozen sd (unpack f sd) (IH sd) (new_list true) id (repeat e (S n)) ts _ _ (new_list_frozen) W H).
  - exact (container_frozen sd (unpack f sd) (IH sd) (new_struct true sid) id (nth sid sd []) ts _ _ (new_struct_frozen sid) W H).
Qed.

Lemma tys_of_sim : forall s ids ts, Sim s (tys_of ids ts) (fun _ => s).
Proof.
  induction ids as [|i ids IH]; intros ts; simpl; [apply Reach_refl|].
  eapply Sim_bind; [apply ty_of_sim | intros t]. eapply Sim_bind; [apply IH | intros l]. apply Reach_refl.
Qed.

Lemma map_m_sim : forall A B (f : A -> tst -> res (B * tst)),
  (forall a ts, Sim (leaf ts) (f a ts) (fun r => leaf (snd r))) ->
  forall l ts, Sim (leaf ts) (map_m f l ts) (fun r => leaf (snd r)).
Proof.
  intros A B f F. induction l as [|a l IH]; intros ts; simpl; [apply Reach_refl|].
  eapply Sim_bind; [apply F|]. intros x. eapply Sim_bind; [apply IH|]. intros y. simpl. apply Reach_refl.
Qed.
Lemma iter_i_sim : forall A (f : nat -> A -> tst -> res tst),
  (forall i a ts, Sim (leaf ts) (f i a ts) leaf) ->
  forall l i ts, Sim (leaf ts) (iter_i f i l ts) leaf.
Proof.
  intros A f F. induction l as [|a l IH]; intros i ts; simpl; [apply Reach_refl|].
  eapply Sim_bind; [apply F|]. intros x. apply IH.
Qed.
Lemma all_ok_sim : forall A (f : A -> tst -> res (bool * tst)),
  (forall a ts, Sim (leaf ts) (f a ts) (fun r => leaf (snd r))) ->
  forall l ts, Sim (leaf ts) (all_ok f l ts) (fun r => leaf (snd r)).
Proof.
  intros A f F. induction l as [|a l IH]; intros ts; simpl; [apply Reach_refl|].
  eapply Sim_bind; [apply F|]. intros x. destruct (fst x); [apply IH | simpl; apply Reach_refl].
Qed.
Lemma use_all_sim : forall ids ts, Sim (leaf ts) (use_all ids ts) leaf.
Proof.
  induction ids as [|i ids IH]; intros ts; simpl; [apply Reach_refl|].
  eapply Sim_bind; [apply use_t_sim|]. intros x. apply IH.
Qed.

Lemma mutate_sim : forall s m cur v, Sim s (mutate m cur v) (fun _ => s).
Proof.
  intros. destruct m; simpl; try apply Reach_refl; try exact I.
  - destruct cur; [exact I | apply Reach_refl].
  - destruct (i <? length cur); [apply Reach_refl | exact I].
Qed.

(** [sim_go] follows a tree-level function through its binds and matches: an error written in the function is
    none of the leaf layer's ([FailsAt] computes to [True]), a returned state is the current one or one [create_t]
    away, the calls it makes are in the [sim] database or, for the recursive call of a fuelled
    function, the induction hypothesis at hand; an iteration simulates if its body does. *)
Ltac sim_go :=
  repeat first
  [ exact I
  | solve [eauto with sim]
  | match goal with |- Sim _ (Ok _) _ =>
      unfold Sim;
      first [ apply Reach_refl | simpl; apply Reach_refl
            | simpl; rewrite ?new_list_leaf, ?new_struct_leaf; apply Reach_refl | apply create_t_reach' ]
    end
  | match goal with
    | C : create_t _ _ ?ts = (_, _) |- Sim (leaf ?ts) _ _ =>
      apply (Sim_pre _ _ _ _ _ (create_t_reach _ _ _ _ _ C)); clear C
    end
  | match goal with |- Sim _ (bind _ _) _ => eapply Sim_bind; [|intros ?] end
  | match goal with |- Sim _ (map_m _ _ _) _ => apply map_m_sim; intros end
  | match goal with |- Sim _ (iter_i _ _ _ _) _ => apply iter_i_sim; intros end
  | match goal with |- Sim _ (all_ok _ _ _) _ => apply all_ok_sim; intros end
  | match goal with |- Sim _ (match ?x with _ => _ end) _ => destruct x eqn:? end ].

#[export] Hint Resolve use_t_sim use_all_sim ty_of_sim tys_of_sim mutate_sim : sim.

Lemma unpack_sim : forall fuel sd id fr ts, Sim (leaf ts) (unpack fuel sd id fr ts) (fun r => leaf (snd r)).
Proof.
  induction fuel as [|f IH]; intros; [exact I|]. cbn [unpack]. unfold unpack_step. sim_go.
Qed.

Lemma from_py_sim : forall fuel sd v ts, Sim (leaf ts) (from_py fuel sd v ts) (fun r => leaf (snd r)).
Proof.
  induction fuel as [|f IH]; intros; [exact I|]. cbn [from_py]. unfold from_py_step. destruct v; sim_go.
Qed.

Lemma upd_fresh_sim : forall fuel sd v t ts, Sim (leaf ts) (upd_fresh fuel sd v t ts) (fun r => leaf (snd r)).
Proof.
  induction fuel as [|f IH]; intros; [exact I|]. cbn [upd_fresh]. unfold upd_step.
  destruct (create_t sd t ts) as [oid ts0] eqn:C.
  destruct v as [vid| | |vs|loc|loc]; [|sim_go..].
  destruct (objs (leaf ts) vid) as [o|] eqn:E; [|exact I].
  eapply Sim_bind; [apply ty_of_sim | intros tv].
  destruct (ty_eqb tv t); [|exact I].
  eapply Sim_bind; [exact (reassign_sim _ _ _ _ _ _ (kind_of_ty_wf _ _ _) E (create_t_leaf _ _ _ _ _ C))|].
  intros x. simpl. apply Reach_refl.
Qed.

Lemma eval_f_sim : forall fuel en e ts, Sim (leaf ts) (eval_f fuel en e ts) (fun r => leaf (snd r)).
Proof.
  induction fuel as [|f IH]; intros; [exact I|]. cbn [eval_f]. unfold eval_step. destruct e; sim_go.
Qed.
Lemma eval_sim : forall en e ts, Sim (leaf ts) (eval en e ts) (fun r => leaf (snd r)).
Proof. intros. apply eval_f_sim. Qed.

#[export] Hint Resolve eval_sim from_py_sim unpack_sim upd_fresh_sim : sim.

(* fuel 8 and 12 from here on: keep the recursive functions folded *)
Opaque unpack from_py upd_fresh eval_f.

Lemma call_gen_sim : forall sd mk rty args ts, Sim (leaf ts) (call_gen sd mk rty args ts) (fun r => leaf (snd r)).
Proof.
  intros. unfold call_gen, from_py_all. sim_go.
Qed.
Lemma call_fn_sim : forall sd params rty args ts, Sim (leaf ts) (call_fn sd params rty args ts) (fun r => leaf (snd r)).
Proof. intros. apply call_gen_sim. Qed.
Lemma call_opaque_sim : forall sd b args ts, Sim (leaf ts) (call_opaque sd b args ts) (fun r => leaf (snd r)).
Proof. intros. apply call_gen_sim. Qed.

#[export] Hint Resolve call_fn_sim call_opaque_sim : sim.

Lemma exec_sim : forall sd s en ts, Sim (leaf ts) (exec sd s en ts) (fun r => leaf (snd (fst r))).
Proof.
  intros sd s en ts. destruct s; unfold exec, eval_all; sim_go.
  (* SCopy: a new list object, same leaf state *)
  match goal with H : new_list _ _ _ = _ |- _ =>
    pose proof (f_equal (fun p => leaf (snd p)) H) as HL; cbv beta in HL; rewrite new_list_leaf in HL end.
  unfold Sim. simpl in *. rewrite <- HL. apply Reach_refl.
Qed.
Lemma exec_body_sim : forall sd body en ts, Sim (leaf ts) (exec_body sd body en ts) (fun r => leaf (fst r)).
Proof.
  intros sd. induction body as [|s body IH]; intros en ts; simpl; [apply Reach_refl|].
  eapply Sim_bind; [apply exec_sim | intros [[en' ts'] [v|]]]; simpl; [apply Reach_refl | apply IH].
Qed.
Lemma receive_inputs_sim : forall sd params ts, Sim (leaf ts) (receive_inputs sd params ts) (fun r => leaf (snd r)).
Proof.
  intros. unfold receive_inputs. sim_go.
Qed.
Lemma return_inouts_sim : forall sd ins ts, Sim (leaf ts) (return_inouts sd ins ts) leaf.
Proof.
  intros. unfold return_inouts. sim_go.
Qed.

(** [r] is a simulated computation followed by the leak check on the leaf state it ends in *)
Definition SimEnd (s : st) (r : res unit) : Prop := exists pre, Sim s pre (fun x => x) /\ r = bind pre end_check.
Lemma SimEnd_bind : forall X s (r : res X) k p,
  Sim s r p -> (forall x, SimEnd (p x) (k x)) -> SimEnd s (bind r k).
Proof.
  intros X s [x|e] k p S K; simpl.
  - destruct (K x) as (pre & Sp & E). exists pre. split; [exact (Sim_pre _ _ _ _ _ S Sp) | exact E].
  - exists (Err e). split; [exact S | reflexivity].
Qed.
Lemma trace_function_sim : forall sd params rty body, SimEnd st0 (trace_function sd params rty body).
Proof.
  intros. unfold trace_function. change st0 with (leaf tst0).
  eapply SimEnd_bind; [apply receive_inputs_sim | intros r].
  eapply SimEnd_bind; [apply exec_body_sim | intros r2].
  eapply SimEnd_bind; [apply from_py_sim | intros ro].
  eapply SimEnd_bind; [apply ty_of_sim | intros t].
  destruct (negb (ty_eqb t rty)); [exists (Err EType); split; [exact I | reflexivity]|].
  eapply SimEnd_bind with (p := leaf).
  { destruct t as [| | |[|? ?]| |]; try apply use_t_sim; simpl; apply Reach_refl. }
  intros ts2. eapply SimEnd_bind; [apply return_inouts_sim | intros ts3].
  exists (Ok (leaf ts3)). split; [apply Reach_refl | reflexivity].
Qed.

Lemma fails_is_second_use : forall id, FailsAt st0 (EAlreadyUsed id) ->
  exists ops s k, wf_ops ops /\ lrun ops st0 = Ok s /\ kind_of (rev ops) id = Some k /\
                  copyable k = false /\ uses (rev ops) id = 1.
Proof.
  intros id [s1 [[ops [W R]] U]]. pose proof (lrun_inv ops s1 W R) as [_ I].
  pose proof (use_wire_char _ _ id I) as G. rewrite U in G.
  destruct (kind_of (rev ops) id) as [k|] eqn:K; [|discriminate].
  exists ops, s1, k. tauto.
Qed.

Lemma FrozenL_nth : forall ts vs i v, FrozenL ts vs -> nth_error vs i = Some v -> Frozen ts v.
Proof.
  intros ts vs i v F. revert i. induction F as [|w ws Hw Hws IHF]; intros [|i] Hn; simpl in Hn; try discriminate.
  - inversion Hn; subst; assumption.
  - eapply IHF; exact Hn.
Qed.
Lemma frozen_list_flag : forall ts loc, Frozen ts (VList loc) -> exists vs, lists ts loc = Some (true, vs).
Proof. intros ts loc F. inversion F; subst. eauto. Qed.
Lemma frozen_struct_flag : forall ts loc, Frozen ts (VStruct loc) -> exists sid vs, strs ts loc = Some (true, sid, vs).
Proof. intros ts loc F. inversion F; subst. eauto. Qed.

Lemma hwf0 : hwf tst0.
Proof. intros loc _. split; reflexivity. Qed.
