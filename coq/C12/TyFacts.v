(** Boolean equality on [ty] decides equality. *)
From Coq Require Import ZArith List Bool.
From V.C12 Require Import Ty.
Import ListNotations.

Lemma numkind_eqb_spec a b : numkind_eqb a b = true <-> a = b.
Proof. destruct a, b; simpl; split; congruence. Qed.

Lemma listN_eqb_spec a : forall b, listN_eqb a b = true <-> a = b.
Proof.
  induction a as [|x a IH]; intros [|y b]; simpl; split; try congruence.
  - intros H. apply andb_true_iff in H. destruct H as [H1 H2]. apply N.eqb_eq in H1. apply IH in H2. congruence.
  - intros [= -> ->]. rewrite N.eqb_refl. apply IH. auto.
Qed.

Lemma head_eqb_spec a b : head_eqb a b = true <-> a = b.
Proof.
  split.
  - destruct a, b; simpl; try discriminate; auto; intros H;
      repeat (apply andb_true_iff in H; destruct H as [H ?]); f_equal;
      first [apply numkind_eqb_spec | apply listN_eqb_spec | apply N.eqb_eq | apply Z.eqb_eq | apply eqb_prop];
      assumption.
  - intros <-. destruct a; simpl; rewrite ?N.eqb_refl, ?Z.eqb_refl, ?eqb_reflx; auto.
    + now apply numkind_eqb_spec.
    + apply andb_true_iff. split; now apply listN_eqb_spec.
Qed.

Lemma ty_rect' (P : ty -> Prop) :
  (forall x, P (Ex x)) -> (forall h a, Forall P a -> P (Nd h a)) -> forall t, P t.
Proof.
  intros HE HN. fix IH 1. intros [x|h a]. apply HE. apply HN.
  induction a; constructor; auto.
Qed.

Lemma ty_eqb_spec : forall s t, ty_eqb s t = true <-> s = t.
Proof.
  induction s as [x|h a IH] using ty_rect'; intros [y|g b]; simpl; split; try congruence; try discriminate.
  - intros H. apply N.eqb_eq in H. congruence.
  - intros [= ->]. apply N.eqb_refl.
  - intros H. apply andb_true_iff in H. destruct H as [H1 H2]. apply head_eqb_spec in H1. subst g. f_equal.
    revert b H2. induction IH as [|u a Hu _ IHa]; intros [|v b] H2; try discriminate; auto.
    apply andb_true_iff in H2. destruct H2 as [H2 H3]. apply Hu in H2. subst. f_equal. auto.
  - intros [= <- <-]. apply andb_true_iff. split. apply head_eqb_spec; auto.
    induction IH as [|u a Hu _ IHa]; auto. apply andb_true_iff. split; auto. apply Hu. auto.
Qed.

Definition ty_eq_dec (s t : ty) : {s = t} + {s <> t}.
Proof.
  destruct (ty_eqb s t) eqn:E.
  - left. apply ty_eqb_spec. auto.
  - right. intros H. apply ty_eqb_spec in H. congruence.
Defined.
