(** Solutions of a substitution, and [unify_ind]: induction over the successful runs of [unify], which every
    later fact about a returned substitution instantiates.  Nothing here needs acyclicity. *)
From Coq Require Import NArith List Lia Arith.
From V.C12 Require Import Ty TyFacts Unify.
Import ListNotations.

Lemma ty_ind' (P : ty -> Prop) :
  (forall x, P (Ex x)) -> (forall h a, Forall P a -> P (Nd h a)) -> forall t, P t.
Proof. exact (ty_rect' P). Qed.

Definition asg := N -> ty.
Fixpoint inst (th : asg) (t : ty) : ty :=
  match t with Ex x => th x | Nd h a => Nd h (map (inst th) a) end.

Lemma inst_ext th th' t : (forall y, In y (vars t) -> th y = th' y) -> inst th t = inst th' t.
Proof.
  induction t as [x|h a IH] using ty_ind'; simpl; intros H. { apply H. left; auto. }
  f_equal. apply map_ext_in. intros u Hu. rewrite Forall_forall in IH. apply IH; auto.
  intros y Hy. apply H, in_flat_map. eauto.
Qed.

Lemma size_pos t : 1 <= size t.
Proof. destruct t; simpl; lia. Qed.

Lemma size_in_sum (f : ty -> ty) a u : In u a -> size (f u) <= list_sum (map size (map f a)).
Proof. induction a as [|w a IH]; simpl; [intros []|intros [->|H]; [|specialize (IH H)]; lia]. Qed.

Lemma size_inst_var th t v : In v (vars t) -> size (th v) <= size (inst th t).
Proof.
  induction t as [x|h a IH] using ty_ind'; simpl; intros Hin.
  - destruct Hin as [->|[]]. lia.
  - apply in_flat_map in Hin. destruct Hin as [u [Hu Hv]].
    rewrite Forall_forall in IH. specialize (IH u Hu Hv).
    pose proof (size_in_sum (inst th) a u Hu). lia.
Qed.

Lemma size_inst_var_nd th h a v : In v (vars (Nd h a)) -> size (th v) < size (inst th (Nd h a)).
Proof.
  simpl. intros Hin. apply in_flat_map in Hin. destruct Hin as [u [Hu Hv]].
  pose proof (size_inst_var th u v Hv). pose proof (size_in_sum (inst th) a u Hu). lia.
Qed.

Lemma lookup_cons_ne (s : subst) x y t : x <> y -> lookup ((y, t) :: s) x = lookup s x.
Proof. intros. simpl. destruct (N.eqb_spec x y); congruence. Qed.
Lemma lookup_cons_eq (s : subst) x t : lookup ((x, t) :: s) x = Some t.
Proof. simpl. now rewrite N.eqb_refl. Qed.

(** [unify_var] and [unify_list] take the recursive call as a parameter [rec]: their principles hold for every
    [rec] whose successful runs satisfy P ([runs]), and [unify_ind] ties the knot. *)
Section UnifyInd.
  Variable P : ty -> ty -> subst -> subst -> Prop.
  Variable PL : list ty -> list ty -> subst -> subst -> Prop.

  Definition runs (rec : ty -> ty -> subst -> outcome) : Prop :=
    forall s t sb sb', rec s t sb = Unifier sb' -> P s t sb sb'.

  Section Var.
    Hypothesis Psolved : forall x u t sb sb', lookup sb x = Some u -> P u t sb sb' -> P (Ex x) t sb sb'.
    Hypothesis Pchase : forall x y u sb sb',
      lookup sb x = None -> lookup sb y = Some u -> P (Ex x) u sb sb' -> P (Ex x) (Ex y) sb sb'.
    Hypothesis Pbind : forall x t sb n,
      lookup sb x = None -> occ n sb x (vars t) = Some false -> P (Ex x) t sb ((x, t) :: sb).

    Lemma unify_var_ind rec n x t sb sb' :
      runs rec -> unify_var rec n x t sb = Unifier sb' -> P (Ex x) t sb sb'.
    Proof.
      intros IH. unfold unify_var. destruct (lookup sb x) as [u|] eqn:Lx; [eauto|].
      destruct t as [y|h a]; [destruct (lookup sb y) as [u|] eqn:Ly; [eauto|]|];
        (destruct (occ n sb x _) as [[|]|] eqn:O; [discriminate| |discriminate]; intros [= <-]; eauto).
    Qed.
  End Var.

  Section List.
    Hypothesis Pnil : forall sb, PL [] [] sb sb.
    Hypothesis Pcons : forall x y a b sb s1 sb',
      P x y sb s1 -> PL a b s1 sb' -> PL (x :: a) (y :: b) sb sb'.

    Lemma unify_list_ind rec a :
      runs rec -> forall b sb sb', unify_list rec a b sb = Unifier sb' -> PL a b sb sb'.
    Proof.
      intros IH. induction a as [|x a IHa]; intros [|y b] sb sb'; simpl; try discriminate.
      - intros [= <-]. auto.
      - destruct (rec x y sb) as [| |s1] eqn:R; try discriminate. eauto.
    Qed.
  End List.

  Hypothesis Pvar : forall n x t sb sb',
    runs (unify n) -> unify_var (unify n) n x t sb = Unifier sb' -> P (Ex x) t sb sb'.
  Hypothesis Plist : forall n a,
    runs (unify n) -> forall b sb sb', unify_list (unify n) a b sb = Unifier sb' -> PL a b sb sb'.
  Hypothesis Psame : forall x sb, P (Ex x) (Ex x) sb sb.
  Hypothesis Pswap : forall h a y sb sb', P (Ex y) (Nd h a) sb sb' -> P (Nd h a) (Ex y) sb sb'.
  Hypothesis Pargs : forall h1 a1 h2 a2 sb sb',
    compat h1 a1 h2 a2 = true -> PL a1 a2 sb sb' -> P (Nd h1 a1) (Nd h2 a2) sb sb'.

  Lemma unify_ind n : runs (unify n).
  Proof.
    induction n as [|n IH]; [discriminate|].
    intros [x|h1 a1] [y|h2 a2] sb sb'; simpl; eauto.
    - destruct (N.eqb_spec x y) as [->|]; eauto. intros [= <-]. auto.
    - destruct (compat h1 a1 h2 a2) eqn:C; [|discriminate]. unfold unify_args.
      destruct (Nat.eqb _ _); [|discriminate]. eauto.
  Qed.
End UnifyInd.

Section Sol.
  (** [pr] projects away the part of a head that identity is taken modulo *)
  Variable pr : head -> head.

  Fixpoint er (t : ty) : ty :=
    match t with Ex x => Ex x | Nd h a => Nd (pr h) (map er a) end.

  Lemma size_er t : size (er t) = size t.
  Proof.
    induction t as [x|h a IH] using ty_ind'; simpl; auto.
    f_equal. induction IH; simpl; [auto | rewrite H, IHIH; auto].
  Qed.

  Definition eqv (th : asg) (s t : ty) : Prop := er (inst th s) = er (inst th t).
  Definition sol (th : asg) (sb : subst) : Prop :=
    forall x w, lookup sb x = Some w -> eqv th (Ex x) w.

  Definition eqvl th (a b : list ty) := map er (map (inst th) a) = map er (map (inst th) b).

  Lemma eqv_nd_inv th h1 a1 h2 a2 : eqv th (Nd h1 a1) (Nd h2 a2) -> pr h1 = pr h2 /\ eqvl th a1 a2.
  Proof. unfold eqv, eqvl. simpl. intros H. injection H. auto. Qed.

  Lemma sol_cons th sb x t : sol th sb -> eqv th (Ex x) t -> sol th ((x, t) :: sb).
  Proof.
    intros Hs He z w. simpl. destruct (N.eqb_spec z x).
    - intros [= <-]. subst. exact He.
    - apply Hs.
  Qed.

  Lemma sol_tail th sb x t : lookup sb x = None -> sol th ((x, t) :: sb) -> sol th sb.
  Proof.
    intros Hn Hs z w Hz. apply Hs. rewrite lookup_cons_ne; auto. congruence.
  Qed.

  Lemma occ_true_size th sb x n : sol th sb -> forall vs, occ n sb x vs = Some true ->
    exists v, In v vs /\ size (th x) <= size (th v).
  Proof.
    intros Hs. induction n as [|n IH]; intros vs; simpl; [discriminate|].
    destruct vs as [|v r]; [discriminate|].
    assert (R : occ n sb x r = Some true -> exists v', In v' (v :: r) /\ size (th x) <= size (th v')).
    { intros H. destruct (IH _ H) as [v' [Hin Hle]]. exists v'. split; [right|]; auto. }
    destruct (N.eqb_spec v x) as [->|_]. { intros _. exists x. split; [left|]; auto. }
    destruct (lookup sb v) as [w|] eqn:Lv; [|exact R].
    destruct (occ n sb x (vars w)) as [[|]|] eqn:O; try discriminate; [|exact R].
    intros _. exists v. split; [left; auto|]. destruct (IH _ O) as [v' [Hin Hle]].
    pose proof (Hs _ _ Lv) as E. apply (f_equal size) in E. rewrite !size_er in E.
    simpl in E. rewrite E. pose proof (size_inst_var th w v' Hin). lia.
  Qed.

  (** backwards: a solution of [sb] that makes s and t equal is a solution of the answer *)
  Definition bwd_spec th (rec : ty -> ty -> subst -> outcome) :=
    forall s t sb sb', rec s t sb = Unifier sb' -> sol th sb -> eqv th s t -> sol th sb'.

  Lemma unify_var_bwd th rec n x t sb sb' :
    bwd_spec th rec -> unify_var rec n x t sb = Unifier sb' -> sol th sb -> eqv th (Ex x) t -> sol th sb'.
  Proof.
    revert rec n x t sb sb'.
    apply (unify_var_ind (fun s t sb sb' => sol th sb -> eqv th s t -> sol th sb')); unfold eqv.
    - intros x u t sb sb' Lx IH Hs He. apply IH; auto. rewrite <- He. symmetry. apply (Hs _ _ Lx).
    - intros x y u sb sb' _ Ly IH Hs He. apply IH; auto. rewrite He. apply (Hs _ _ Ly).
    - intros x t sb _ _ _ Hs He. now apply sol_cons.
  Qed.

  Lemma unify_list_bwd th rec a : bwd_spec th rec ->
    forall b sb sb', unify_list rec a b sb = Unifier sb' -> sol th sb -> eqvl th a b -> sol th sb'.
  Proof.
    revert rec a.
    apply (unify_list_ind (fun s t sb sb' => sol th sb -> eqv th s t -> sol th sb')
             (fun a b sb sb' => sol th sb -> eqvl th a b -> sol th sb')); unfold eqvl.
    - auto.
    - intros x y a b sb s1 sb' IH1 IH2 Hs He. simpl in He. injection He as He1 He2. auto.
  Qed.

  Lemma unify_bwd th n : bwd_spec th (unify n).
  Proof.
    apply (unify_ind _ (fun a b sb sb' => sol th sb -> eqvl th a b -> sol th sb'));
      [exact (fun n => unify_var_bwd th (unify n) n) | exact (fun n => unify_list_bwd th (unify n)) | ..].
    - auto.
    - intros h a y sb sb' IH Hs He. apply IH; auto. unfold eqv in *. auto.
    - intros h1 a1 h2 a2 sb sb' _ IH Hs He. apply IH; auto. apply (eqv_nd_inv _ _ _ _ _ He).
  Qed.

  Hypothesis compat_pr : forall h1 a1 h2 a2, compat h1 a1 h2 a2 = true -> pr h1 = pr h2.

  (** forwards: a solution of the answer solves [sb] and makes s and t equal *)
  Definition fwd_spec th (rec : ty -> ty -> subst -> outcome) :=
    forall s t sb sb', rec s t sb = Unifier sb' -> sol th sb' -> sol th sb /\ eqv th s t.

  Lemma unify_var_fwd th rec n x t sb sb' :
    fwd_spec th rec -> unify_var rec n x t sb = Unifier sb' -> sol th sb' -> sol th sb /\ eqv th (Ex x) t.
  Proof.
    revert rec n x t sb sb'.
    apply (unify_var_ind (fun s t sb sb' => sol th sb' -> sol th sb /\ eqv th s t)); unfold eqv.
    - intros x u t sb sb' Lx IH Hs. destruct (IH Hs) as [H1 H2]. split; auto.
      rewrite <- H2. apply (H1 _ _ Lx).
    - intros x y u sb sb' _ Ly IH Hs. destruct (IH Hs) as [H1 H2]. split; auto.
      rewrite H2. symmetry. apply (H1 _ _ Ly).
    - intros x t sb _ Lx _ Hs. split. eapply sol_tail; eauto. apply Hs, lookup_cons_eq.
  Qed.

  Lemma unify_list_fwd th rec a : fwd_spec th rec ->
    forall b sb sb', unify_list rec a b sb = Unifier sb' -> sol th sb' -> sol th sb /\ eqvl th a b.
  Proof.
    revert rec a.
    apply (unify_list_ind (fun s t sb sb' => sol th sb' -> sol th sb /\ eqv th s t)
             (fun a b sb sb' => sol th sb' -> sol th sb /\ eqvl th a b)); unfold eqv, eqvl.
    - auto.
    - intros x y a b sb s1 sb' IH1 IH2 Hs. destruct (IH2 Hs) as [H1 H2]. destruct (IH1 H1) as [H3 H4].
      split; auto. simpl. now rewrite H4, H2.
  Qed.

  Lemma unify_fwd th n : fwd_spec th (unify n).
  Proof.
    apply (unify_ind _ (fun a b sb sb' => sol th sb' -> sol th sb /\ eqvl th a b));
      [exact (fun n => unify_var_fwd th (unify n) n) | exact (fun n => unify_list_fwd th (unify n)) | ..];
      unfold eqv, eqvl.
    - auto.
    - intros h a y sb sb' IH Hs. destruct (IH Hs). auto.
    - intros h1 a1 h2 a2 sb sb' C IH Hs. destruct (IH Hs) as [H1 H2]. split; auto.
      simpl. now rewrite (compat_pr _ _ _ _ C), H2.
  Qed.

  Hypothesis incompat_pr : forall h1 a1 h2 a2, compat h1 a1 h2 a2 = false -> pr h1 <> pr h2.

  (** a [NoUnifier] answer: no solution of [sb] makes s and t equal; used with [pr] the identity, for which [incompat_pr] holds *)
  Definition none_spec th (rec : ty -> ty -> subst -> outcome) :=
    forall s t sb, rec s t sb = NoUnifier -> sol th sb -> ~ eqv th s t.

  Lemma unify_var_none th rec n x t sb :
    none_spec th rec -> unify_var rec n x t sb = NoUnifier -> sol th sb -> t <> Ex x -> ~ eqv th (Ex x) t.
  Proof.
    intros IH H Hs Hne He. revert H. unfold unify_var. destruct (lookup sb x) as [u|] eqn:Lx.
    { intros R. apply (IH _ _ _ R Hs). unfold eqv in *. rewrite <- He. symmetry. apply (Hs _ _ Lx). }
    destruct (match t with Ex y => lookup sb y | Nd _ _ => None end) as [u|] eqn:Lt.
    { destruct t as [y|]; [|discriminate]. intros R. apply (IH _ _ _ R Hs). unfold eqv in *. rewrite He. apply (Hs _ _ Lt). }
    destruct (occ n sb x (vars t)) as [[|]|] eqn:O; try discriminate. intros _.
    (* an unsolved variable other than x passes the occurs check; under a term, x would be strictly smaller than
       itself under th *)
    destruct t as [y|h a].
    - destruct n; [discriminate|]. simpl in O. rewrite Lt in O.
      destruct (N.eqb_spec y x); [congruence|]. destruct n; discriminate.
    - destruct (occ_true_size th sb x n Hs _ O) as [v [Hin Hle]]. pose proof (size_inst_var_nd th h a v Hin) as Hlt.
      unfold eqv in He. apply (f_equal size) in He. rewrite !size_er in He. simpl in He, Hlt. lia.
  Qed.

  Lemma unify_list_none th rec a : none_spec th rec -> bwd_spec th rec ->
    forall b sb, unify_list rec a b sb = NoUnifier -> sol th sb -> ~ eqvl th a b.
  Proof.
    intros IH IHb. induction a as [|x a IHa]; intros [|y b] sb H Hs He; try discriminate He; try discriminate H.
    simpl in H. unfold eqvl in He. simpl in He. injection He as He1 He2.
    destruct (rec x y sb) as [| |s1] eqn:R; try discriminate.
    - exact (IH _ _ _ R Hs He1).
    - exact (IHa _ _ H (IHb _ _ _ _ R Hs He1) He2).
  Qed.

  Lemma unify_none th n : none_spec th (unify n).
  Proof.
    induction n as [|n IH]; [discriminate|].
    intros [x|h1 a1] [y|h2 a2] sb; simpl; intros H Hs He.
    - destruct (N.eqb_spec x y); [discriminate|]. apply (unify_var_none th _ n x _ sb IH H Hs); congruence.
    - apply (unify_var_none th _ n x _ sb IH H Hs); [discriminate|auto].
    - apply (unify_var_none th _ n y _ sb IH H Hs); [discriminate|]. unfold eqv in *. auto.
    - apply eqv_nd_inv in He. destruct He as [Hh He].
      destruct (compat h1 a1 h2 a2) eqn:C; [|exact (incompat_pr _ _ _ _ C Hh)]. unfold unify_args in H.
      destruct (Nat.eqb_spec (length a1) (length a2)) as [_|Ln].
      + exact (unify_list_none th _ a1 IH (unify_bwd th n) a2 sb H Hs He).
      + apply Ln. apply (f_equal (@length ty)) in He. now rewrite !map_length in He.
  Qed.
End Sol.
