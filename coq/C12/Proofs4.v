(** Termination: on an acyclic substitution some fuel suffices and more fuel changes nothing.
    Lexicographic induction: on the number of unsolved variables of a finite universe U, then, for a
    fixed substitution, on the relation [sub] that [unify] recurses along. *)
From Coq Require Import NArith List Lia Arith.
From V.C12 Require Import Ty Unify Proofs Proofs2.
Import ListNotations.

Definition done (r : outcome) : Prop := r <> OutOfFuel.

Lemma occ_mono sb x n : forall vs b, occ n sb x vs = Some b -> forall m, n <= m -> occ m sb x vs = Some b.
Proof.
  induction n as [|n IH]; intros vs b; simpl; [discriminate|].
  intros H m Hm. destruct m as [|m]; [lia|]. simpl. destruct vs as [|v r]; auto.
  destruct (N.eqb v x); auto. destruct (lookup sb v) as [w|].
  - destruct (occ n sb x (vars w)) as [[|]|] eqn:O; try discriminate.
    + rewrite (IH _ _ O m) by lia. auto.
    + rewrite (IH _ _ O m) by lia. apply IH; auto. lia.
  - apply IH; auto. lia.
Qed.

Definition mono_spec (rec rec' : ty -> ty -> subst -> outcome) :=
  forall s t sb, done (rec s t sb) -> rec' s t sb = rec s t sb.

Lemma unify_list_mono rec rec' a : mono_spec rec rec' -> forall b sb,
  done (unify_list rec a b sb) -> unify_list rec' a b sb = unify_list rec a b sb.
Proof.
  intros IH. induction a as [|x a IHa]; intros [|y b] sb; simpl; auto.
  intros D. rewrite IH. { destruct (rec x y sb); auto. }
  intros E. apply D. now rewrite E.
Qed.

Lemma unify_var_mono rec rec' n m x t sb : mono_spec rec rec' -> n <= m ->
  done (unify_var rec n x t sb) -> unify_var rec' m x t sb = unify_var rec n x t sb.
Proof.
  intros IH Hm. unfold unify_var. destruct (lookup sb x); [apply IH|].
  destruct (match t with Ex y => lookup sb y | Nd _ _ => None end); [apply IH|].
  destruct (occ n sb x (vars t)) as [b|] eqn:O.
  - rewrite (occ_mono _ _ _ _ _ O m Hm). auto.
  - intros D. now destruct D.
Qed.

Lemma unify_mono n : forall m, n <= m -> mono_spec (unify n) (unify m).
Proof.
  induction n as [|n IH]; intros m Hm s t sb; simpl.
  - intros D. now destruct D.
  - destruct m as [|m]; [lia|]. simpl. assert (IH' := IH m ltac:(lia)).
    destruct s as [x|h1 a1], t as [y|h2 a2]; try (apply unify_var_mono; auto; lia).
    + destruct (N.eqb x y); auto. apply unify_var_mono; auto. lia.
    + destruct (compat h1 a1 h2 a2); auto. unfold unify_args.
      destruct (Nat.eqb (length a1) (length a2)); auto. apply unify_list_mono; auto.
Qed.

Lemma unify_mono' n m s t sb : done (unify n s t sb) -> n <= m -> unify m s t sb = unify n s t sb.
Proof. intros. apply unify_mono; auto. Qed.

Lemma occ_total sb x : forall vs, (forall v, In v vs -> Acc (dep sb) v) -> exists n b, occ n sb x vs = Some b.
Proof.
  assert (L : forall vs, (forall v, In v vs -> forall w, lookup sb v = Some w -> exists n b, occ n sb x (vars w) = Some b) ->
                         exists n b, occ n sb x vs = Some b).
  { induction vs as [|v r IH]; intros H.
    - exists 1, false. reflexivity.
    - destruct IH as [n2 [b2 H2]]. { intros. eapply H; eauto. right; auto. }
      destruct (N.eqb v x) eqn:E. { exists 1, true. simpl. rewrite E. auto. }
      destruct (lookup sb v) as [w|] eqn:Lv.
      + destruct (H v (or_introl eq_refl) w Lv) as [n1 [b1 H1]].
        exists (S (max n1 n2)). simpl. rewrite E, Lv. rewrite (occ_mono _ _ _ _ _ H1 (max n1 n2)) by lia.
        destruct b1. eauto. rewrite (occ_mono _ _ _ _ _ H2 (max n1 n2)) by lia. eauto.
      + exists (S n2), b2. simpl. rewrite E, Lv. auto. }
  intros vs H. apply L. intros v Hv. specialize (H v Hv). clear Hv. induction H as [v _ IH].
  intros w Lw. apply L. intros v' Hv'. apply IH. exists w; auto.
Qed.

Definition unsolved (U : list N) (sb : subst) : list N :=
  filter (fun v => match lookup sb v with None => true | Some _ => false end) U.
Definition mu U sb := length (unsolved U sb).
Definition inU (U : list N) (t : ty) := forall v, In v (vars t) -> In v U.
Definition closed U (sb : subst) := forall x w, lookup sb x = Some w -> inU U w.

Lemma filter_length_le {A} (f g : A -> bool) l : (forall a, g a = true -> f a = true) ->
  length (filter g l) <= length (filter f l).
Proof.
  intros H. induction l as [|a l IH]; simpl; auto. destruct (g a) eqn:G.
  - rewrite (H _ G). simpl. lia.
  - destruct (f a); simpl; lia.
Qed.
Lemma filter_length_lt {A} (f g : A -> bool) l x : (forall a, g a = true -> f a = true) ->
  In x l -> f x = true -> g x = false -> length (filter g l) < length (filter f l).
Proof.
  intros H. induction l as [|a l IH]; simpl; [intros []|]. intros [->|Hin] F G.
  - rewrite F, G. simpl. pose proof (filter_length_le f g l H). lia.
  - specialize (IH Hin F G). destruct (g a) eqn:Ga. rewrite (H _ Ga). simpl. lia. destruct (f a); simpl; lia.
Qed.

Lemma mu_cons U sb x t : In x U -> lookup sb x = None -> mu U ((x, t) :: sb) < mu U sb.
Proof.
  intros Hin Lx. unfold mu, unsolved. apply filter_length_lt with (x := x); auto.
  - intros a. simpl. destruct (N.eqb a x); [discriminate|auto].
  - rewrite Lx. auto.
  - simpl. rewrite N.eqb_refl. auto.
Qed.

Lemma closed_cons U sb x t : closed U sb -> inU U t -> closed U ((x, t) :: sb).
Proof. intros C Ht z w. simpl. destruct (N.eqb z x). intros [= <-]. auto. apply C. Qed.

Lemma inU_arg U h a u : inU U (Nd h a) -> In u a -> inU U u.
Proof. intros H Hu v Hv. apply H. simpl. apply in_flat_map. eauto. Qed.

(** the answer's values stay within the universe U, and unless nothing was bound fewer variables of U are unsolved *)
Definition ext_spec U (rec : ty -> ty -> subst -> outcome) :=
  forall s t sb sb', rec s t sb = Unifier sb' -> closed U sb -> inU U s -> inU U t ->
    closed U sb' /\ (sb' = sb \/ mu U sb' < mu U sb).

Lemma unify_var_ext U rec n x t sb sb' : ext_spec U rec ->
  unify_var rec n x t sb = Unifier sb' -> closed U sb -> In x U -> inU U t ->
  closed U sb' /\ (sb' = sb \/ mu U sb' < mu U sb).
Proof.
  intros IH H C Hx. assert (Hs : inU U (Ex x)) by (intros v [<-|[]]; exact Hx).
  clear Hx. revert rec n x t sb sb' IH H C Hs.
  apply (unify_var_ind (fun s t sb sb' => closed U sb -> inU U s -> inU U t ->
                          closed U sb' /\ (sb' = sb \/ mu U sb' < mu U sb))).
  - intros x u t sb sb' Lx IH C Hs Ht. apply IH; auto. apply (C _ _ Lx).
  - intros x y u sb sb' _ Ly IH C Hs Ht. apply IH; auto. apply (C _ _ Ly).
  - intros x t sb n Lx _ C Hs Ht. split. apply closed_cons; auto. right. apply mu_cons; auto. apply Hs; left; auto.
Qed.

Lemma unify_list_ext U rec a : ext_spec U rec -> forall b sb sb',
  unify_list rec a b sb = Unifier sb' -> closed U sb -> (forall u, In u a -> inU U u) -> (forall u, In u b -> inU U u) ->
  closed U sb' /\ (sb' = sb \/ mu U sb' < mu U sb).
Proof.
  revert rec a.
  apply (unify_list_ind (fun s t sb sb' => closed U sb -> inU U s -> inU U t ->
                           closed U sb' /\ (sb' = sb \/ mu U sb' < mu U sb))
           (fun a b sb sb' => closed U sb -> (forall u, In u a -> inU U u) -> (forall u, In u b -> inU U u) ->
                           closed U sb' /\ (sb' = sb \/ mu U sb' < mu U sb))).
  - auto.
  - intros x y a b sb s1 sb' IH1 IH2 C Ha Hb.
    destruct (IH1 C (Ha _ (or_introl eq_refl)) (Hb _ (or_introl eq_refl))) as [C1 M1].
    destruct (IH2 C1 (fun u Hu => Ha u (or_intror Hu)) (fun u Hu => Hb u (or_intror Hu))) as [C2 M2].
    split; auto. destruct M1 as [->|M1], M2 as [->|M2]; auto. right. lia.
Qed.

Lemma unify_ext U n : ext_spec U (unify n).
Proof.
  apply (unify_ind _ (fun a b sb sb' => closed U sb -> (forall u, In u a -> inU U u) -> (forall u, In u b -> inU U u) ->
                        closed U sb' /\ (sb' = sb \/ mu U sb' < mu U sb)));
    [|exact (fun n => unify_list_ext U (unify n))|..]; auto.
  - intros m x t sb sb' IH H C Hs. apply (unify_var_ext U _ m x t sb sb' IH H C). apply Hs. left; auto.
  - intros h1 a1 h2 a2 sb sb' _ IH C Hs Ht. apply IH; auto; intros u Hu;
      [apply (inU_arg U h1 a1 u Hs Hu) | apply (inU_arg U h2 a2 u Ht Hu)].
Qed.

(** the terms [unify] recurses into from u under a fixed sb: the solution of a solved variable, an argument of a node *)
Definition sub (sb : subst) (u' u : ty) : Prop :=
  (exists x, u = Ex x /\ lookup sb x = Some u') \/ (exists h a, u = Nd h a /\ In u' a).

Lemma sub_var sb x w : lookup sb x = Some w -> sub sb w (Ex x).
Proof. left. eauto. Qed.
Lemma sub_arg sb h a u : In u a -> sub sb u (Nd h a).
Proof. right. eauto. Qed.

Lemma sub_acc sb : wfs sb -> forall u, Acc (sub sb) u.
Proof.
  intros W.
  assert (G : forall w', (forall y, In y (vars w') -> Acc (sub sb) (Ex y)) -> Acc (sub sb) w').
  { induction w' as [y|h a IHa] using ty_ind'; intros Hv. apply Hv; left; auto.
    constructor. intros u [[x0 [E _]]|[h0 [a0 [E Hin]]]]; [discriminate|]. injection E as <- <-.
    rewrite Forall_forall in IHa. apply IHa; auto. intros y Hy. apply Hv. simpl. apply in_flat_map. eauto. }
  intros u. apply G. intros x _. induction (W x) as [x _ IH].
  constructor. intros w [[x' [E L]]|[h [a [E _]]]]; [|discriminate]. injection E as <-.
  apply G. intros y Hy. apply IH. exists w; auto.
Qed.

(** some fuel suffices for s, t from sb *)
Definition T U sb s t := inU U s -> inU U t -> exists n, done (unify n s t sb).

(* The inner induction, for one sb; IHk is the outer hypothesis.  [total_here] runs the induction over [sub] on
   both sides at once, because [unify] swaps its arguments when only the right one is a variable. *)
Section Total.
  Variable U : list N.
  Variable sb : subst.
  Hypothesis W : wfs sb.
  Hypothesis C : closed U sb.
  Hypothesis IHk : forall sb', mu U sb' < mu U sb -> wfs sb' -> closed U sb' -> forall s t, T U sb' s t.

  Lemma loop : forall a1 a2, (forall u v, In u a1 -> In v a2 -> T U sb u v) ->
    (forall u, In u a1 -> inU U u) -> (forall v, In v a2 -> inU U v) ->
    forall cur, (cur = sb \/ mu U cur < mu U sb) -> wfs cur -> closed U cur ->
    exists n, done (unify_list (unify n) a1 a2 cur).
  Proof using IHk.
    induction a1 as [|u a1 IHa]; intros [|v a2] HT H1 H2 cur Hc Wc Cc; simpl;
      try (exists 0; discriminate).
    assert (exists n1, done (unify n1 u v cur)) as [n1 D1].
    { destruct Hc as [->|Hc]; [apply (HT u v (or_introl eq_refl) (or_introl eq_refl)) | apply (IHk cur Hc Wc Cc u v)];
        [apply H1 | apply H2 | apply H1 | apply H2]; left; auto. }
    destruct (unify n1 u v cur) as [| |s1] eqn:R.
    - now destruct D1.
    - exists n1. rewrite R. discriminate.
    - destruct (unify_pres n1 _ _ _ _ R Wc) as [W1 _].
      destruct (unify_ext U n1 _ _ _ _ R Cc (H1 u (or_introl eq_refl)) (H2 v (or_introl eq_refl))) as [C1 M1].
      assert (Hc1 : s1 = sb \/ mu U s1 < mu U sb).
      { destruct M1 as [->|M1]; auto. right. destruct Hc as [->|Hc]; lia. }
      destruct (IHa a2 (fun u0 v0 Hu Hv => HT u0 v0 (or_intror Hu) (or_intror Hv))
                  (fun u0 Hu => H1 u0 (or_intror Hu)) (fun v0 Hv => H2 v0 (or_intror Hv)) s1 Hc1 W1 C1) as [n2 D2].
      exists (max n1 n2). rewrite (unify_mono n1 (max n1 n2) (Nat.le_max_l _ _) u v cur), R by (rewrite R; discriminate).
      rewrite (unify_list_mono (unify n2) (unify (max n1 n2))); auto. apply unify_mono. lia.
  Qed.

  Lemma var_total x t : In x U -> inU U t ->
    (forall w, lookup sb x = Some w -> T U sb w t) ->
    (forall y w, t = Ex y -> lookup sb x = None -> lookup sb y = Some w -> T U sb (Ex x) w) ->
    exists n, done (unify_var (unify n) n x t sb).
  Proof.
    intros Hx Ht H1 H2. unfold unify_var. destruct (lookup sb x) as [w|] eqn:Lx.
    - apply (H1 w eq_refl); auto. apply (C _ _ Lx).
    - destruct (occ_total sb x (vars t)) as [n [b O]]. { intros; apply W. }
      destruct t as [y|h a].
      + destruct (lookup sb y) as [w|] eqn:Ly.
        * apply (H2 y w eq_refl eq_refl Ly). intros v [<-|[]]; auto. apply (C _ _ Ly).
        * exists n. rewrite O. destruct b; discriminate.
      + exists n. rewrite O. destruct b; discriminate.
  Qed.

  Lemma step s t :
    (forall x w, s = Ex x -> lookup sb x = Some w -> T U sb w t) ->
    (forall x y w, s = Ex x -> t = Ex y -> lookup sb x = None -> lookup sb y = Some w -> T U sb (Ex x) w) ->
    (forall y w, t = Ex y -> (exists h a, s = Nd h a) -> lookup sb y = Some w -> T U sb w s) ->
    (forall h1 a1 h2 a2, s = Nd h1 a1 -> t = Nd h2 a2 -> forall u v, In u a1 -> In v a2 -> T U sb u v) ->
    T U sb s t.
  Proof using W C IHk.
    intros H1 H2 H3 H4 Hs Ht. destruct s as [x|h1 a1], t as [y|h2 a2].
    - destruct (var_total x (Ex y) (Hs x (or_introl eq_refl)) Ht (fun w => H1 x w eq_refl)
                  (fun y' w E => H2 x y' w eq_refl E)) as [n D].
      exists (S n). simpl. destruct (N.eqb x y); [discriminate|exact D].
    - destruct (var_total x (Nd h2 a2) (Hs x (or_introl eq_refl)) Ht (fun w => H1 x w eq_refl)
                  (fun y' w E => ltac:(discriminate E))) as [n D].
      exists (S n). exact D.
    - destruct (var_total y (Nd h1 a1) (Ht y (or_introl eq_refl)) Hs
                  (fun w => H3 y w eq_refl (ex_intro _ h1 (ex_intro _ a1 eq_refl)))
                  (fun y' w E => ltac:(discriminate E))) as [n D].
      exists (S n). exact D.
    - destruct (loop a1 a2 (H4 h1 a1 h2 a2 eq_refl eq_refl) (fun u => inU_arg U h1 a1 u Hs)
                  (fun u => inU_arg U h2 a2 u Ht) sb (or_introl eq_refl) W C) as [n D].
      exists (S n). simpl. destruct (compat h1 a1 h2 a2); [|discriminate]. unfold unify_args.
      destruct (Nat.eqb (length a1) (length a2)); [exact D|discriminate].
  Qed.

  Lemma total_here : forall s t, T U sb s t.
  Proof.
    assert (Q : forall s, Acc (sub sb) s -> forall t, Acc (sub sb) t -> T U sb s t /\ T U sb t s).
    { induction 1 as [s _ IHs]. induction 1 as [t At IHt].
      assert (AT : Acc (sub sb) t) by (constructor; auto).
      split.
      - apply step.
        + intros x w -> L. apply (proj1 (IHs w (sub_var _ _ _ L) t AT)).
        + intros x y w -> -> Lx Ly. apply (proj1 (IHt w (sub_var _ _ _ Ly))).
        + intros y w -> _ L. apply (proj2 (IHt w (sub_var _ _ _ L))).
        + intros h1 a1 h2 a2 -> -> u v Hu Hv.
          apply (proj1 (IHs u (sub_arg _ h1 _ _ Hu) v (sub_acc sb W v))).
      - apply step.
        + intros y w -> L. apply (proj2 (IHt w (sub_var _ _ _ L))).
        + intros y x w -> -> Ly Lx.
          apply (proj2 (IHs w (sub_var _ _ _ Lx) (Ex y) (sub_acc sb W _))).
        + intros x w -> _ L. apply (proj1 (IHs w (sub_var _ _ _ L) t AT)).
        + intros h2 a2 h1 a1 -> -> v u Hv Hu.
          apply (proj2 (IHs u (sub_arg _ h1 _ _ Hu) v (sub_acc sb W v))). }
    intros s t. apply Q; apply sub_acc; auto.
  Qed.
End Total.

Theorem total U : forall k sb, mu U sb < k -> wfs sb -> closed U sb -> forall s t, T U sb s t.
Proof.
  induction k as [|k IH]; intros sb Hk W C; [lia|].
  apply total_here; auto. intros sb' Hm W' C'. apply IH; auto. lia.
Qed.

Theorem unify_total sb s t : wfs sb -> exists n r, r <> OutOfFuel /\ forall m, n <= m -> unify m s t sb = r.
Proof.
  intros W. set (U := vars s ++ vars t ++ flat_map (fun p => vars (snd p)) sb).
  destruct (total U (S (mu U sb)) sb) with (s := s) (t := t) as [n D]; auto.
  - intros x w L v Hv. unfold U. apply in_or_app. right. apply in_or_app. right.
    apply in_flat_map. exists (x, w). split; auto. apply lookup_in; auto.
  - intros v Hv. unfold U. apply in_or_app; auto.
  - intros v Hv. unfold U. apply in_or_app. right. apply in_or_app; auto.
  - exists n, (unify n s t sb). split; auto. intros m Hm. apply unify_mono; auto.
Qed.
