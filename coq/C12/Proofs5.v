(** Calls to generic functions (`type_check_args` / `synthesize_call`).  Invariant of the
    argument loop: the accumulated substitution has closed values and is never shadowed.
    Two more instances of [unify_ind] serve it: [unify_bind] (against a closed type every variable of the
    other side gets solved) and [unify_dom] (only variables of the universe get bound).  [complete_total],
    completeness with enough fuel, is here because it needs termination (Proofs4). *)
From Coq Require Import NArith List Bool Lia Arith.
From V.C12 Require Import Ty Unify Proofs Proofs2 Proofs3 Proofs4.
Import ListNotations.

(** as synthesised argument types are *)
Definition closedt (t : ty) : Prop := vars t = [].
Definition closedsb (sb : subst) : Prop := forall x w, lookup sb x = Some w -> closedt w.

(** no explicitly stored comptime args below (so that `substitute` is the plain homomorphism) *)
Fixpoint plain (t : ty) : bool :=
  match t with
  | Ex _ => true
  | Nd h a =>
      match h with HFun f _ => Nat.eqb (length a) (S (length f)) | _ => true end && forallb plain a
  end.

Lemma flat_map_nil {A B} (f : A -> list B) l : flat_map f l = [] -> forall x, In x l -> f x = [].
Proof.
  induction l as [|a l IH]; simpl; intros H x []; apply app_eq_nil in H; destruct H; subst; auto.
Qed.

Lemma closed_arg h a u : closedt (Nd h a) -> In u a -> closedt u.
Proof. unfold closedt. simpl. intros H Hu. eapply flat_map_nil; eauto. Qed.

Lemma inst_closed th : forall t, closedt t -> inst th t = t.
Proof.
  induction t as [x|h a IH] using ty_ind'; intros C. discriminate C.
  simpl. f_equal. rewrite <- (map_id a) at 2. apply map_ext_in. intros u Hu.
  rewrite Forall_forall in IH. apply IH; auto. eapply closed_arg; eauto.
Qed.

Lemma lookup_app (s1 s2 : subst) x :
  lookup (s1 ++ s2) x = match lookup s1 x with Some w => Some w | None => lookup s2 x end.
Proof. induction s1 as [|[y t] s1 IH]; simpl; auto. destruct (N.eqb x y); auto. Qed.

Lemma closedsb_nil : closedsb [].
Proof. intros x w. discriminate. Qed.

Lemma closedsb_app s1 s2 : closedsb s1 -> closedsb s2 -> closedsb (s1 ++ s2).
Proof.
  intros C1 C2 x w. rewrite lookup_app. destruct (lookup s1 x) eqn:L; [|apply C2].
  intros [= <-]. eapply C1; eauto.
Qed.

Lemma app_go_full (F : ty -> ty) : forall a k, length a <= k ->
  (fix go (k : nat) (a : list ty) {struct a} : list ty :=
     match k, a with S k', u :: a' => F u :: go k' a' | _, _ => [] end) k a = map F a.
Proof. induction a as [|u a IH]; intros [|k] H; simpl in *; auto; try lia. f_equal. apply IH. lia. Qed.

Lemma app_plain sb h a : plain (Nd h a) = true -> app sb (Nd h a) = Nd h (map (app sb) a).
Proof.
  simpl. intros H. apply andb_true_iff in H. destruct H as [H _]. destruct h; auto.
  apply Nat.eqb_eq in H. f_equal. apply (app_go_full (app sb)). lia.
Qed.

Lemma plain_arg h a u : plain (Nd h a) = true -> In u a -> plain u = true.
Proof.
  simpl. intros H Hu. apply andb_true_iff in H. destruct H as [_ H]. rewrite forallb_forall in H. auto.
Qed.

Lemma app_sol pr th sb : sol pr th sb -> forall i, plain i = true -> eqv pr th (app sb i) i.
Proof.
  intros Hs. induction i as [x|h a IH] using ty_ind'; intros P.
  - unfold eqv. simpl. destruct (lookup sb x) as [w|] eqn:L.
    + symmetry. apply (Hs _ _ L).
    + reflexivity.
  - rewrite app_plain by auto. unfold eqv. simpl. f_equal. rewrite !map_map. apply map_ext_in.
    intros u Hu. rewrite Forall_forall in IH. apply IH; auto. eapply plain_arg; eauto.
Qed.

Lemma app_vars_unsolved sb : closedsb sb -> forall i, plain i = true ->
  forall y, In y (vars (app sb i)) -> lookup sb y = None /\ In y (vars i).
Proof.
  intros C. induction i as [x|h a IH] using ty_ind'; intros P y.
  - simpl. destruct (lookup sb x) as [w|] eqn:L.
    + intros Hy. rewrite (C _ _ L) in Hy. destruct Hy.
    + intros [<-|[]]. split; auto; left; auto.
  - rewrite app_plain by auto. simpl. intros Hy. apply in_flat_map in Hy. destruct Hy as [u' [Hu' Hy]].
    apply in_map_iff in Hu'. destruct Hu' as [u [<- Hu]]. rewrite Forall_forall in IH.
    destruct (IH u Hu (plain_arg _ _ _ P Hu) y Hy). split; auto. apply in_flat_map. eauto.
Qed.

Lemma app_vars_keep sb : forall i, plain i = true -> forall x, In x (vars i) -> lookup sb x = None -> In x (vars (app sb i)).
Proof.
  induction i as [y|h a IH] using ty_ind'; intros P x.
  - intros [<-|[]] L. simpl. rewrite L. left; auto.
  - rewrite app_plain by auto. simpl. intros Hx L. apply in_flat_map in Hx. destruct Hx as [u [Hu Hx]].
    rewrite Forall_forall in IH. apply in_flat_map. exists (app sb u). split. apply in_map; auto.
    apply IH; auto. eapply plain_arg; eauto.
Qed.

Definition bind_spec (rec : ty -> ty -> subst -> outcome) :=
  forall s t sb sb', rec s t sb = Unifier sb' -> closedt t -> closedsb sb ->
    closedsb sb' /\ (forall x, lookup sb x <> None -> lookup sb' x <> None) /\
    forall x, In x (vars s) -> lookup sb' x <> None.

Lemma unify_list_bind rec a : bind_spec rec -> forall b sb sb',
  unify_list rec a b sb = Unifier sb' -> (forall v, In v b -> closedt v) -> closedsb sb ->
  closedsb sb' /\ (forall x, lookup sb x <> None -> lookup sb' x <> None) /\
  forall u x, In u a -> In x (vars u) -> lookup sb' x <> None.
Proof.
  revert rec a.
  apply (unify_list_ind (fun s t sb sb' => closedt t -> closedsb sb ->
           closedsb sb' /\ (forall x, lookup sb x <> None -> lookup sb' x <> None) /\
           forall x, In x (vars s) -> lookup sb' x <> None)
         (fun a b sb sb' => (forall v, In v b -> closedt v) -> closedsb sb ->
           closedsb sb' /\ (forall x, lookup sb x <> None -> lookup sb' x <> None) /\
           forall u x, In u a -> In x (vars u) -> lookup sb' x <> None)).
  - intros sb _ C. repeat split; auto; intros u x [].
  - intros u v a b sb s1 sb' IH1 IH2 Cb C.
    destruct (IH1 (Cb v (or_introl eq_refl)) C) as [C1 [M1 B1]].
    destruct (IH2 (fun w Hw => Cb w (or_intror Hw)) C1) as [C2 [M2 B2]].
    split; auto. split; auto. intros u' x [<-|Hu'] Hx. apply M2, B1; auto. eapply B2; eauto.
Qed.

Lemma unify_bind n : bind_spec (unify n).
Proof.
  set (P := fun s t sb sb' => closedt t -> closedsb sb ->
              closedsb sb' /\ (forall x, lookup sb x <> None -> lookup sb' x <> None) /\
              forall x, In x (vars s) -> lookup sb' x <> None).
  apply (unify_ind P (fun a b sb sb' => (forall v, In v b -> closedt v) -> closedsb sb ->
           closedsb sb' /\ (forall x, lookup sb x <> None -> lookup sb' x <> None) /\
           forall u x, In u a -> In x (vars u) -> lookup sb' x <> None));
    [intros m; apply (unify_var_ind P)|exact (fun n => unify_list_bind (unify n))|..]; unfold P; try discriminate.
  - intros x u t sb sb' Lx IH Ct C. destruct (IH Ct C) as [C1 [M1 B1]]. split; auto. split; auto.
    intros z [<-|[]]. apply M1. congruence.
  - intros x t sb _ _ _ Ct C. split; [|split].
    + intros z w. simpl. destruct (N.eqb z x). intros [= <-]; auto. apply C.
    + intros z Hz. simpl. destruct (N.eqb z x); auto. discriminate.
    + intros z [<-|[]]. rewrite lookup_cons_eq. discriminate.
  - intros h1 a1 h2 a2 sb sb' _ IH Ct C.
    destruct (IH (fun v Hv => closed_arg _ _ _ Ct Hv) C) as [C1 [M1 B1]]. split; auto. split; auto.
    intros x Hx. simpl in Hx. apply in_flat_map in Hx. destruct Hx as [u [Hu Hx]]. eauto.
Qed.

Definition domU (U : list N) (sb : subst) := forall x w, lookup sb x = Some w -> In x U.
Definition dom_spec U (rec : ty -> ty -> subst -> outcome) :=
  forall s t sb sb', rec s t sb = Unifier sb' -> inU U s -> inU U t -> closed U sb -> domU U sb -> domU U sb'.

Lemma unify_list_dom U rec a : dom_spec U rec -> ext_spec U rec -> forall b sb sb',
  unify_list rec a b sb = Unifier sb' ->
  (forall u, In u a -> inU U u) -> (forall u, In u b -> inU U u) -> closed U sb -> domU U sb -> domU U sb'.
Proof.
  intros IH IHe. induction a as [|u a IHa]; intros [|v b] sb sb'; simpl; try discriminate.
  - intros [= <-]; auto.
  - destruct (rec u v sb) as [| |s1] eqn:R; try discriminate. intros H Ha Hb C D.
    destruct (IHe _ _ _ _ R C (Ha _ (or_introl eq_refl)) (Hb _ (or_introl eq_refl))) as [C1 _].
    eapply IHa; eauto. eapply IH; eauto.
Qed.

Lemma unify_var_dom U rec n x t sb sb' : dom_spec U rec ->
  unify_var rec n x t sb = Unifier sb' -> In x U -> inU U t -> closed U sb -> domU U sb -> domU U sb'.
Proof.
  intros IH H Hx. assert (Hs : inU U (Ex x)) by (intros v [<-|[]]; exact Hx).
  clear Hx. revert rec n x t sb sb' IH H Hs.
  apply (unify_var_ind (fun s t sb sb' => inU U s -> inU U t -> closed U sb -> domU U sb -> domU U sb')).
  - intros x u t sb sb' Lx IH Hs Ht C. apply IH; auto. apply (C _ _ Lx).
  - intros x y u sb sb' _ Ly IH Hs Ht C. apply IH; auto. apply (C _ _ Ly).
  - intros x t sb _ _ _ Hs _ _ D z w. simpl. destruct (N.eqb_spec z x). subst. intros _. apply Hs; left; auto. apply D.
Qed.

Lemma unify_dom U n : dom_spec U (unify n).
Proof.
  apply (unify_ind _ (fun a b sb sb' => (forall u, In u a -> inU U u) -> (forall u, In u b -> inU U u) ->
                        closed U sb -> domU U sb -> domU U sb'));
    [|exact (fun n a IH => unify_list_dom U (unify n) a IH (unify_ext U n))|..]; auto.
  - intros m x t sb sb' IH H Hs. apply (unify_var_dom U _ m x t sb sb' IH H). apply Hs. left; auto.
  - intros h1 a1 h2 a2 sb sb' _ IH Hs Ht. apply IH; intros u Hu;
      [apply (inU_arg U h1 a1 u Hs Hu) | apply (inU_arg U h2 a2 u Ht Hu)].
Qed.

Definition fits (th : asg) (i a : ty) : Prop :=
  same (inst th i) a \/ exists u, same (inst th i) u /\ widen a u = true.

Lemma check_arg_cases n e a s' : check_arg n e a = Unifier s' ->
  unify n e a [] = Unifier s' \/ (s' = [] /\ widen a e = true).
Proof.
  unfold check_arg. destruct (unify n e a []) as [| |s1]; try discriminate.
  - destruct (widen a e); [|discriminate]. intros [= <-]. auto.
  - intros [= <-]. auto.
Qed.

Lemma widen_closed a e : widen a e = true -> closedt e.
Proof.
  unfold widen. destruct a as [|[] [|]]; try discriminate. destruct e as [|[] [|]]; try discriminate. reflexivity.
Qed.

Lemma check_arg_step n sb i a s' :
  check_arg n (app sb i) a = Unifier s' -> closedsb sb -> plain i = true -> closedt a ->
  closedsb (s' ++ sb) /\ (forall x w, lookup sb x = Some w -> lookup (s' ++ sb) x = Some w) /\
  (forall x, In x (vars i) -> lookup (s' ++ sb) x <> None) /\
  forall th, sol pr_flags th (s' ++ sb) -> fits th i a.
Proof.
  intros CA C Pi Ca. destruct (check_arg_cases _ _ _ _ CA) as [U|[-> Wd]].
  - destruct (unify_bind n _ _ _ _ U Ca closedsb_nil) as [C1 [_ B1]].
    assert (Dj : forall x w, lookup s' x = Some w -> lookup sb x = None).
    { intros x w L. apply (app_vars_unsolved sb C i Pi x).
      refine (unify_dom (vars (app sb i)) n _ _ _ _ U _ _ _ _ x w L);
        try (intros ? ?; discriminate); intros v Hv; auto. rewrite Ca in Hv. destruct Hv. }
    assert (M : forall x w, lookup sb x = Some w -> lookup (s' ++ sb) x = Some w).
    { intros x w L. rewrite lookup_app. destruct (lookup s' x) eqn:L'; auto.
      rewrite (Dj _ _ L') in L. discriminate. }
    split; [now apply closedsb_app|split; [exact M|split]].
    + intros x Hx. rewrite lookup_app. destruct (lookup sb x) eqn:L.
      * destruct (lookup s' x); discriminate.
      * pose proof (B1 x (app_vars_keep sb i Pi x Hx L)). destruct (lookup s' x); congruence.
    + intros th S. assert (Ss : sol pr_flags th s').
      { intros x w L. apply S. rewrite lookup_app, L. auto. }
      destruct (proj1 (result_char n _ _ _ _ th U) Ss) as [_ E].
      left. unfold same in *. rewrite (inst_closed th a Ca) in E. rewrite <- E.
      symmetry. apply (app_sol pr_flags th sb); auto. intros x w L. apply S; auto.
  - simpl. split; auto. split; auto. split.
    + intros x Hx. destruct (lookup sb x) eqn:L; [discriminate|]. exfalso.
      pose proof (app_vars_keep sb i Pi x Hx L) as K. rewrite (widen_closed _ _ Wd) in K. destruct K.
    + intros th S. right. exists (app sb i). split; auto. unfold same.
      rewrite <- (inst_closed th (app sb i) (widen_closed _ _ Wd)).
      symmetry. apply (app_sol pr_flags th sb S i Pi).
Qed.

Lemma fwd_args n : forall ins acts sb sbF, check_args n ins acts sb = Unifier sbF ->
  closedsb sb -> Forall (fun i => plain i = true) ins -> Forall closedt acts ->
  closedsb sbF /\ (forall x w, lookup sb x = Some w -> lookup sbF x = Some w) /\
  (forall i x, In i ins -> In x (vars i) -> lookup sbF x <> None) /\
  forall th, sol pr_flags th sbF -> Forall2 (fits th) ins acts.
Proof.
  induction ins as [|i ins IH]; intros [|a acts] sb sbF; simpl; try discriminate.
  - intros [= <-] C _ _. repeat split; auto; intros i x [].
  - destruct (check_arg n (app sb i) a) as [| |s'] eqn:CA; try discriminate.
    intros H C Pi Ca. inversion Pi as [|? ? Pi1 Pi2]; subst. inversion Ca as [|? ? Ca1 Ca2]; subst.
    destruct (check_arg_step _ _ _ _ _ CA C Pi1 Ca1) as (C1 & M1 & B1 & S1).
    destruct (IH _ _ _ H C1 Pi2 Ca2) as (CF & MF & BF & SF).
    split; auto. split; auto. split.
    + intros i0 x [<-|Hi] Hx; [|eapply BF; eauto]. specialize (B1 x Hx).
      destruct (lookup (s' ++ sb) x) eqn:L; [|congruence]. rewrite (MF _ _ L). discriminate.
    + intros th S. constructor; auto. apply S1. intros x w L. apply S. auto.
Qed.

Lemma solves_nil th : solves th [].
Proof. intros x w; discriminate. Qed.

Lemma complete_total s t sb th : wfs sb -> solves th sb -> inst th s = inst th t ->
  exists n sb', forall m, n <= m -> unify m s t sb = Unifier sb'.
Proof.
  intros W Hs He. destruct (unify_total sb s t W) as [n [r [Hr Hn]]]. destruct r as [| |sb'].
  - congruence.
  - exfalso. apply (complete_main n s t sb th Hs He). apply Hn. lia.
  - exists n, sb'. exact Hn.
Qed.

Lemma bwd_args th : forall ins acts, Forall2 (fun i a => inst th i = a) ins acts ->
  forall sb, solves th sb -> closedsb sb -> Forall (fun i => plain i = true) ins -> Forall closedt acts ->
  exists n sbF, (forall m, n <= m -> check_args m ins acts sb = Unifier sbF) /\ solves th sbF.
Proof.
  induction 1 as [|i a ins acts E _ IH]; intros sb S C Pi Ca.
  - exists 0, sb. split; auto.
  - inversion Pi as [|? ? Pi1 Pi2]; subst. inversion Ca as [|? ? Ca1 Ca2]; subst.
    assert (E1 : inst th (app sb i) = inst th (inst th i)).
    { pose proof (app_sol (fun h => h) th sb (solves_sol _ _ S) i Pi1) as A. unfold eqv in A. rewrite !er_id in A.
      rewrite A. symmetry. apply inst_closed. auto. }
    destruct (complete_total _ _ [] th wfs_nil (solves_nil th) E1) as [n1 [s' H1]].
    specialize (H1 n1 (le_n _)) as U.
    pose proof (keep_exact n1 _ _ _ _ th U (solves_nil th) E1) as S'.
    destruct (unify_bind n1 _ _ _ _ U Ca1 closedsb_nil) as [C1 _].
    destruct (IH (s' ++ sb)) as [n2 [sbF [H2 SF]]]; auto using closedsb_app.
    { intros x w. rewrite lookup_app. destruct (lookup s' x) eqn:L; [|apply S]. intros [= <-]. apply (S' _ _ L). }
    exists (max n1 n2), sbF. split; auto. intros m Hm. simpl. unfold check_arg. rewrite H1 by lia. apply H2. lia.
Qed.

Lemma check_arg_mono n m e a : done (check_arg n e a) -> n <= m -> check_arg m e a = check_arg n e a.
Proof.
  unfold check_arg. intros D Hm. rewrite (unify_mono n m Hm); auto.
  intros E. apply D. now rewrite E.
Qed.

Lemma check_args_mono n m : n <= m -> forall ins acts sb, done (check_args n ins acts sb) ->
  check_args m ins acts sb = check_args n ins acts sb.
Proof.
  intros Hm. induction ins as [|i ins IH]; intros [|a acts] sb; simpl; auto.
  intros D. rewrite (check_arg_mono n m); auto. { destruct (check_arg n (app sb i) a); auto. }
  intros E. apply D. now rewrite E.
Qed.

Definition covers (params : list N) (ins : list ty) := forall x, In x params -> exists i, In i ins /\ In x (vars i).

Lemma read_inst_some sb params l : read_inst sb params = Some l ->
  l = map (fun x => match lookup sb x with Some w => w | None => Ex x end) params /\
  forall x, In x params -> exists w, lookup sb x = Some w /\ bound_ok x w = true.
Proof.
  revert l. induction params as [|x r IH]; simpl; intros l.
  - intros [= <-]. split; auto. intros x [].
  - destruct (lookup sb x) as [w|] eqn:L; [|discriminate]. destruct (read_inst sb r) as [l'|]; [|discriminate].
    destruct (bound_ok x w) eqn:B; [|discriminate]. intros [= <-]. destruct (IH _ eq_refl) as [-> H].
    split; auto. intros z [<-|Hz]; eauto.
Qed.

Lemma read_inst_complete sb th params : (forall x, In x params -> lookup sb x = Some (th x) /\ bound_ok x (th x) = true) ->
  read_inst sb params = Some (map th params).
Proof.
  induction params as [|x r IH]; simpl; intros H; auto.
  destruct (H x (or_introl eq_refl)) as [L B]. rewrite L, IH, B; auto.
Qed.
