(** Acyclic substitutions [wfs]: [unify] keeps them acyclic and only adds bindings; on them the
    closure sigma* ([resolve]) is total and, read as an assignment, is itself a solution. *)
From Coq Require Import NArith List Lia.
From V.C12 Require Import Ty Unify Proofs.
Import ListNotations.

Definition dep (sb : subst) (y x : N) : Prop := exists w, lookup sb x = Some w /\ In y (vars w).
Definition wfs (sb : subst) : Prop := well_founded (dep sb).

Lemma wfs_nil : wfs [].
Proof. intros x. constructor. intros y [w [H _]]. discriminate. Qed.

Lemma occ_false_inv sb x n : forall vs, occ n sb x vs = Some false ->
  forall v, In v vs -> v <> x /\ forall w, lookup sb v = Some w -> exists n', occ n' sb x (vars w) = Some false.
Proof.
  induction n as [|n IH]; intros vs; simpl; [discriminate|].
  destruct vs as [|v0 r]; [intros _ v []|].
  destruct (N.eqb_spec v0 x); [discriminate|].
  destruct (lookup sb v0) as [w0|] eqn:L.
  - destruct (occ n sb x (vars w0)) as [[|]|] eqn:O; try discriminate.
    intros H v [<-|Hin]. split; auto. intros w Hw. rewrite L in Hw. injection Hw as <-. eauto.
    apply (IH _ H); auto.
  - intros H v [<-|Hin]. split; auto. intros w Hw. congruence. apply (IH _ H); auto.
Qed.

(** A binding that passed the occurs check keeps the substitution acyclic: by [occ_false_inv] no variable
    under t leads back to x, so the old solutions stay accessible, and x then is. *)
Lemma wfs_cons sb x t n : wfs sb -> lookup sb x = None -> occ n sb x (vars t) = Some false -> wfs ((x, t) :: sb).
Proof.
  intros W Lx O.
  assert (A : forall y vs k, occ k sb x vs = Some false -> In y vs -> Acc (dep ((x, t) :: sb)) y).
  { intros y. induction (W y) as [y _ IH]. intros vs k Ok Hy.
    destruct (occ_false_inv _ _ _ _ Ok _ Hy) as [Hne Hw].
    constructor. intros y' [w [Hl Hin]]. rewrite lookup_cons_ne in Hl by auto.
    destruct (Hw _ Hl) as [k' Ok']. apply (IH y' (ex_intro _ w (conj Hl Hin)) _ _ Ok' Hin). }
  intros z. induction (W z) as [z _ IH]. constructor. intros y [w [Hl Hin]].
  destruct (N.eq_dec z x) as [->|Hne].
  - rewrite lookup_cons_eq in Hl. injection Hl as <-. eapply A; eauto.
  - rewrite lookup_cons_ne in Hl by auto. apply IH. exists w; auto.
Qed.

Definition pres_spec (rec : ty -> ty -> subst -> outcome) :=
  forall s t sb sb', rec s t sb = Unifier sb' -> wfs sb -> wfs sb' /\ exists d, sb' = d ++ sb.

Lemma unify_var_pres rec n x t sb sb' : pres_spec rec ->
  unify_var rec n x t sb = Unifier sb' -> wfs sb -> wfs sb' /\ exists d, sb' = d ++ sb.
Proof.
  revert rec n x t sb sb'.
  apply (unify_var_ind (fun _ _ sb sb' => wfs sb -> wfs sb' /\ exists d, sb' = d ++ sb)); auto.
  intros x t sb n Lx O W. split. eapply wfs_cons; eauto. now exists [(x, t)].
Qed.

Lemma unify_list_pres rec a : pres_spec rec -> forall b sb sb',
  unify_list rec a b sb = Unifier sb' -> wfs sb -> wfs sb' /\ exists d, sb' = d ++ sb.
Proof.
  revert rec a.
  apply (unify_list_ind (fun _ _ sb sb' => wfs sb -> wfs sb' /\ exists d, sb' = d ++ sb)
           (fun _ _ sb sb' => wfs sb -> wfs sb' /\ exists d, sb' = d ++ sb)).
  - intros sb W. split; auto. now exists [].
  - intros x y a b sb s1 sb' IH1 IH2 W. destruct (IH1 W) as [W1 [d1 ->]]. destruct (IH2 W1) as [W2 [d2 ->]].
    split; auto. exists (d2 ++ d1). now rewrite app_assoc.
Qed.

Lemma unify_pres n : pres_spec (unify n).
Proof.
  apply (unify_ind _ (fun _ _ sb sb' => wfs sb -> wfs sb' /\ exists d, sb' = d ++ sb));
    [exact (fun n => unify_var_pres (unify n) n) | exact (fun n => unify_list_pres (unify n)) | ..]; auto.
  intros x sb W. split; auto. now exists [].
Qed.

Lemma opt_list_some {A B} (f : A -> option B) a l :
  opt_list (map f a) = Some l <-> Forall2 (fun u v => f u = Some v) a l.
Proof.
  split.
  - revert l. induction a as [|u a IH]; simpl; intros l. { intros [= <-]. constructor. }
    destruct (f u) eqn:F; [|discriminate]. destruct (opt_list (map f a)); [|discriminate].
    intros [= <-]. constructor; auto.
  - induction 1 as [|u v a l F _ IH]; simpl; auto. now rewrite F, IH.
Qed.

Lemma Forall2_impl {A B} (P Q : A -> B -> Prop) : (forall a b, P a b -> Q a b) ->
  forall l l', Forall2 P l l' -> Forall2 Q l l'.
Proof. intros H l l' F. induction F; constructor; auto. Qed.

Lemma resolve_mono sb n : forall t v, resolve n sb t = Some v -> forall m, n <= m -> resolve m sb t = Some v.
Proof.
  induction n as [|n IH]; intros t v; simpl; [discriminate|].
  intros H m Hm. destruct m as [|m]; [lia|]. simpl. destruct t as [x|h a].
  - destruct (lookup sb x); auto. apply IH; auto. lia.
  - destruct (opt_list (map (resolve n sb) a)) as [l|] eqn:O; [|discriminate].
    apply opt_list_some in O.
    assert (O' : Forall2 (fun u w => resolve m sb u = Some w) a l).
    { eapply Forall2_impl; [|exact O]. simpl. intros u w Hu. apply IH; auto. lia. }
    apply opt_list_some in O'. now rewrite O'.
Qed.

Lemma resolve_det sb n m t u v : resolve n sb t = Some u -> resolve m sb t = Some v -> u = v.
Proof.
  intros H1 H2. apply resolve_mono with (m := max n m) in H1; [|lia].
  apply resolve_mono with (m := max n m) in H2; [|lia]. congruence.
Qed.

Lemma opt_list_all {A B} (f : A -> option B) a :
  (forall u, In u a -> exists v, f u = Some v) -> exists l, opt_list (map f a) = Some l.
Proof.
  induction a as [|u a IH]; intros H; simpl; [eauto|].
  destruct (H u (or_introl eq_refl)) as [v ->]. destruct IH as [l ->]; simpl; eauto.
  intros; apply H; right; auto.
Qed.

Lemma resolve_all sb a : (forall u, In u a -> exists n v, resolve n sb u = Some v) ->
  exists n, forall u, In u a -> exists v, resolve n sb u = Some v.
Proof.
  induction a as [|u a IH]; intros H. { exists 0. intros u []. }
  destruct IH as [n1 H1]. { intros; apply H; right; auto. }
  destruct (H u (or_introl eq_refl)) as [n2 [v H2]].
  exists (max n1 n2). intros u' [<-|Hu].
  - exists v. eapply resolve_mono; eauto. lia.
  - destruct (H1 _ Hu) as [v' H']. exists v'. eapply resolve_mono; eauto. lia.
Qed.

Lemma resolve_total_term sb : forall w,
  (forall y, In y (vars w) -> exists n v, resolve n sb (Ex y) = Some v) -> exists n v, resolve n sb w = Some v.
Proof.
  induction w as [x|h a IH] using ty_ind'; intros Hv.
  - apply Hv. left; auto.
  - rewrite Forall_forall in IH. destruct (resolve_all sb a) as [n Hn].
    { intros u Hu. apply IH; auto. intros y Hy. apply Hv. simpl. apply in_flat_map. eauto. }
    destruct (opt_list_all _ _ Hn) as [l Hl]. exists (S n), (Nd h l). simpl. now rewrite Hl.
Qed.

Lemma resolve_total sb : wfs sb -> forall t, exists n v, resolve n sb t = Some v.
Proof.
  intros W t. apply resolve_total_term. intros y _. induction (W y) as [y _ IH].
  destruct (lookup sb y) as [w|] eqn:L.
  - destruct (resolve_total_term sb w) as [n [v H]].
    { intros z Hz. apply IH. exists w; auto. }
    exists (S n), v. simpl. rewrite L. auto.
  - exists 1, (Ex y). simpl. rewrite L. auto.
Qed.

Lemma resolve_cover sb : wfs sb -> forall L : list N, exists m, forall y, In y L -> resolve m sb (Ex y) <> None.
Proof.
  intros W L. destruct (resolve_all sb (map Ex L)) as [m Hm]. { intros u _. now apply resolve_total. }
  exists m. intros y Hy. destruct (Hm (Ex y) (in_map _ _ _ Hy)) as [v ->]. discriminate.
Qed.

Definition star (m : nat) (sb : subst) : asg :=
  fun x => match resolve m sb (Ex x) with Some u => u | None => Ex x end.

Lemma resolve_star sb m : forall k w v, resolve k sb w = Some v -> k <= m -> v = inst (star m sb) w.
Proof.
  induction k as [|k IH]; intros w v; [discriminate|]. destruct w as [x|h a].
  - intros H Hk. unfold star. simpl. now rewrite (resolve_mono _ _ _ _ H m Hk).
  - simpl. destruct (opt_list (map (resolve k sb) a)) as [l|] eqn:O; [|discriminate].
    simpl. intros [= <-] Hk. f_equal. apply opt_list_some in O.
    induction O as [|u v a l Hu _ IHO]; simpl; f_equal; auto. apply (IH _ _ Hu). lia.
Qed.

Lemma resolve_is_inst sb m k : forall w v, resolve k sb w = Some v ->
  (forall y, In y (vars w) -> resolve m sb (Ex y) <> None) -> v = inst (star m sb) w.
Proof.
  intros w v H Hc. rewrite (resolve_star sb (max k m) k w v H) by lia. apply inst_ext. intros y Hy. unfold star.
  destruct (resolve m sb (Ex y)) as [u|] eqn:R; [|destruct (Hc y Hy R)].
  now rewrite (resolve_mono _ _ _ _ R (max k m)) by lia.
Qed.

Lemma lookup_in (sb : subst) x w : lookup sb x = Some w -> In (x, w) sb.
Proof.
  induction sb as [|[y t] sb IH]; simpl; [discriminate|].
  destruct (N.eqb_spec x y). intros [= <-]. subst. auto. auto.
Qed.

Definition allvars (sb : subst) : list N := flat_map (fun p => fst p :: vars (snd p)) sb.

Lemma star_sol pr sb m : wfs sb -> (forall y, In y (allvars sb) -> resolve m sb (Ex y) <> None) -> sol pr (star m sb) sb.
Proof.
  intros _ Hc x w L. unfold eqv. f_equal. simpl. unfold star at 1.
  destruct (resolve m sb (Ex x)) as [u|] eqn:R.
  - destruct m; [discriminate|]. simpl in R. rewrite L in R. apply (resolve_star sb (S m) m w u R). lia.
  - destruct (Hc x); auto. apply in_flat_map. exists (x, w). split. now apply lookup_in. left; auto.
Qed.

Lemma closure_exists pr sb (ts : list ty) : wfs sb ->
  exists m th, sol pr th sb /\ forall t, In t ts -> resolve m sb t = Some (inst th t).
Proof.
  intros W. destruct (resolve_all sb (ts ++ map Ex (allvars sb))) as [m Hm]. { intros; now apply resolve_total. }
  exists m, (star m sb). split.
  - apply star_sol; auto. intros y Hy. destruct (Hm (Ex y)) as [v ->]; [|discriminate].
    apply in_or_app. right. now apply in_map.
  - intros t Ht. destruct (Hm t) as [v Hv]. { apply in_or_app; auto. }
    now rewrite Hv, (resolve_star sb m m t v Hv).
Qed.
