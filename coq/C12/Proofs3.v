(** The two readings of "identical": [same], up to the flags [unify] ignores, and exact identity ([solves]);
    and the facts of Proofs.v under each: exact for a [NoUnifier] answer and for keeping a solution
    ([complete_main], [keep_exact]), up to flags for the solutions of an answer ([result_char], [resolve_sol]). *)
From Coq Require Import ZArith List Bool.
From V.C12 Require Import Ty TyFacts Unify Proofs Proofs2.
Import ListNotations.

(** what `unify` does not always look at: input flags (their number stays) and bound-variable flags *)
Definition pr_flags (h : head) : head :=
  match h with
  | HBoundT i _ _ => HBoundT i false false
  | HFun f p => HFun (map (fun _ => 0%N) f) p
  | _ => h
  end.
Definition same (u v : ty) : Prop := er pr_flags u = er pr_flags v.

Lemma numkind_eqb_eq a b : numkind_eqb a b = true <-> a = b.
Proof. exact (numkind_eqb_spec a b). Qed.
Lemma listN_eqb_eq a : forall b, listN_eqb a b = true <-> a = b.
Proof. exact (listN_eqb_spec a). Qed.
Lemma map_const_len {A} (f g : list A) (c : N) : length f = length g -> map (fun _ => c) f = map (fun _ => c) g.
Proof. revert g. induction f; intros [|? g]; simpl; try congruence. intros [= H]. f_equal. auto. Qed.

Lemma compat_pr_flags h1 a1 h2 a2 : compat h1 a1 h2 a2 = true -> pr_flags h1 = pr_flags h2.
Proof.
  destruct h1, h2; simpl; try discriminate; auto; intros H.
  - apply numkind_eqb_eq in H. congruence.
  - apply N.eqb_eq in H. congruence.
  - apply andb_true_iff in H. destruct H as [H _]. apply andb_true_iff in H. destruct H as [H1 H2].
    apply listN_eqb_eq in H1. apply Nat.eqb_eq in H2. subst. f_equal. apply map_const_len. auto.
  - apply N.eqb_eq in H. congruence.
  - apply N.eqb_eq in H. congruence.
  - apply Z.eqb_eq in H. congruence.
  - apply N.eqb_eq in H. congruence.
Qed.

Lemma flags_ok_refl f : forall a1 a2, flags_ok f a1 f a2 = true.
Proof.
  induction f as [|x f IH]; intros [|u a1] [|v a2]; simpl; auto.
  rewrite N.eqb_refl. simpl. rewrite andb_false_r. simpl. apply IH.
Qed.

Lemma compat_refl h a1 a2 : compat h a1 h a2 = true.
Proof.
  destruct h; simpl; rewrite ?N.eqb_refl, ?Z.eqb_refl; auto.
  - now apply numkind_eqb_eq.
  - rewrite (proj2 (listN_eqb_eq params params) eq_refl), Nat.eqb_refl. apply flags_ok_refl.
Qed.

Lemma incompat_id h1 a1 h2 a2 : compat h1 a1 h2 a2 = false -> (fun h : head => h) h1 <> (fun h : head => h) h2.
Proof. intros H E. simpl in E. subst h2. now rewrite compat_refl in H. Qed.

Lemma er_id t : er (fun h => h) t = t.
Proof.
  induction t as [x|h a IH] using ty_ind'; simpl; auto. f_equal.
  induction IH; simpl; auto. rewrite H, IHIH. auto.
Qed.

Definition solves (th : asg) (sb : subst) : Prop := forall x w, lookup sb x = Some w -> th x = inst th w.

Lemma solves_iff_sol th sb : solves th sb <-> sol (fun h => h) th sb.
Proof. unfold solves, sol, eqv. split; intros H x w L; specialize (H x w L); now rewrite !er_id in *. Qed.

Lemma solves_sol th sb : solves th sb -> sol (fun h => h) th sb.
Proof. apply solves_iff_sol. Qed.

Lemma complete_main n s t sb th : solves th sb -> inst th s = inst th t -> unify n s t sb <> NoUnifier.
Proof.
  intros Hs He H. apply (unify_none (fun h => h) incompat_id th n _ _ _ H (solves_sol _ _ Hs)).
  unfold eqv. now rewrite He.
Qed.

Lemma keep_exact n s t sb sb' th : unify n s t sb = Unifier sb' -> solves th sb -> inst th s = inst th t -> solves th sb'.
Proof.
  intros H Hs He. apply solves_iff_sol. apply solves_sol in Hs. eapply unify_bwd; eauto. unfold eqv. now rewrite He.
Qed.

Lemma resolve_sol pr th sb : sol pr th sb -> forall m w u, resolve m sb w = Some u -> eqv pr th u w.
Proof.
  intros Hs. induction m as [|m IH]; intros w u; simpl; [discriminate|].
  destruct w as [x|h a].
  - destruct (lookup sb x) as [w'|] eqn:L.
    + intros H. specialize (IH _ _ H). unfold eqv in *. rewrite IH. symmetry. apply (Hs _ _ L).
    + intros [= <-]. reflexivity.
  - destruct (opt_list (map (resolve m sb) a)) as [l|] eqn:O; [|discriminate].
    simpl. intros [= <-]. apply opt_list_some in O. unfold eqv. simpl. f_equal.
    induction O as [|w v a l Hw _ IHO]; simpl; auto. f_equal; auto. apply (IH _ _ Hw).
Qed.

Lemma result_char n s t sb sb' th : unify n s t sb = Unifier sb' ->
  (sol pr_flags th sb' <-> sol pr_flags th sb /\ same (inst th s) (inst th t)).
Proof.
  intros H. split.
  - intros S'. apply (unify_fwd pr_flags compat_pr_flags th n _ _ _ _ H S').
  - intros [Hs He]. eapply unify_bwd; eauto.
Qed.
