(** C12 — Type inference finds an instantiation exactly when one exists.

    All statements are about the executable model coq/C12/Unify.v (`unify`, `_unify_var`,
    `_occurs`, `_unify_args`, closure `resolve`) of guppylang_internals/tys/ty.py with
    props/C12/fix-1.patch applied; the model is tied to /repo by the differential harness of
    props/C12 on every run.
      wfs sb    the prior substitution is consistent: no variable depends on itself
      same u v  u and v are identical up to what unify never inspects: ownership flags of function inputs
                whose type is copyable on at least one side (flags are compared whenever both input types are
                non-copyable: linear AND affine ones such as arrays) and the copy/drop flags of bound variables
      solves th sb / sol pr_flags th sb   th satisfies every equation x = sb[x] exactly / up to `same`
      resolve m sb t   the idempotent closure sb* applied to t (None = fuel m too small)
    `unify n` returns OutOfFuel when n is too small. *)
From Coq Require Import ZArith NArith List Bool Lia.
From V.C12 Require Import Ty TyFacts Unify Proofs Proofs2 Proofs3 Proofs4 Proofs5.
Import ListNotations.

Theorem ty_eqb_decides : forall s t, ty_eqb s t = true <-> s = t.
Proof. exact ty_eqb_spec. Qed.
Print Assumptions ty_eqb_decides.

Theorem unify_terminates : forall sb s t, wfs sb ->
  exists n r, r <> OutOfFuel /\ forall m, n <= m -> unify m s t sb = r.
Proof. intros sb s t W. exact (unify_total sb s t W). Qed.
Print Assumptions unify_terminates.

(* soundness w.r.t. the idempotent closure *)
Theorem unify_sound : forall n s t sb sb', wfs sb -> unify n s t sb = Unifier sb' ->
  wfs sb' /\ (exists d, sb' = d ++ sb) /\
  exists m u v, resolve m sb' s = Some u /\ resolve m sb' t = Some v /\ same u v.
Proof.
  intros n s t sb sb' W H. destruct (unify_pres n _ _ _ _ H W) as [W' Hext].
  split; auto. split; auto.
  destruct (closure_exists pr_flags sb' [s; t] W') as (m & th & S' & R).
  exists m, (inst th s), (inst th t). split; [|split]; try (apply R; simpl; auto).
  apply (unify_fwd pr_flags compat_pr_flags th n _ _ _ _ H S').
Qed.
Print Assumptions unify_sound.

(* ... hence success implies that an instantiation exists *)
Theorem unify_success_instance : forall n s t sb sb', wfs sb -> unify n s t sb = Unifier sb' ->
  exists th, sol pr_flags th sb /\ same (inst th s) (inst th t).
Proof.
  intros n s t sb sb' W H. destruct (unify_pres n _ _ _ _ H W) as [W' _].
  destruct (closure_exists pr_flags sb' [] W') as (_ & th & S' & _).
  exists th. now apply (result_char n s t sb sb' th H).
Qed.
Print Assumptions unify_success_instance.

Theorem unify_complete : forall s t sb, wfs sb ->
  (exists th, solves th sb /\ inst th s = inst th t) ->
  exists n sb', forall m, n <= m -> unify m s t sb = Unifier sb'.
Proof.
  intros s t sb W [th [Hs He]]. exact (complete_total s t sb th W Hs He).
Qed.
Print Assumptions unify_complete.

Theorem unify_none_correct : forall n s t sb, unify n s t sb = NoUnifier ->
  ~ exists th, solves th sb /\ inst th s = inst th t.
Proof. intros n s t sb H [th [Hs He]]. exact (complete_main n s t sb th Hs He H). Qed.
Print Assumptions unify_none_correct.

(* most general: a unifier that satisfies the prior solution factors through the closure of the result
   (th o sb'* = th) *)
Theorem unify_mgu : forall n s t sb sb' th, unify n s t sb = Unifier sb' ->
  sol pr_flags th sb -> same (inst th s) (inst th t) ->
  sol pr_flags th sb' /\ forall m w u, resolve m sb' w = Some u -> same (inst th u) (inst th w).
Proof.
  intros n s t sb sb' th H Hs He. assert (S' : sol pr_flags th sb') by (eapply unify_bwd; eauto).
  split; auto. intros m w u R. apply (resolve_sol pr_flags th sb' S' m w u R).
Qed.
Print Assumptions unify_mgu.

Theorem unify_solution_set : forall n s t sb sb' th, unify n s t sb = Unifier sb' ->
  (sol pr_flags th sb' <-> sol pr_flags th sb /\ same (inst th s) (inst th t)).
Proof. exact result_char. Qed.
Print Assumptions unify_solution_set.

(* CALLS.  `synth_call n params ins acts` models synthesize_call = type_check_args from {} (each
      closed argument type `a` is unified, from the EMPTY substitution, with the parameter type after ONE
      Substituter pass of the accumulated substitution; failing that a top-level numeric widening is
      accepted; `subst |= s`), then check_all_solved and check_inst (copy/drop bounds of the parameters).
      Hypotheses: parameter types are `plain`, argument types are closed, and every quantified
      variable occurs in some parameter type (`covers`; otherwise /repo reports "cannot infer").
      fits th i a  =  `a` is the instantiated parameter type (up to the flags unify ignores) or a
                      numeric widening of it. *)
Theorem call_accepts_when_instance : forall th params ins acts,
  Forall (fun i => plain i = true) ins -> Forall closedt acts -> covers params ins ->
  Forall2 (fun i a => inst th i = a) ins acts ->                    (* an instantiation makes the arguments fit *)
  (forall x, In x params -> bound_ok x (th x) = true) ->             (* and respects the parameter bounds *)
  exists n, forall m, n <= m -> synth_call m params ins acts = CallAccepted (map th params).
Proof.
  intros th params ins acts Pi Ca Cv F B.
  destruct (bwd_args th ins acts F [] (solves_nil th) closedsb_nil Pi Ca) as [n [sbF [H S]]].
  exists n. intros m Hm. unfold synth_call. rewrite (H m Hm).
  destruct (fwd_args m _ _ _ _ (H m Hm) closedsb_nil Pi Ca) as [CF [_ [BF _]]].
  rewrite (read_inst_complete sbF th); auto. intros x Hx. split; auto.
  destruct (Cv x Hx) as [i [Hi Hxi]]. pose proof (BF i x Hi Hxi) as Hb.
  destruct (lookup sbF x) as [w|] eqn:L; [|congruence]. f_equal.
  rewrite (S _ _ L). symmetry. apply inst_closed. eapply CF; eauto.
Qed.
Print Assumptions call_accepts_when_instance.

Theorem call_accepted_sound : forall n params ins acts l,
  Forall (fun i => plain i = true) ins -> Forall closedt acts ->
  synth_call n params ins acts = CallAccepted l ->
  exists th, l = map th params /\ Forall2 (fits th) ins acts /\ forall x, In x params -> bound_ok x (th x) = true.
Proof.
  intros n params ins acts l Pi Ca. unfold synth_call. destruct (check_args n ins acts []) as [| |sbF] eqn:H; try discriminate.
  destruct (read_inst sbF params) as [l'|] eqn:R; [|discriminate]. intros [= <-].
  destruct (fwd_args n _ _ _ _ H closedsb_nil Pi Ca) as [CF [_ [_ SF]]].
  destruct (read_inst_some _ _ _ R) as [-> Hb].
  set (th := fun x => match lookup sbF x with Some w => w | None => Ex x end).
  exists th. split; auto. split.
  - apply SF. intros x w L. unfold eqv. simpl. unfold th at 1. rewrite L. rewrite (inst_closed th w); auto. eapply CF; eauto.
  - intros x Hx. destruct (Hb x Hx) as [w [L B]]. unfold th. rewrite L. auto.
Qed.
Print Assumptions call_accepted_sound.

Theorem call_rejected_correct : forall n params ins acts th,
  Forall (fun i => plain i = true) ins -> Forall closedt acts -> covers params ins ->
  synth_call n params ins acts = CallRejected ->
  ~ (Forall2 (fun i a => inst th i = a) ins acts /\ forall x, In x params -> bound_ok x (th x) = true).
Proof.
  intros n params ins acts th Pi Ca Cv R [F B]. destruct (call_accepts_when_instance th params ins acts Pi Ca Cv F B) as [n0 H0].
  specialize (H0 (max n n0) ltac:(lia)). unfold synth_call in *.
  assert (D : done (check_args n ins acts [])).
  { unfold done. destruct (check_args n ins acts []); try discriminate. }
  rewrite (check_args_mono n (max n n0) ltac:(lia) _ _ _ D) in H0.
  rewrite H0 in R. discriminate.
Qed.
Print Assumptions call_rejected_correct.

(* the property's last sentence, both directions in one statement *)
Theorem call_iff_instance : forall params ins acts,
  Forall (fun i => plain i = true) ins -> Forall closedt acts -> covers params ins ->
  ((exists th, Forall2 (fun i a => inst th i = a) ins acts /\ forall x, In x params -> bound_ok x (th x) = true) ->
   exists n l, forall m, n <= m -> synth_call m params ins acts = CallAccepted l) /\
  ((exists n l, synth_call n params ins acts = CallAccepted l) ->
   exists th, Forall2 (fits th) ins acts /\ forall x, In x params -> bound_ok x (th x) = true).
Proof.
  intros params ins acts Pi Ca Cv. split.
  - intros [th [F B]]. destruct (call_accepts_when_instance th params ins acts Pi Ca Cv F B) as [n H]. eauto.
  - intros [n [l H]]. destruct (call_accepted_sound n params ins acts l Pi Ca H) as [th [_ [F B]]]. eauto.
Qed.
Print Assumptions call_iff_instance.

(* the code without fix-1.patch ([unify_coded]) is unsound and does not terminate *)
Open Scope N_scope.
Definition A := Ex 14. Definition B := Ex 22.
Theorem unify_coded_sound_refuted :
  exists s t sb', unify_coded 100 s t [] = Unifier sb' /\ forall th, ~ solves th sb'.
Proof.
  exists (TTuple [A; B]), (TTuple [TTuple [B]; TTuple [A]]). eexists. split. vm_compute. reflexivity.
  intros th H. pose proof (H 14 _ eq_refl) as H1. pose proof (H 22 _ eq_refl) as H2.
  apply (f_equal size) in H1. apply (f_equal size) in H2. simpl in H1, H2. lia.
Qed.
Print Assumptions unify_coded_sound_refuted.

Example unify_coded_diverges_witness :
  unify_coded 3000 (TTuple [A; B; A]) (TTuple [TTuple [B]; TTuple [A]; TTuple [A]]) [] = OutOfFuel.
Proof. vm_compute. reflexivity. Qed.
Example unify_coded_const_cycle :   (* unify(m, n, {n: m}) = {m: n, n: m} *)
  unify_coded 100 (Ex 175) (Ex 167) [(167, Ex 175)] = Unifier [(175, Ex 167); (167, Ex 175)].
Proof. vm_compute. reflexivity. Qed.
Example unify_fixed_on_witnesses :
  unify 100 (TTuple [A; B]) (TTuple [TTuple [B]; TTuple [A]]) [] = NoUnifier /\
  unify 100 (TTuple [A; B; A]) (TTuple [TTuple [B]; TTuple [A]; TTuple [A]]) [] = NoUnifier /\
  unify 100 (Ex 175) (Ex 167) [(167, Ex 175)] = Unifier [(167, Ex 175)].
Proof. vm_compute. auto. Qed.

(* the hypotheses are satisfiable on non-trivial instances *)
Example ex_pair :     (* (A, A) ~ (B, int) from {} : triangular answer, closure (int, int) on both sides *)
  unify 100 (TTuple [A; A]) (TTuple [B; TNum KInt]) [] = Unifier [(22, TNum KInt); (14, B)] /\
  app [(22, TNum KInt); (14, B)] (TTuple [A; A]) = TTuple [B; B] /\          (* ONE Substituter pass is not enough *)
  resolve 10 [(22, TNum KInt); (14, B)] (TTuple [A; A]) = Some (TTuple [TNum KInt; TNum KInt]) /\
  resolve 10 [(22, TNum KInt); (14, B)] (TTuple [B; TNum KInt]) = Some (TTuple [TNum KInt; TNum KInt]).
Proof. vm_compute. auto. Qed.

Example ex_wfs_prior : wfs [(22, TNum KInt); (14, B)].
Proof. apply (unify_sound 100 (TTuple [A; A]) (TTuple [B; TNum KInt]) [] _ wfs_nil). vm_compute. reflexivity. Qed.

Example ex_complete_hyp :   (* prior solution {A := B}; B ~ list[int] has the exact unifier below *)
  let sb := [(14, B)] in let th := fun _ : N => TOpaque list_def [argT (TNum KInt)] in
  wfs sb /\ solves th sb /\ inst th B = inst th (TOpaque list_def [argT (TNum KInt)]).
Proof.
  simpl. split; [|split].
  - apply (unify_sound 100 A B [] _ wfs_nil). vm_compute. reflexivity.
  - intros x w. simpl. destruct (N.eqb x 14); [intros [= <-]; reflexivity|discriminate].
  - reflexivity.
Qed.

Example ex_flags :   (* non-copyable inputs (linear qubit, affine array) must agree on flags; copyable ones need not *)
  unify 100 (TFun [(TOpaque qubit_def [], 2)] TNone [] []) (TFun [(TOpaque qubit_def [], 0)] TNone [] []) [] = NoUnifier /\
  unify 100 (TFun [(TOpaque array_def [argT (TNum KInt); argC (CVal 3)], 2)] TNone [] [])
            (TFun [(TOpaque array_def [argT (TNum KInt); argC (CVal 3)], 0)] TNone [] []) [] = NoUnifier /\
  unify 100 (TFun [(TNum KInt, 2)] TNone [] []) (TFun [(TNum KInt, 0)] TNone [] []) [] = Unifier [] /\
  same (TFun [(TNum KInt, 2)] TNone [] []) (TFun [(TNum KInt, 0)] TNone [] []).
Proof. vm_compute. auto. Qed.

(* calls: f(x: T, y: tuple[T, U]) *)
Definition T := 14%N. Definition U := 22%N.
Example ex_call :
  synth_call 100 [T; U] [Ex T; TTuple [Ex T; Ex U]] [TNum KInt; TTuple [TNum KInt; TBool]] = CallAccepted [TNum KInt; TBool] /\
  synth_call 100 [T; U] [Ex T; TTuple [Ex T; Ex U]] [TNum KInt; TTuple [TBool; TBool]] = CallRejected /\
  (* bounds: T is copyable, an array is not *)
  synth_call 100 [T] [Ex T] [TOpaque array_def [argT (TNum KInt); argC (CVal 2)]] = CallRejected /\
  (* widening makes acceptance order dependent: g(x: T, y: T) accepts (float, int) but rejects (int, float) *)
  synth_call 100 [T] [Ex T; Ex T] [TNum KFloat; TNum KInt] = CallAccepted [TNum KFloat] /\
  synth_call 100 [T] [Ex T; Ex T] [TNum KInt; TNum KFloat] = CallRejected.
Proof. vm_compute. repeat split. Qed.
Example ex_call_hyps : covers [T; U] [Ex T; TTuple [Ex T; Ex U]] /\ plain (TTuple [Ex T; Ex U]) = true /\
  closedt (TTuple [TNum KInt; TBool]).
Proof.
  split; [|split; reflexivity]. intros x [<-|[<-|[]]].
  - exists (Ex T). simpl. auto.
  - exists (TTuple [Ex T; Ex U]). simpl. auto.
Qed.
