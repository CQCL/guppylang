(** C21 — Comptime functions agree with regular Guppy functions (operator dispatch part).
    Every statement is about tables and selection logic GENERATED on this run from
    tracing/object.py, tracing/builtins_mock.py and checker/expr_checker.py (GenTracing.v) and
    about the acceptance table probed from the std library of the repo under test
    (GenAccepts.v).  All domains are finite; the bound of each theorem is the generated table
    it quantifies over ([dunder_methods]; [py_ops] x [kind_pairs] x [types_of], which [cases] lists:
    19 operators x {traced,const}^2 minus const/const x operand types over {int, nat, float, bool} /
    {int, float, bool}). *)
From Coq Require Import List Bool String.
From V.C21 Require Import ModelBase GenTracing GenAccepts ModelDispatch Proofs.
Import ListNotations.
Open Scope string_scope.

(** every operator method of DunderMixin delegates to the method of the same name *)
Theorem dunder_delegates_self : forall m d k n, In (m, (d, k, n)) dunder_methods -> d = m.
Proof.
  assert (F : map (fun e => fst (fst (snd e))) dunder_methods = map fst dunder_methods) by reflexivity.
  intros m d k n H. exact (ext_in_map F _ H).
Qed.
Print Assumptions dunder_delegates_self.

(** guppylang's operator table coincides with Python's data model, and every operator method
    it names is a hook of DunderMixin of the right kind (matmul excepted: no numeric type has it) *)
Theorem operator_tables_complete :
  (forall op l r d, In (op, (l, r, d)) binary_table -> lookup_first op py_ops = Some (l, r)) /\
  (forall op, In op (map fst py_ops) -> mem_key op binary_table = true) /\
  (forall op l r d, In (op, (l, r, d)) binary_table -> op <> "MatMult" -> hook l DBinary = true /\ hook r DBinary = true) /\
  (forall op m d, In (op, (m, d)) unary_table -> hook m DUnary = true).
Proof.
  assert (A : map (fun e => lookup_first (fst e) py_ops) binary_table = map (fun e => Some (fst (snd e))) binary_table)
    by reflexivity.
  assert (B : forallb (fun e => mem_key (fst e) binary_table) py_ops = true) by (vm_compute; reflexivity).
  assert (C : forallb (fun e => String.eqb (fst e) "MatMult"
                                || (hook (fst (fst (snd e))) DBinary && hook (snd (fst (snd e))) DBinary)) binary_table = true)
    by (vm_compute; reflexivity).
  assert (D : forallb (fun e => hook (fst (snd e)) DUnary) unary_table = true) by (vm_compute; reflexivity).
  rewrite forallb_forall in B, C, D. split; [|split; [|split]].
  - intros op l r d H. exact (ext_in_map A _ H).
  - intros op H. apply in_map_iff in H. destruct H as [[k v] [<- H]]. exact (B _ H).
  - intros op l r d H Hop. specialize (C _ H). cbn [fst snd] in C. apply orb_true_iff in C. destruct C as [C|C].
    + apply String.eqb_eq in C. contradiction.
    + apply andb_true_iff. exact C.
  - intros op m d H. exact (D _ H).
Qed.
Print Assumptions operator_tables_complete.

(** for every operator and every pair of operand kinds/types, the regular path
    (_synthesize_binary) and the tracing path (Python dispatch into binary_operation with its
    reflected fallback) either both reject, or both compute `left OP right` — the operator's own
    method on (left, right) or its reflected method on (right, left) — with the same type's
    implementation *)
Theorem reflected_dispatch_agrees : forall op ka kb a b,
  In op (map fst py_ops) -> In (ka, kb) kind_pairs -> In a (types_of ka) -> In b (types_of kb) ->
  match regular_select op a b, trace_select op ka kb a b with
  | None, None => True
  | Some r, Some t => s_ty r = s_ty t /\ coherent op r = true /\ coherent op t = true
  | _, _ => False
  end.
Proof.
  intros op ka kb a b Hop Hk _ _. apply in_map_iff in Hop. destruct Hop as [[op' [lop rop]] [<- He]].
  exact (paths_agree op' lop rop ka kb a b He Hk).
Qed.
Print Assumptions reflected_dispatch_agrees.

(** non-vacuity: reflected and mixed-type instances really select something *)
Example dispatch_witness :
  trace_select "RShift" Const Traced TInt TInt = Some (mkSel TInt "__rrshift__" false TInt) /\
  regular_select "RShift" TInt TInt = Some (mkSel TInt "__rshift__" true TInt) /\
  trace_select "Sub" Const Traced TInt TFloat = Some (mkSel TFloat "__rsub__" false TInt) /\
  regular_select "Sub" TInt TFloat = Some (mkSel TFloat "__rsub__" false TInt) /\
  trace_select "Lt" Const Traced TInt TNat = Some (mkSel TInt "__lt__" true TNat) /\
  regular_select "LShift" TFloat TInt = None /\ List.length cases = 760.
Proof. vm_compute. repeat split. Qed.

(** the mocked builtins int / float / len call __int__ / __float__ / __len__ on a GuppyObject,
    are the ones installed by mock_builtins, are not shadowed by GuppyObject's own dunders, and
    (where DunderMixin defines the method) reach the instance method of the same name *)
Theorem mocked_builtins_delegate :
  (forall b d, In (b, d) mocked_builtins ->
     d = "__" ++ b ++ "__" /\ In b mock_installed /\ ~ In d guppyobject_own_dunders /\
     forall d' k n, lookup_first d dunder_methods = Some (d', k, n) -> d' = d) /\
  (forall b, In b ["int"; "float"; "len"] -> mem_key b mocked_builtins = true) /\
  (forall b, In b mock_installed -> mem_key b mocked_builtins = true).
Proof.
  assert (A : forallb (fun e => String.eqb (snd e) ("__" ++ fst e ++ "__") && mem (fst e) mock_installed
                                && negb (mem (snd e) guppyobject_own_dunders)
                                && match lookup_first (snd e) dunder_methods with
                                   | Some (d, _, _) => String.eqb d (snd e) | None => true end) mocked_builtins = true)
    by (vm_compute; reflexivity).
  assert (B : forallb (fun b => mem_key b mocked_builtins) ["int"; "float"; "len"] = true) by (vm_compute; reflexivity).
  assert (C : forallb (fun b => mem_key b mocked_builtins) mock_installed = true) by (vm_compute; reflexivity).
  rewrite forallb_forall in A, B, C. split; [|split; [exact B | exact C]].
  intros b d H. specialize (A _ H). cbn [fst snd] in A. repeat rewrite andb_true_iff in A. destruct A as [[[A1 A2] A3] A4].
  split; [now apply String.eqb_eq|]. split.
  - apply mem_In. exact A2.
  - split.
    + intro I. apply mem_In in I. rewrite I in A3. discriminate A3.
    + intros d' k n L. rewrite L in A4. now apply String.eqb_eq in A4.
Qed.
Print Assumptions mocked_builtins_delegate.

(** constants: the scalar case of guppy_object_from_py types, lowers and `builder.load`s a fresh
    constant on every use (the translator fails closed on any other shape, e.g. a memo lookup),
    and the per-trace state has no field in which converted constants could be remembered *)
Theorem scalar_constants_fresh :
  List.last scalar_case_steps "" = "load-fresh" /\ List.last from_py_patterns "" = "v" /\
  forall f, In f tracing_state_fields -> In f ["ctx"; "dfg"; "node"; "unused_undroppable_objs"].
Proof.
  split; [reflexivity|]. split; [reflexivity|].
  assert (F : forallb (fun f => mem f ["ctx"; "dfg"; "node"; "unused_undroppable_objs"]) tracing_state_fields = true)
    by (vm_compute; reflexivity).
  intros f H. apply mem_In. rewrite forallb_forall in F. exact (F f H).
Qed.
Print Assumptions scalar_constants_fresh.
