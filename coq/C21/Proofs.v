(** C21 — why the two dispatch paths agree. *)
From Coq Require Import List Bool String.
From V.C21 Require Import ModelBase GenTracing GenAccepts ModelDispatch.
Import ListNotations.
Open Scope string_scope.

Lemma mem_In : forall x l, mem x l = true <-> In x l.
Proof.
  intros x l. unfold mem. rewrite existsb_exists. split.
  - intros [y [Hy E]]. apply String.eqb_eq in E. subst. exact Hy.
  - intros H. exists x. split; [exact H | apply String.eqb_refl].
Qed.

Definition is_deco (d : deco) (k : deco) : bool :=
  match d, k with DBinary, DBinary | DUnary, DUnary | DNone, DNone => true | _, _ => false end.
(* DunderMixin defines [m], under the decorator [k] *)
Definition hook (m : string) (k : deco) : bool :=
  match lookup_first m dunder_methods with Some (_, d, _) => is_deco d k | None => false end.

Definition own (lop : string) (a b : ty) : sel := mkSel a lop true b.
Definition reflected (rop : string) (a b : ty) : sel := mkSel b rop false a.

(* What the two paths try for a row (op, (lop, rop)) of [py_ops] at operand types [a], [b], and what
   they should: the same two candidates, own method first on the regular path and for a traced left
   operand, reflected first for a constant one.  An operator neither of whose methods DunderMixin
   hooks (matmul) has no tracing attempt: there the regular path must reject, and does, since
   whatever is accepted is hooked ([accepted_hooked]).  The first component says that [op] finds this
   very row. *)
Definition attempts (e : string * (string * string)) (a b : ty) :=
  let '(op, (lop, rop)) := e in
  (lookup_first op py_ops, regular_attempts op a b, (wrapped_attempts lop a b true, wrapped_attempts rop b a false)).
Definition same_candidates (e : string * (string * string)) (a b : ty) :=
  let '(op, (lop, rop)) := e in
  let o := own lop a b in let r := reflected rop a b in
  (Some (lop, rop), [o; r], if hook lop DBinary || hook rop DBinary then ([o; r], [r; o]) else ([], [])).

(* one evaluation of the whole table, the operand types being variables *)
Lemma candidates : forall a b, map (fun e => attempts e a b) py_ops = map (fun e => same_candidates e a b) py_ops.
Proof. intros. vm_compute. reflexivity. Qed.

Lemma ty_eqb_eq : forall a b, ty_eqb a b = true -> a = b.
Proof. intros [] []; simpl; congruence. Qed.

Lemma accepts_In : forall a m b, accepts a m b = true -> In (a, m, b) accepts_table.
Proof.
  intros a m b H. apply existsb_exists in H. destruct H as [[[t m'] u] [Hin H]]. cbn [fst snd] in H.
  apply andb_true_iff in H. destruct H as [H Hu]. apply andb_true_iff in H. destruct H as [Ht Hm].
  apply ty_eqb_eq in Ht, Hu. apply String.eqb_eq in Hm. subst. exact Hin.
Qed.

Lemma accepted_rows : forall P : ty * string * ty -> bool, forallb P accepts_table = true ->
  forall t m u, accepts t m u = true -> P (t, m, u) = true.
Proof. intros P F t m u A. rewrite forallb_forall in F. exact (F _ (accepts_In t m u A)). Qed.

Lemma accepted_hooked : forall t m u, accepts t m u = true -> hook m DBinary = true.
Proof. apply (accepted_rows (fun r => hook (snd (fst r)) DBinary)). vm_compute. reflexivity. Qed.

(* In the table an argument is accepted at the receiver's own type or at one that widens to it:
   arguments are checked up to numeric coercion, which only widens (expr_checker.try_coerce_to: nat
   to int to float).  So two types that each accept the other as argument, under whatever methods,
   are the same type. *)
Definition widens (u t : ty) : bool :=
  match u, t with
  | TNat, (TNat | TInt | TFloat) | TInt, (TInt | TFloat) | TFloat, TFloat | TBool, TBool => true
  | _, _ => false
  end.

Lemma accepted_widens : forall t m u, accepts t m u = true -> widens u t = true.
Proof. apply (accepted_rows (fun r => widens (snd r) (fst (fst r)))). vm_compute. reflexivity. Qed.

Lemma unambiguous : forall a m b m', accepts a m b = true -> accepts b m' a = true -> a = b.
Proof.
  intros a m b m' A1 A2. apply accepted_widens in A1, A2. revert A1 A2. destruct a, b; simpl; congruence.
Qed.

Lemma coherent_own : forall op lop rop a b, lookup_first op py_ops = Some (lop, rop) -> coherent op (own lop a b) = true.
Proof. intros op lop rop a b L. unfold coherent. rewrite L. cbn. rewrite String.eqb_refl. reflexivity. Qed.

Lemma coherent_reflected : forall op lop rop a b,
  lookup_first op py_ops = Some (lop, rop) -> coherent op (reflected rop a b) = true.
Proof.
  intros op lop rop a b L. unfold coherent. rewrite L. cbn. rewrite String.eqb_refl, andb_false_r. reflexivity.
Qed.

Lemma paths_agree : forall op lop rop ka kb a b, In (op, (lop, rop)) py_ops -> In (ka, kb) kind_pairs ->
  match regular_select op a b, trace_select op ka kb a b with
  | None, None => True
  | Some r, Some t => s_ty r = s_ty t /\ coherent op r = true /\ coherent op t = true
  | _, _ => False
  end.
Proof.
  intros op lop rop ka kb a b He Hk.
  pose proof (ext_in_map (candidates a b) _ He) as C. cbn beta iota zeta in C.
  apply pair_equal_spec in C as [C W]. apply pair_equal_spec in C as [L R]. unfold regular_select. rewrite R.
  assert (trace_select op ka kb a b = first_accepted (wrapped_attempts lop a b true) \/
          trace_select op ka kb a b = first_accepted (wrapped_attempts rop b a false)) as T.
  { unfold trace_select, trace_attempts. rewrite L.
    destruct Hk as [E|[E|[E|[]]]]; injection E as <- <-; auto. }
  revert T. destruct (hook lop DBinary || hook rop DBinary) eqn:Hh; injection W as -> ->;
    unfold first_accepted, own, reflected; cbn [s_ty s_meth s_other].
  - pose proof (coherent_own op lop rop a b L) as Co. pose proof (coherent_reflected op lop rop a b L) as Cr.
    pose proof (unambiguous a lop b rop) as Un. unfold own, reflected in Co, Cr.
    destruct (accepts a lop b), (accepts b rop a); intros [-> | ->]; cbn; auto.
  - apply orb_false_iff in Hh. destruct Hh as [Hl Hr].
    destruct (accepts a lop b) eqn:A1; [apply accepted_hooked in A1; congruence|].
    destruct (accepts b rop a) eqn:A2; [apply accepted_hooked in A2; congruence|].
    intros [-> | ->]; exact I.
Qed.
