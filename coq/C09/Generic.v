(** V.C09.Generic — abstract chaotic iteration of a separable boolean dataflow system.

    Both analyses of cfg/analysis.py are, per key (a variable, or a (component, variable)
    pair), a boolean equation system on the blocks of a finite graph

        X b  =  gen b k  ||  (pass b k  &&  (if N b = [] then bnd k else  OR_{c in N b} X c))

    iterated from below (keys with [hi k = false]) or from above ([hi k = true]).
    [N b] are the blocks whose value block [b] reads; [R b] the blocks that are re-queued
    when the value of [b] changes.  Beside staying inside the graph, the only thing required of
    [R] is [RN]: every reader of [b] is re-queued.  This is exactly what guppylang 0.21.6 as
    released gets wrong for dummy edges.  [keys] is the finite list of keys the measure counts; a key
    outside it has to be one that never leaves its start value ([out_lo]: from below, no generator and
    a false boundary; [out_hi]: from above, a true boundary and every block passes).

    For ANY sequence of pops ([astep]) the invariant [ainv] is kept; at an empty worklist the
    value is the path-based solution: from below  X b <-> reach k b  (a finite N-path to a
    generator / boundary), from above  ~X b <-> fail k b  (every N-path dies: well-founded),
    hence unique; every pop lowers the measure [amu].  A concrete step function that refines
    [astep] inherits invariant and measure ([Section Refine]); ProofsLive.v and ProofsAssign.v
    are its two instances. *)
From Coq Require Import List Bool Arith Lia.
From V.C09 Require Import Analysis SetLemmas.
Import ListNotations.

Section Generic.
Variable K : Type.
Variable K_eq_dec : forall a b : K, {a = b} + {a <> b}.
Variable n : nat.
Variables N R : nat -> list nat.
Variables gen pass : nat -> K -> bool.
Variable bnd : K -> bool.
Variable hi : K -> bool.
Variable keys : list K.

Hypothesis N_wf : forall b c, b < n -> In c (N b) -> c < n.
Hypothesis R_wf : forall b c, b < n -> In c (R b) -> c < n.
Hypothesis RN : forall b c, b < n -> c < n -> In b (N c) -> In c (R b).
Hypothesis out_lo : forall k, ~ In k keys -> hi k = false ->
  bnd k = false /\ forall b, b < n -> gen b k = false.
Hypothesis out_hi : forall k, ~ In k keys -> hi k = true ->
  bnd k = true /\ forall b, b < n -> pass b k = true.

Definition AV := nat -> K -> bool.

Definition comb (V : AV) b k : bool :=
  match N b with [] => bnd k | _ => existsb (fun c => V c k) (N b) end.
Definition F (V : AV) b k : bool := gen b k || (pass b k && comb V b k).

Inductive reach (k : K) : nat -> Prop :=
| r_gen b : b < n -> gen b k = true -> reach k b
| r_bnd b : b < n -> pass b k = true -> N b = [] -> bnd k = true -> reach k b
| r_step b c : b < n -> pass b k = true -> In c (N b) -> reach k c -> reach k b.

Inductive fail (k : K) : nat -> Prop :=
| f_intro b : b < n -> gen b k = false ->
    (pass b k = false \/ (N b = [] /\ bnd k = false) \/
     (N b <> [] /\ forall c, In c (N b) -> fail k c)) -> fail k b.

(** the same for the value flowing into [b] *)
Definition reach_in (k : K) (b : nat) : Prop :=
  (N b = [] /\ bnd k = true) \/ exists c, In c (N b) /\ reach k c.
Definition fail_in (k : K) (b : nat) : Prop :=
  (N b = [] /\ bnd k = false) \/ (N b <> [] /\ forall c, In c (N b) -> fail k c).

(* fail has a nested (forall c) premise: write the induction principle by hand *)
Lemma fail_ind2 : forall (k : K) (P : nat -> Prop),
  (forall b, b < n -> gen b k = false ->
     (pass b k = false \/ (N b = [] /\ bnd k = false) \/
      (N b <> [] /\ forall c, In c (N b) -> fail k c /\ P c)) -> P b) ->
  forall b, fail k b -> P b.
Proof.
  intros k P H. fix IH 2. intros b Hf. destruct Hf as [b Hb Hg Hd].
  apply H; auto. destruct Hd as [?|[?|[Hne Hall]]]; auto.
  right; right. split; auto.
Qed.

(* [fail] is the complement of a greatest fixpoint: it stays out of every set each member of which is
   justified by a generator, by the boundary or by a member among its successors *)
Lemma fail_avoids : forall k (Q : nat -> Prop),
  (forall c, c < n -> Q c -> gen c k = true \/ (pass c k = true /\
     ((N c = [] /\ bnd k = true) \/ exists c', In c' (N c) /\ Q c'))) ->
  forall b, fail k b -> ~ Q b.
Proof.
  intros k Q HQ b Hf. induction Hf as [b Hb Hg Hd] using fail_ind2. intros Hs.
  destruct (HQ b Hb Hs) as [Hg'|[Hp [[E Hbn]|[c [Hc Hsc]]]]]; [congruence|..];
    destruct Hd as [Hp'|[[E' Hbn']|[Hne Hall]]]; try congruence.
  - rewrite E' in Hc. destruct Hc.
  - exact (proj2 (Hall c Hc) Hsc).
Qed.

Lemma reach_fail_excl : forall k b, reach k b -> fail k b -> False.
Proof.
  intros k b Hr Hf. apply (fail_avoids k (reach k)) with b; [|exact Hf|exact Hr].
  intros c _ [c' Hc Hg|c' Hc Hp HN Hbn|c' d Hc Hp Hd Hrd]; auto.
  right. split; auto. right. exists d. auto.
Qed.

Lemma fail_needs_stop : forall k, bnd k = true -> (forall b, b < n -> pass b k = true) ->
  forall b, ~ fail k b.
Proof.
  intros k Hbn Hp b Hf. apply (fail_avoids k (fun _ => True)) with b; [|exact Hf|exact I].
  intros c Hc _. right. split; auto.
  destruct (N c) as [|c' l]; [left; auto | right; exists c'; simpl; auto].
Qed.

Lemma comb_true : forall V b k, comb V b k = true <->
  (N b = [] /\ bnd k = true) \/ (exists c, In c (N b) /\ V c k = true).
Proof.
  intros V b k. unfold comb. destruct (N b) as [|c0 l] eqn:E.
  - split; [intros; left; auto | intros [[_ H]|[c [[] _]]]; auto].
  - rewrite existsb_exists. split.
    + intros H; right; exact H.
    + intros [[H _]|H]; [discriminate | exact H].
Qed.

Lemma comb_false : forall V b k, comb V b k = false <->
  (N b = [] /\ bnd k = false) \/ (N b <> [] /\ forall c, In c (N b) -> V c k = false).
Proof.
  intros V b k. rewrite <- not_true_iff_false, comb_true. split.
  - intros H. destruct (N b) as [|c0 l] eqn:E.
    + left. split; auto. apply not_true_is_false. intros Hb. apply H. auto.
    + right. split; [discriminate|]. intros c Hc. apply not_true_is_false. intros Hv. apply H. eauto.
  - intros [[E Hb]|[Hne Hall]] [[E' Hb']|[c [Hc Hv]]]; try congruence.
    + rewrite E in Hc. destruct Hc.
    + rewrite Hall in Hv; auto. discriminate.
Qed.

Lemma F_true : forall V b k, F V b k = true <->
  gen b k = true \/ (pass b k = true /\
     ((N b = [] /\ bnd k = true) \/ exists c, In c (N b) /\ V c k = true)).
Proof.
  intros. unfold F. rewrite <- comb_true.
  destruct (gen b k), (pass b k), (comb V b k); simpl; split; auto; intros [H|[H H']]; discriminate.
Qed.

Lemma F_false : forall V b k, F V b k = false <->
  gen b k = false /\ (pass b k = false \/ comb V b k = false).
Proof.
  intros. unfold F. destruct (gen b k), (pass b k), (comb V b k); simpl; split; auto;
    intros [H [H'|H']]; discriminate.
Qed.

Lemma comb_local : forall V W b k, (forall c, In c (N b) -> V c k = W c k) -> comb V b k = comb W b k.
Proof.
  intros V W b k H. unfold comb. destruct (N b) as [|c0 l] eqn:E; [reflexivity|].
  rewrite <- E in *. clear E.
  induction (N b) as [|c t IH]; simpl; [reflexivity|].
  rewrite H by (left; reflexivity). f_equal. apply IH. intros; apply H; right; assumption.
Qed.

Lemma F_local : forall V W b k, (forall c, In c (N b) -> V c k = W c k) -> F V b k = F W b k.
Proof. intros V W b k H. unfold F. rewrite (comb_local V W b k H). reflexivity. Qed.

Lemma F_mono : forall V W b k, b < n ->
  (forall c, c < n -> V c k = true -> W c k = true) -> F V b k = true -> F W b k = true.
Proof.
  intros V W b k Hb H. rewrite !F_true. intros [?|[? [?|[c [Hc Hv]]]]]; auto.
  right; split; auto. right. exists c; split; auto. apply H; auto. eapply N_wf; eauto.
Qed.

Lemma F_reach : forall V b k, b < n ->
  (forall c, c < n -> V c k = true -> reach k c) -> F V b k = true -> reach k b.
Proof.
  intros V b k Hb H. rewrite F_true. intros [?|[? [[? ?]|[c [Hc Hv]]]]].
  - apply r_gen; auto.
  - apply r_bnd; auto.
  - apply r_step with c; auto. apply H; auto. eapply N_wf; eauto.
Qed.

Lemma F_fail : forall V b k, b < n ->
  (forall c, c < n -> V c k = false -> fail k c) -> F V b k = false -> fail k b.
Proof.
  intros V b k Hb H. rewrite F_false, comb_false. intros [Hg [Hp|[Hc|[Hne Hall]]]];
    apply f_intro; auto.
  right; right. split; auto. intros c Hc. apply H; auto. eapply N_wf; eauto.
Qed.

Lemma fix_reach : forall V k, (forall b, b < n -> V b k = F V b k) ->
  forall b, reach k b -> V b k = true.
Proof.
  intros V k Hfix b Hr. induction Hr; rewrite Hfix by auto; apply F_true; auto.
  right; split; auto. right; eauto.
Qed.

Lemma fix_fail : forall V k, (forall b, b < n -> V b k = F V b k) ->
  forall b, fail k b -> V b k = false.
Proof.
  intros V k Hfix b Hf. apply not_true_is_false. apply (fail_avoids k (fun c => V c k = true)); auto.
  intros c Hc Hv. apply F_true. rewrite <- Hfix; auto.
Qed.

Definition upd (V : AV) b (v : K -> bool) : AV := fun c k => if Nat.eqb c b then v k else V c k.

Lemma upd_same : forall V b v k, upd V b v b k = v k.
Proof. intros. unfold upd. rewrite Nat.eqb_refl. reflexivity. Qed.
Lemma upd_other : forall V b v c k, c <> b -> upd V b v c k = V c k.
Proof. intros. unfold upd. apply Nat.eqb_neq in H. rewrite H. reflexivity. Qed.

(** the worklist step, specified up to the membership of the queue and the pointwise
    value of the state *)
Inductive astep (b : nat) (q : list nat) (V : AV) (q' : list nat) (V' : AV) : Prop :=
| as_same : (forall k, F V b k = V b k) ->
            (forall c, In c q' <-> In c q /\ c <> b) ->
            (forall c k, V' c k = V c k) -> astep b q V q' V'
| as_chg : (exists k, F V b k <> V b k) ->
           (forall c, In c q' <-> (In c q /\ c <> b) \/ In c (R b)) ->
           (forall c k, V' c k = upd V b (F V b) c k) -> astep b q V q' V'.

(* [ai_out]: a key outside [keys] sits at its start value.  [*_mono]: a key iterated from below is only
   raised by [F], one iterated from above only lowered, so every update moves it one way.  [*_sound]:
   the value has not passed the path solution.  [ai_fix]: a block outside the queue satisfies its equation. *)
Record ainv (q : list nat) (V : AV) : Prop := {
  ai_q : forall b, In b q -> b < n;
  ai_out : forall b k, b < n -> ~ In k keys -> V b k = hi k;
  ai_lo_mono : forall b k, b < n -> hi k = false -> V b k = true -> F V b k = true;
  ai_hi_mono : forall b k, b < n -> hi k = true -> F V b k = true -> V b k = true;
  ai_lo_sound : forall b k, b < n -> hi k = false -> V b k = true -> reach k b;
  ai_hi_sound : forall b k, b < n -> hi k = true -> V b k = false -> fail k b;
  ai_fix : forall b, b < n -> ~ In b q -> forall k, V b k = F V b k }.

Lemma ainv_init : forall V,
  (forall b k, b < n -> hi k = false -> V b k = true -> gen b k = true) ->
  (forall b k, b < n -> hi k = true -> V b k = true) ->
  ainv (seq 0 n) V.
Proof.
  intros V Hlo Hhi. split.
  - intros b Hb. apply in_seq in Hb. lia.
  - intros b k Hb Hk. destruct (hi k) eqn:Hh; auto.
    apply not_true_is_false. intros Hv. apply Hlo in Hv; auto.
    destruct (out_lo k Hk Hh) as [_ Hg]. rewrite Hg in Hv; auto. discriminate.
  - intros b k Hb Hh Hv. apply F_true. auto.
  - auto.
  - intros b k Hb Hh Hv. apply r_gen; auto.
  - intros b k Hb Hh Hv. rewrite Hhi in Hv; auto. discriminate.
  - intros b Hb Hq. exfalso. apply Hq, in_seq. lia.
Qed.

Lemma F_out : forall q V b k, ainv q V -> b < n -> ~ In k keys -> F V b k = hi k.
Proof.
  intros q V b k A Hb Hk.
  assert (HV : forall c, In c (N b) -> V c k = hi k).
  { intros c Hc. apply (ai_out _ _ A); auto. eapply N_wf; eauto. }
  destruct (hi k) eqn:Hh.
  - destruct (out_hi k Hk Hh) as [Hbn Hp]. apply F_true. right. split; auto.
    destruct (N b) as [|c0 l]; [left; auto|]. right. exists c0. split; [left|apply HV; left]; auto.
  - destruct (out_lo k Hk Hh) as [Hbn Hg]. apply F_false. split; auto. right. apply comb_false.
    destruct (N b) as [|c0 l]; [left; auto|]. right. split; [discriminate | exact HV].
Qed.

(** The work-list discipline.  Let an algorithm keep a record [X] of some function [G] of the value that
    reads a block's neighbours only, and refresh it for the block it pops.  Then the record is current for
    every block outside the queue, because a changed block re-queues its readers ([RN]).  With [G := F] the
    record is the value itself (field [ai_fix]); with [G := comb] it is [inflow] below. *)
Definition current (G : AV -> AV) (q : list nat) (V X : AV) : Prop :=
  forall c, c < n -> ~ In c q -> forall k, X c k = G V c k.

Lemma astep_value : forall b q V q' V', astep b q V q' V' -> forall c k, V' c k = upd V b (F V b) c k.
Proof.
  intros b q V q' V' [Hsame _ HV'|_ _ HV'] c k; rewrite HV'; [|reflexivity].
  destruct (Nat.eq_dec c b) as [->|Hne]; [rewrite upd_same; symmetry; apply Hsame | rewrite upd_other; auto].
Qed.

Lemma current_step : forall G : AV -> AV,
  (forall V W c k, (forall c', In c' (N c) -> V c' k = W c' k) -> G V c k = G W c k) ->
  forall b q V q' V' X X', b < n -> astep b q V q' V' -> current G q V X ->
  (forall c k, X' c k = upd X b (G V b) c k) -> current G q' V' X'.
Proof.
  intros G Gloc b q V q' V' X X' Hb Hst HX HX' c Hc Hnq k.
  (* if the value of b changed its readers are in q', and c is not *)
  assert (E : G V' c k = G V c k).
  { destruct Hst as [_ _ HV'|_ Hq' HV']; apply Gloc; intros c' Hc'; rewrite HV'; auto.
    apply upd_other. intros ->. apply Hnq, Hq'. right. apply RN; auto. }
  rewrite E, HX'. destruct (Nat.eq_dec c b) as [->|Hne]; [apply upd_same|].
  rewrite upd_other by auto. apply HX; auto. intros Hq. apply Hnq.
  destruct Hst as [_ Hq' _|_ Hq' _]; apply Hq'; auto.
Qed.

Theorem astep_inv : forall b q V q' V', ainv q V -> In b q -> astep b q V q' V' -> ainv q' V'.
Proof.
  intros b q V q' W A Hbq Hst. pose proof (ai_q _ _ A b Hbq) as Hb. pose proof (astep_value _ _ _ _ _ Hst) as HW.
  (* from below W lies between V and F V, from above between F V and V *)
  assert (Wlo : forall c k, c < n -> hi k = false ->
            (V c k = true -> W c k = true) /\ (W c k = true -> F V c k = true)).
  { intros c k Hc Hh. rewrite HW. destruct (Nat.eq_dec c b) as [->|Hne].
    - rewrite upd_same. split; auto. apply (ai_lo_mono _ _ A); auto.
    - rewrite upd_other by auto. split; auto. apply (ai_lo_mono _ _ A); auto. }
  assert (Whi : forall c k, c < n -> hi k = true ->
            (W c k = true -> V c k = true) /\ (F V c k = true -> W c k = true)).
  { intros c k Hc Hh. rewrite HW. destruct (Nat.eq_dec c b) as [->|Hne].
    - rewrite upd_same. split; auto. apply (ai_hi_mono _ _ A); auto.
    - rewrite upd_other by auto. split; auto. apply (ai_hi_mono _ _ A); auto. }
  split.
  - intros c Hc. destruct Hst as [_ Hq' _|_ Hq' _]; apply Hq' in Hc.
    + apply (ai_q _ _ A), Hc.
    + destruct Hc as [[Hc _]|Hc]; [eapply ai_q; eauto | eapply R_wf; eauto].
  - intros c k Hc Hk. rewrite HW. destruct (Nat.eq_dec c b) as [->|Hne].
    + rewrite upd_same. eapply F_out; eauto.
    + rewrite upd_other; auto. eapply ai_out; eauto.
  - intros c k Hc Hh Hv. apply F_mono with (V := V); auto.
    + intros c' Hc'. apply Wlo; auto.
    + apply Wlo; auto.
  - intros c k Hc Hh Hv. apply Whi; auto. apply F_mono with (V := W); auto.
    intros c' Hc'. apply Whi; auto.
  - intros c k Hc Hh Hv. apply F_reach with V; auto.
    + intros c' Hc'. apply (ai_lo_sound _ _ A); auto.
    + apply Wlo; auto.
  - intros c k Hc Hh Hv. apply F_fail with V; auto.
    + intros c' Hc'. apply (ai_hi_sound _ _ A); auto.
    + apply not_true_is_false. intros HF. apply Whi in HF; auto. congruence.
  - exact (current_step F F_local b q V q' W V W Hb Hst (ai_fix _ _ A) HW).
Qed.

(** An algorithm may also record, each time it pops [b], the value flowing into [b] (the forward
    analysis returns these records, not [V]). *)
Definition inflow : list nat -> AV -> AV -> Prop := current comb.

Lemma inflow_step : forall b q V q' V' r r', b < n -> astep b q V q' V' -> inflow q V r ->
  (forall c k, r' c k = upd r b (comb V b) c k) -> inflow q' V' r'.
Proof. exact (current_step comb comb_local). Qed.

Theorem terminal_char : forall V, ainv [] V -> forall b k, b < n ->
  (hi k = false -> (V b k = true <-> reach k b)) /\
  (hi k = true -> (V b k = false <-> fail k b)).
Proof.
  intros V A b k Hb.
  assert (Hfix : forall b, b < n -> V b k = F V b k) by (intros; eapply ai_fix; eauto).
  split; intros Hh; split; intros H.
  - eapply ai_lo_sound; eauto.
  - eapply fix_reach; eauto.
  - eapply ai_hi_sound; eauto.
  - eapply fix_fail; eauto.
Qed.

Theorem terminal_comb_char : forall V, ainv [] V -> forall b k, b < n ->
  (hi k = false -> (comb V b k = true <-> reach_in k b)) /\
  (hi k = true -> (comb V b k = false <-> fail_in k b)).
Proof.
  intros V A b k Hb. rewrite comb_true, comb_false. unfold reach_in, fail_in.
  assert (TC : forall c, In c (N b) -> _) by (intros c Hc; exact (terminal_char V A c k (N_wf b c Hb Hc))).
  split; intros Hh; split.
  - intros [H|[c [Hc H]]]; [left; exact H | right]. exists c. split; auto. apply (TC c); auto.
  - intros [H|[c [Hc H]]]; [left; exact H | right]. exists c. split; auto. apply (TC c); auto.
  - intros [H|[Hne H]]; [left; exact H | right]. split; auto. intros c Hc. apply (TC c); auto.
  - intros [H|[Hne H]]; [left; exact H | right]. split; auto. intros c Hc. apply (TC c); auto.
Qed.

Theorem terminal_unique : forall V W, ainv [] V -> ainv [] W -> forall b k, b < n -> V b k = W b k.
Proof.
  intros V W AV AW b k Hb.
  destruct (terminal_char V AV b k Hb) as [V0 V1], (terminal_char W AW b k Hb) as [W0 W1].
  destruct (hi k), (W b k) eqn:EW.
  - apply not_false_iff_true. intros EV. apply V1, W1 in EV; auto. congruence.
  - apply V1, W1; auto.
  - apply V0, W0; auto.
  - apply not_true_iff_false. intros EV. apply V0, W0 in EV; auto. congruence.
Qed.

Theorem inflow_char : forall V r, ainv [] V -> inflow [] V r -> forall b k, b < n ->
  (hi k = false -> (r b k = true <-> reach_in k b)) /\
  (hi k = true -> (r b k = false <-> fail_in k b)).
Proof. intros V r A Hr b k Hb. rewrite (Hr b Hb (fun H => H) k). apply terminal_comb_char; auto. Qed.

Theorem inflow_unique : forall V W r r', ainv [] V -> ainv [] W -> inflow [] V r -> inflow [] W r' ->
  forall b k, b < n -> r b k = r' b k.
Proof.
  intros V W r r' AV AW Hr Hr' b k Hb. rewrite (Hr b Hb (fun H => H) k), (Hr' b Hb (fun H => H) k).
  apply comb_local. intros c Hc. apply terminal_unique; auto. eapply N_wf; eauto.
Qed.

(** potential: the number of (block, key) pairs that can still change *)
Definition bad (V : AV) (bk : nat * K) : bool :=
  let (b, k) := bk in if hi k then V b k else negb (V b k).
Definition phi (V : AV) : nat := length (filter (bad V) (list_prod (seq 0 n) keys)).

Lemma phi_ext : forall V W, (forall c k, V c k = W c k) -> phi V = phi W.
Proof.
  intros V W H. unfold phi. f_equal. apply filter_ext. intros [b k]. simpl. rewrite H. reflexivity.
Qed.

Lemma filter_len_le : forall A (f g : A -> bool) l, (forall x, In x l -> f x = true -> g x = true) ->
  length (filter f l) <= length (filter g l).
Proof.
  intros A f g l. induction l as [|x t IH]; intros H; simpl; auto.
  assert (IH' := IH (fun y Hy => H y (or_intror Hy))).
  destruct (f x) eqn:Ef.
  - rewrite (H x (or_introl eq_refl) Ef). simpl. lia.
  - destruct (g x); simpl; lia.
Qed.

Lemma filter_len_lt : forall A (f g : A -> bool) l, (forall x, In x l -> f x = true -> g x = true) ->
  (exists x, In x l /\ f x = false /\ g x = true) ->
  length (filter f l) < length (filter g l).
Proof.
  (* cut the list at the witness *)
  intros A f g l H [y [Hy [Hf Hg]]]. apply in_split in Hy. destruct Hy as [l1 [l2 ->]].
  rewrite !filter_app, !app_length. simpl. rewrite Hf, Hg. simpl.
  pose proof (filter_len_le A f g l1 (fun x Hx => H x (in_or_app _ _ _ (or_introl Hx)))).
  pose proof (filter_len_le A f g l2 (fun x Hx => H x (in_or_app _ _ _ (or_intror (in_cons _ _ _ Hx))))).
  lia.
Qed.

Theorem phi_dec : forall q V b, ainv q V -> b < n -> (exists k, F V b k <> V b k) ->
  phi (upd V b (F V b)) < phi V.
Proof.
  intros q V b A Hb [k Hk]. unfold phi.
  pose proof (ai_lo_mono _ _ A b) as Hlo. pose proof (ai_hi_mono _ _ A b) as Hhi.
  apply filter_len_lt.
  - intros [c x] _. simpl. destruct (Nat.eq_dec c b) as [->|Hne]; [|rewrite upd_other; auto].
    rewrite upd_same. specialize (Hlo x Hb). specialize (Hhi x Hb).
    destruct (hi x); [auto|]. destruct (V b x); [rewrite Hlo|]; auto.
  - assert (Hin : In k keys).
    { destruct (in_dec K_eq_dec k keys) as [|Hn]; auto.
      exfalso. apply Hk. rewrite (F_out _ _ _ _ A Hb Hn). symmetry. apply (ai_out _ _ A); auto. }
    exists (b, k). split; [apply in_prod; auto; apply in_seq; lia|]. simpl. rewrite upd_same.
    specialize (Hlo k Hb). specialize (Hhi k Hb).
    destruct (hi k), (F V b k), (V b k); auto; try (exfalso; apply Hk; reflexivity).
    + specialize (Hhi eq_refl eq_refl). discriminate.
    + specialize (Hlo eq_refl eq_refl). discriminate.
Qed.

Lemma filter_len_bound : forall A (f : A -> bool) l, length (filter f l) <= length l.
Proof. intros A f l. induction l as [|x t IHt]; simpl; auto. destruct (f x); simpl; lia. Qed.

Lemma phi_bound : forall V, phi V <= n * length keys.
Proof.
  intros V. unfold phi. rewrite <- (seq_length n 0) at 2. rewrite <- prod_length.
  apply filter_len_bound.
Qed.

(** The queue counts as the number of blocks in it: like [astep], the measure knows it only up to
    membership.  A changed value may refill it with up to [n] blocks, hence the factor. *)
Definition qsize (q : list nat) : nat := length (filter (fun b => memb b q) (seq 0 n)).
Definition amu (q : list nat) (V : AV) : nat := phi V * (n + 1) + qsize q.

Lemma qsize_bound : forall q, qsize q <= n.
Proof. intros q. unfold qsize. rewrite <- (seq_length n 0) at 2. apply filter_len_bound. Qed.

Theorem astep_lt : forall b q V q' V', ainv q V -> In b q -> astep b q V q' V' -> amu q' V' < amu q V.
Proof.
  intros b q V q' V' A Hb Hst. pose proof (ai_q _ _ A b Hb) as Hbn. unfold amu.
  destruct Hst as [_ Hq' HV'|Hchg _ HV']; rewrite (phi_ext _ _ HV').
  - assert (qsize q' < qsize q); [|lia]. apply filter_len_lt.
    + intros c _ Hc. apply memb_In. apply memb_In, Hq' in Hc. apply Hc.
    + exists b. split; [apply in_seq; lia|]. split; [|apply memb_In; exact Hb].
      apply memb_false. intros H. apply Hq' in H. destruct H as [_ H]. auto.
  - pose proof (phi_dec _ _ _ A Hbn Hchg). pose proof (qsize_bound q').
    assert (S (phi (upd V b (F V b))) * (n + 1) <= phi V * (n + 1)) by (apply Nat.mul_le_mono_r; lia).
    lia.
Qed.

Lemma amu_bound : forall q V, amu q V < fuel_for n (length keys).
Proof.
  intros q V. unfold amu, fuel_for. pose proof (phi_bound V). pose proof (qsize_bound q).
  assert (phi V * (n + 1) <= n * length keys * (n + 1)) by (apply Nat.mul_le_mono_r; auto).
  lia.
Qed.

(** ** a concrete work-list algorithm whose step refines [astep]
    [abs] reads the abstract value off a concrete state, [side] is whatever else the
    concrete state has to satisfy. *)
Section Refine.
Variable St : Type.
Variable step : nat -> St -> St.
Variable queue : St -> list nat.
Variable abs : St -> AV.
Variable side : St -> Prop.
Hypothesis step_refines : forall s b, side s -> b < n ->
  side (step b s) /\ astep b (queue s) (abs s) (queue (step b s)) (abs (step b s)).

Definition rinv (s : St) : Prop := side s /\ ainv (queue s) (abs s).
Definition rmu (s : St) : nat := amu (queue s) (abs s).

Lemma refine_step : forall s b, rinv s -> In b (queue s) ->
  rinv (step b s) /\ rmu (step b s) < rmu s.
Proof.
  intros s b (Hs & A) Hb. destruct (step_refines s b Hs (ai_q _ _ A b Hb)) as (Hs' & Hst).
  split; [split; [exact Hs' | exact (astep_inv _ _ _ _ _ A Hb Hst)] | exact (astep_lt _ _ _ _ _ A Hb Hst)].
Qed.
End Refine.

End Generic.
