(** V.C09.GenericWalks — positive path form of the greatest solution of Generic.v:
    [~ fail k b  <->  reach k b  \/  a walk of n edges from b through passing blocks exists]
    (such a walk closes up into a set of passing blocks with successors inside, which the
    inductive [fail] cannot enter; conversely every block fails, reaches or starts a walk of any
    length). *)
From Coq Require Import List Bool Arith Lia.
From V.C09 Require Import Generic Walks.
Import ListNotations.

Lemma all_or_some : forall (P Q : nat -> Prop) (l : list nat),
  (forall c, In c l -> P c \/ Q c) -> (forall c, In c l -> P c) \/ exists c, In c l /\ Q c.
Proof.
  intros P Q. induction l as [|c t IH]; intros H.
  - left. intros c [].
  - destruct (H c (or_introl eq_refl)) as [Hp|Hq]; [|right; exists c; split; [left|]; auto].
    destruct (IH (fun c' Hc' => H c' (or_intror Hc'))) as [Hall|[c' [Hc' Hq]]].
    + left. intros c' [<-|Hc']; auto.
    + right. exists c'. split; [right|]; auto.
Qed.

Section GW.
Variable K : Type.
Variable n : nat.
Variable N : nat -> list nat.
Variables gen pass : nat -> K -> bool.
Variable bnd : K -> bool.
Hypothesis N_wf : forall b c, b < n -> In c (N b) -> c < n.
Variable k : K.
Notation failk := (fail K n N gen pass bnd k).
Notation reachk := (reach K n N gen pass bnd k).
Hypothesis fail_dec : forall b, b < n -> failk b \/ ~ failk b.
Notation gw := (okwalk n N (fun c => pass c k = true)).

Lemma fail_reach_or_walk : forall j b, b < n ->
  failk b \/ reachk b \/ exists p, length p = j /\ gw b p.
Proof.
  induction j as [|j IH]; intros b Hb;
    (destruct (gen b k) eqn:Eg; [right; left; apply r_gen; auto|]);
    (destruct (pass b k) eqn:Ep; [|left; apply f_intro; auto]).
  - right; right. exists []. split; auto. split; [exact I|]. intros c [<-|[]]. auto.
  - destruct (N b) as [|c0 l] eqn:HN.
    + destruct (bnd k) eqn:Eb; [right; left; apply r_bnd; auto | left; apply f_intro; auto].
    + destruct (all_or_some failk (fun c => reachk c \/ exists p, length p = j /\ gw c p) (N b))
        as [Hall|[c [Hc [Hr|[p [Hl [Hw Hnodes]]]]]]].
      * intros c Hc. apply IH, (N_wf b c Hb Hc).
      * left. apply f_intro; auto. right; right. split; [rewrite HN; discriminate | exact Hall].
      * right; left. apply r_step with c; auto.
      * right; right. exists (c :: p). split; [simpl; auto|]. split; [simpl; auto|].
        intros c' [<-|Hc']; auto.
Qed.

Lemma fail_not_closed : forall b, failk b ->
  forall T, closed n N (fun c => pass c k = true) T -> ~ In b T.
Proof.
  intros b Hf T HT. apply (fail_avoids K n N gen pass bnd k (fun c => In c T)); auto.
  intros c _ Hc. destruct (HT c Hc) as (_ & Hp & c' & HcT & Hc'). right. split; auto. right. exists c'. auto.
Qed.

Lemma walk_not_fail : forall b, reachk b \/ (exists p, length p = n /\ gw b p) -> ~ failk b.
Proof.
  intros b [Hr|[p [Hl Hw]]] Hf.
  - eapply reach_fail_excl; eauto.
  - destruct (long_walk_closed n N _ b p Hw (Nat.eq_le_incl _ _ (eq_sym Hl))) as [T [HbT HT]].
    exact (fail_not_closed b Hf T HT HbT).
Qed.

Theorem not_fail_iff : forall b, b < n ->
  (~ failk b <-> reachk b \/ exists p, length p = n /\ gw b p).
Proof using N_wf fail_dec.
  (* the premise [fail_dec] is not used: [fail_reach_or_walk] decides [fail] *)
  intros b Hb. split; [|apply walk_not_fail].
  intros Hnf. destruct (fail_reach_or_walk n b Hb) as [Hf|H]; [contradiction | exact H].
Qed.

End GW.

(** At an empty work list a key [k] iterated from above is false exactly on [fail], hence true
    exactly on the walk form. *)
Section TerminalWalks.
Variable K : Type.
Variable n : nat.
Variable N : nat -> list nat.
Variables gen pass : nat -> K -> bool.
Variables bnd hi : K -> bool.
Variable keys : list K.
Hypothesis N_wf : forall b c, b < n -> In c (N b) -> c < n.
Variable V : AV K.
Hypothesis A : ainv K n N gen pass bnd hi keys [] V.
Variable k : K.
Hypothesis Hh : hi k = true.
Notation reachk := (reach K n N gen pass bnd k).
Notation gw := (okwalk n N (fun c => pass c k = true)).

Lemma terminal_walk : forall j b, b < n -> V b k = true -> reachk b \/ exists p, length p = j /\ gw b p.
Proof.
  intros j b Hb Hv. destruct (fail_reach_or_walk K n N gen pass bnd N_wf k j b Hb) as [Hf|H]; [|exact H].
  apply (terminal_char K n N gen pass bnd hi keys V A b k Hb) in Hf; congruence.
Qed.

Theorem terminal_walk_char : forall b, b < n ->
  (V b k = true <-> reachk b \/ exists p, length p = n /\ gw b p).
Proof.
  intros b Hb. split; [apply terminal_walk, Hb|].
  intros H. apply not_false_iff_true. intros Hv.
  apply (terminal_char K n N gen pass bnd hi keys V A b k Hb) in Hv; [|exact Hh].
  exact (walk_not_fail K n N gen pass bnd k b H Hv).
Qed.

Theorem inflow_walk_char : forall r, inflow K n N bnd [] V r -> forall b, b < n -> pass b k = true ->
  (r b k = true <-> reach_in K n N gen pass bnd k b \/ exists p, length p = n /\ gw b p).
Proof.
  intros r Hr b Hb Hp. rewrite (Hr b Hb (fun H => H) k), comb_true. split.
  - intros [H|[c [Hc Hv]]]; [left; left; exact H|].
    destruct (terminal_walk (n - 1) c (N_wf b c Hb Hc) Hv) as [Hre|[p [Hl [Hw Hn]]]].
    + left. right. eauto.
    + right. exists (c :: p). split; [simpl; lia|]. split; [simpl; auto|]. intros c' [<-|Hc']; auto.
  - intros [[H|[c [Hc Hre]]]|[p [Hl Hw]]]; [left; exact H | right; exists c | right].
    + split; auto. apply terminal_walk_char; eauto.
    + (* b lies in a closed set; its successor there starts walks of every length *)
      destruct (long_walk_closed n N _ b p Hw (Nat.eq_le_incl _ _ (eq_sym Hl))) as [T [HbT HT]].
      destruct (HT b HbT) as (_ & _ & c & HcT & Hc). exists c. split; auto.
      apply terminal_walk_char; [eauto|]. right. exact (closed_walks n N _ T HT n c HcT).
Qed.
End TerminalWalks.
