(** C09 — Dataflow analyses equal the path-based solution in any visit order.

    Model: V.C09.Analysis (executable, mirrors cfg/analysis.py and CFG.analyze; tied to the
    code by the correspondence harness props/C09).  All positive theorems are about the
    REPAIRED re-queue policy (props/C09/fix-1.patch: dummy neighbours are re-queued too);
    the policy as released in guppylang 0.21.6 is refuted by
    [order_dependent_as_coded_refuted].
    Quantifiers: every finite CFG [g] with in-range successor indices ([wf_cfg]), arbitrary
    use/def sets, dummy edges, unreachable blocks, every initial set, and EVERY pop order:
    [sched_run step queue s s'] holds iff [s'] has an empty work list and is reached from
    [s] by popping, each time, an arbitrary member of the work list.  No size bound.
    Path-based solutions ([live_on_path], [dead_on_all_paths], [unassigned_before],
    [assigned_before], [never_assigned_before]) are defined in Spec.v from the wording of
    the property, without reference to the algorithm. *)
From Coq Require Import List Lia.
From V.C09 Require SetLemmas Generic Walks.
From V.C09 Require Import Analysis Spec ProofsLive ProofsAssign ProofsTop ProofsWalks.
Import ListNotations.

(* whatever the pop order the work list empties; [live_fuel] / [ass_fuel] iterations are
   enough for [run_with], whose result is therefore a terminal state of [sched_run] *)
Theorem run_terminates : forall g, wf_cfg g = true ->
  (forall incl I sched,
     fst (live_run Repaired incl g I sched) = [] /\
     sched_run (live_step Repaired incl g) fst (live_init g I) (live_run Repaired incl g I sched)) /\
  (forall D0 M0 sched,
     fq (ass_run Repaired g D0 M0 sched) = [] /\
     sched_run (ass_step Repaired g D0) fq (ass_init g D0 M0) (ass_run Repaired g D0 M0 sched)).
Proof.
  intros g W. split; intros.
  - apply ProofsLive.live_run_terminates; auto.
  - apply ProofsAssign.ass_run_terminates; auto.
Qed.
Print Assumptions run_terminates.

(* no infinite sequence of pops: the relation is guarded by the invariant [linv], which the initial
   state has and every pop keeps ([live_step_ok]) *)
Theorem live_pops_well_founded : forall incl g I, wf_cfg g = true ->
  Acc (fun s2 s1 => linv incl g I s1 /\ exists b, In b (fst s1) /\ s2 = live_step Repaired incl g b s1)
      (live_init g I).
Proof.
  intros incl g I W. apply (SetLemmas.pops_wf _ _ _ _ _ (live_step_ok incl g I W)).
Qed.
Print Assumptions live_pops_well_founded.

(* x outside the initial set: live before b  <->  x is read on some path from b before being
   reassigned (least solution).
   x in the initial set (the borrowed variables in CFG.analyze): NOT live before b  <->  on
   every path from b, x is reassigned or the path ends before x is read, and no infinite path
   avoids both (greatest solution: the borrowed-variable rule of cfg.py, stated exactly). *)
Theorem live_char : forall incl g I, wf_cfg g = true ->
  forall s', sched_run (live_step Repaired incl g) fst (live_init g I) s' ->
  forall b x, b < nblocks g ->
    (~ In x I -> (In x (getv (snd s') b) <-> live_on_path incl g x b)) /\
    (In x I -> (~ In x (getv (snd s') b) <-> dead_on_all_paths incl g x b)).
Proof. intros incl g I W s' H. apply live_solution, (live_terminal incl g I W s' H). Qed.
Print Assumptions live_char.

(* the property's wording, when nothing is borrowed *)
Corollary live_char_plain : forall incl g, wf_cfg g = true ->
  forall s', sched_run (live_step Repaired incl g) fst (live_init g []) s' ->
  forall b x, b < nblocks g -> (In x (getv (snd s') b) <-> live_on_path incl g x b).
Proof. intros incl g W s' H b x Hb. apply (live_char incl g [] W s' H b x Hb). intros []. Qed.
Print Assumptions live_char_plain.

(* the same with the path written out: p = b1 ... bk, b -> b1 -> ... -> bk flow edges,
   x read in bk, x not assigned in b, b1, ..., b(k-1) *)
Corollary live_char_explicit_paths : forall incl g, wf_cfg g = true ->
  forall s', sched_run (live_step Repaired incl g) fst (live_init g []) s' ->
  forall b x, b < nblocks g ->
    (In x (getv (snd s') b) <-> exists p, live_witness incl g x b p).
Proof. intros. rewrite <- live_on_path_iff_witness. apply live_char_plain; auto. Qed.
Print Assumptions live_char_explicit_paths.

(* pigeonhole: a walk of at least |blocks| edges that never reassigns x revisits a block, so
   such walks exist in every length (an infinite path) *)
Theorem idle_walk_pumping : forall incl g x b p, idle_walk incl g x b p -> nblocks g <= length p ->
  forall k, exists p', length p' = k /\ idle_walk incl g x b p'.
Proof.
  intros incl g x b p H Hl k.
  exact (Walks.pump (nblocks g) (flow_succ incl g) (fun c => ~ In x (b_def (blk g c))) b p H Hl k).
Qed.
Print Assumptions idle_walk_pumping.

(* the initial-set (borrowed variable) rule in positive form *)
Theorem live_char_initial_nwalk : forall incl g I, wf_cfg g = true ->
  forall s', sched_run (live_step Repaired incl g) fst (live_init g I) s' ->
  forall b x, b < nblocks g -> In x I ->
    (In x (getv (snd s') b) <->
     live_on_path incl g x b \/ exists p, length p = nblocks g /\ idle_walk incl g x b p).
Proof.
  intros incl g I W s' H. exact (live_initial_solution incl g I W _ (live_terminal incl g I W s' H)).
Qed.
Print Assumptions live_char_initial_nwalk.

(* equivalently, walks of every length from b that never reassign it (in a finite graph: an infinite
   such path, i.e. the function may loop forever without giving the variable a new value) *)
Theorem live_char_initial_paths : forall incl g I, wf_cfg g = true ->
  forall s', sched_run (live_step Repaired incl g) fst (live_init g I) s' ->
  forall b x, b < nblocks g -> In x I ->
    (In x (getv (snd s') b) <->
     live_on_path incl g x b \/ (forall k, exists p, length p = k /\ idle_walk incl g x b p)).
Proof.
  intros incl g I W s' H b x Hb HI. rewrite (live_char_initial_nwalk incl g I W s' H b x Hb HI).
  split; (intros [Hp|Hw]; [left; exact Hp | right]).
  - destruct Hw as [p [Hl Hw]]. apply (idle_walk_pumping incl g x b p Hw). lia.
  - apply Hw.
Qed.
Print Assumptions live_char_initial_paths.

Theorem live_char_initial_positive : forall incl g I, wf_cfg g = true ->
  forall s', sched_run (live_step Repaired incl g) fst (live_init g I) s' ->
  forall b x, b < nblocks g -> In x I ->
    (live_on_path incl g x b \/ (forall k, exists p, length p = k /\ idle_walk incl g x b p)) ->
    In x (getv (snd s') b).
Proof. intros incl g I W s' H b x Hb HI. apply (live_char_initial_paths incl g I W s' H b x Hb HI). Qed.
Print Assumptions live_char_initial_positive.

(* definitely assigned before b  <->  x is a known variable and NO path from a source (a block
   without predecessors: the entry) to b leaves x unassigned *)
Theorem def_char : forall g D0 M0, wf_cfg g = true ->
  forall s', sched_run (ass_step Repaired g D0) fq (ass_init g D0 M0) s' ->
  forall b x, b < nblocks g ->
    (In x (getv (befD s') b) <-> In x (all_vars g D0) /\ ~ unassigned_before g D0 x b).
Proof.
  intros g D0 M0 W s' H b x Hb. destruct (ass_terminal g D0 M0 W s' H) as [HA HB].
  apply (ass_solution g D0 M0 _ _ _ HA HB b x Hb).
Qed.
Print Assumptions def_char.

(* maybe assigned before b  <->  SOME path into b assigns x (least solution); for the
   variables of maybe_ass_before_entry the greatest solution, stated through its complement *)
Theorem maybe_char : forall g D0 M0, wf_cfg g = true ->
  forall s', sched_run (ass_step Repaired g D0) fq (ass_init g D0 M0) s' ->
  forall b x, b < nblocks g ->
    (~ In x M0 -> (In x (getv (befM s') b) <-> assigned_before g D0 x b)) /\
    (In x M0 -> (~ In x (getv (befM s') b) <-> never_assigned_before g D0 x b)).
Proof.
  intros g D0 M0 W s' H b x Hb. destruct (ass_terminal g D0 M0 W s' H) as [HA HB].
  apply (ass_solution g D0 M0 _ _ _ HA HB b x Hb).
Qed.
Print Assumptions maybe_char.

(* positive form of the greatest solution, for a variable of maybe_ass_before_entry: a backward walk
   of |blocks| edges from b means that b lies on or behind a cycle (an infinite backward path) *)
Theorem maybe_char_initial_nwalk : forall g D0 M0, wf_cfg g = true ->
  forall s', sched_run (ass_step Repaired g D0) fq (ass_init g D0 M0) s' ->
  forall b x, b < nblocks g -> In x M0 ->
    (In x (getv (befM s') b) <->
     assigned_before g D0 x b \/ exists q, length q = nblocks g /\ back_walk g b q).
Proof.
  intros g D0 M0 W s' H. destruct (ass_terminal g D0 M0 W s' H) as [HA HB].
  exact (maybe_initial_solution g D0 M0 _ _ _ HA HB).
Qed.
Print Assumptions maybe_char_initial_nwalk.

Theorem order_independent : forall g, wf_cfg g = true ->
  (forall incl I s1 s2,
     sched_run (live_step Repaired incl g) fst (live_init g I) s1 ->
     sched_run (live_step Repaired incl g) fst (live_init g I) s2 ->
     same_sets (nblocks g) (snd s1) (snd s2)) /\
  (forall D0 M0 s1 s2,
     sched_run (ass_step Repaired g D0) fq (ass_init g D0 M0) s1 ->
     sched_run (ass_step Repaired g D0) fq (ass_init g D0 M0) s2 ->
     same_sets (nblocks g) (befD s1) (befD s2) /\ same_sets (nblocks g) (befM s1) (befM s2)).
Proof.
  (* both terminal states are the one solution of the equations that satisfies the invariant *)
  intros g W. split.
  - intros incl I s1 s2 H1 H2 b x Hb. rewrite <- !SetLemmas.memb_In.
    change (alpha (snd s1) b x = true <-> alpha (snd s2) b x = true).
    rewrite (Generic.terminal_unique _ _ _ _ _ _ _ _ _ _ (live_terminal incl g I W s1 H1)
               (live_terminal incl g I W s2 H2) b x Hb). reflexivity.
  - intros D0 M0 s1 s2 H1 H2.
    destruct (ass_terminal g D0 M0 W s1 H1) as [A1 B1], (ass_terminal g D0 M0 W s2 H2) as [A2 B2].
    exact (ass_solution_unique g D0 M0 _ _ _ _ _ _ A1 A2 B1 B2).
Qed.
Print Assumptions order_independent.

(* CFG.analyze: live_before, ass_before, maybe_ass_before do not depend on the two schedules *)
Theorem cfg_analyze_order_independent : forall g D0 M0 inout, wf_cfg g = true ->
  forall s1 s2 t1 t2,
  let '(l, d, m) := cfg_analyze Repaired g D0 M0 inout s1 s2 in
  let '(l', d', m') := cfg_analyze Repaired g D0 M0 inout t1 t2 in
  same_sets (nblocks g) l l' /\ same_sets (nblocks g) d d' /\ same_sets (nblocks g) m m'.
Proof.
  intros g D0 M0 inout W s1 s2 t1 t2. unfold cfg_analyze, assignment, liveness.
  set (g' := with_exit_uses g inout).
  assert (W' : wf_cfg g' = true) by (apply wf_with_exit_uses; auto).
  rewrite <- (nblocks_with_exit_uses g inout). fold g'.
  destruct (run_terminates g' W') as [TL TA], (order_independent g' W') as [OL OA].
  split; [apply (OL true inout); apply TL | apply (OA D0 M0); apply TA].
Qed.
Print Assumptions cfg_analyze_order_independent.

(* the characterisations for the executable runs; C06 and C08 use these two statements
   (from ProofsTop, under the names *_lemma) *)
Theorem liveness_correct : forall incl g I, wf_cfg g = true -> forall sched b x, b < nblocks g ->
  (~ In x I -> (In x (getv (liveness Repaired incl g I sched) b) <-> live_on_path incl g x b)) /\
  (In x I -> (~ In x (getv (liveness Repaired incl g I sched) b) <-> dead_on_all_paths incl g x b)).
Proof. exact liveness_correct_lemma. Qed.
Print Assumptions liveness_correct.

Theorem assignment_correct : forall g D0 M0, wf_cfg g = true -> forall sched b x, b < nblocks g ->
  (In x (getv (fst (assignment Repaired g D0 M0 sched)) b) <->
     In x (all_vars g D0) /\ ~ unassigned_before g D0 x b) /\
  (~ In x M0 -> (In x (getv (snd (assignment Repaired g D0 M0 sched)) b) <-> assigned_before g D0 x b)) /\
  (In x M0 -> (~ In x (getv (snd (assignment Repaired g D0 M0 sched)) b) <-> never_assigned_before g D0 x b)).
Proof. exact assignment_correct_lemma. Qed.
Print Assumptions assignment_correct.

(* CFG.analyze(D0, M0, inout) = the two analyses on the CFG whose exit reads the borrowed
   variables, liveness started from the borrowed variables, dummy edges included *)
Theorem cfg_analyze_is : forall g D0 M0 inout s1 s2,
  cfg_analyze Repaired g D0 M0 inout s1 s2 =
  (liveness Repaired true (with_exit_uses g inout) inout s1,
   fst (assignment Repaired (with_exit_uses g inout) D0 M0 s2),
   snd (assignment Repaired (with_exit_uses g inout) D0 M0 s2)) /\
  (wf_cfg g = true -> wf_cfg (with_exit_uses g inout) = true) /\
  nblocks (with_exit_uses g inout) = nblocks g.
Proof.
  intros. split; [reflexivity|]. split; [apply wf_with_exit_uses | apply nblocks_with_exit_uses].
Qed.
Print Assumptions cfg_analyze_is.

Definition pue_cfg : cfg :=   (* entry P = 0, exit E = 1, unreachable U = 2 reading x = 7 *)
  [mkBlock [1] [2] [] []; mkBlock [] [] [] []; mkBlock [1] [] [7] []].
Definition pue_fwd : cfg :=   (* P assigns 3, U assigns 4; P ~> U dummy, U -> E *)
  [mkBlock [1] [2] [] [3]; mkBlock [] [] [] []; mkBlock [1] [] [] [4]].

(* with the re-queue AS RELEASED (real neighbours only) two pop orders of the same CFG end
   with an empty work list and different sets: liveness of x before the entry, and the
   definitely-assigned set before the unreachable block *)
Theorem order_dependent_as_coded_refuted :
  (exists g I s1 s2 b x, wf_cfg g = true /\
     fst (live_run Coded true g I s1) = [] /\ fst (live_run Coded true g I s2) = [] /\
     b < nblocks g /\
     ~ In x (getv (liveness Coded true g I s1) b) /\ In x (getv (liveness Coded true g I s2) b)) /\
  (exists g D0 M0 s1 s2 b x, wf_cfg g = true /\
     fq (ass_run Coded g D0 M0 s1) = [] /\ fq (ass_run Coded g D0 M0 s2) = [] /\
     b < nblocks g /\
     ~ In x (getv (fst (assignment Coded g D0 M0 s1)) b) /\ In x (getv (fst (assignment Coded g D0 M0 s2)) b)).
Proof.
  split.
  - exists pue_cfg, [], [0; 0; 0], [2; 1; 0], 0, 7. vm_compute. repeat split; auto; try (intros []).
  - exists pue_fwd, [5], [5; 6], [0; 0; 0; 0; 0], [2; 0; 0; 0; 0], 2, 4. vm_compute. repeat split; auto;
    try (intros [H|[H|[]]]; discriminate).
Qed.
Print Assumptions order_dependent_as_coded_refuted.

(* entry 0 -> loop header 2 -> 2 | 3; block 3 reassigns x = 0 and jumps to the exit 1 *)
Definition borrow_cfg : cfg :=
  [mkBlock [2] [] [] []; mkBlock [] [] [] []; mkBlock [2; 3] [] [] []; mkBlock [1] [] [] [0]].

(* the literal wording ("live = read on some path before being reassigned") fails for a
   borrowed variable that is reassigned after a loop: CFG.analyze reports x = 0 live before
   the loop header 2 although no path from 2 reads x before block 3 reassigns it *)
Theorem live_plain_wording_refuted_for_borrowed :
  exists g inout b x, wf_cfg g = true /\ b < nblocks g /\
    (let '(l, _, _) := cfg_analyze Repaired g [x] [x] inout [] [] in In x (getv l b)) /\
    ~ live_on_path true (with_exit_uses g inout) x b.
Proof.
  exists borrow_cfg, [0], 2, 0. split; [reflexivity|]. split; [vm_compute; auto|]. split.
  - vm_compute. auto.
  - (* started from the empty set the analysis decides the path predicate *)
    intros H. apply (liveness_correct true (with_exit_uses borrow_cfg [0]) [] eq_refl [] 2 0) in H.
    + vm_compute in H. exact H.
    + vm_compute. auto.
    + intros [].
Qed.
Print Assumptions live_plain_wording_refuted_for_borrowed.

(* the hypotheses are satisfiable on a non-trivial instance: a loop 2 -> 2, an `if False`
   dummy edge 0 ~> 4 into unreachable block 4 which jumps into the loop, a borrowed variable 2 *)
Definition ex_cfg : cfg :=
  [mkBlock [2] [4] [] [0]; mkBlock [] [] [] []; mkBlock [2; 3] [] [0] [1];
   mkBlock [1] [] [1] []; mkBlock [2] [] [2] [0]].

Example ex_nontrivial :
  wf_cfg ex_cfg = true /\
  (exists s', sched_run (live_step Repaired true ex_cfg) fst (live_init ex_cfg [2]) s') /\
  (let '(l, d, m) := cfg_analyze Repaired ex_cfg [2] [2] [2] [3; 1; 4; 1; 5] [9; 2; 6] in
   (norm_vals l, norm_vals d, norm_vals m)) =
  ([[2]; [2]; [0; 2]; [1; 2]; [2]],
   [[2]; [0; 1; 2]; [0; 2]; [0; 1; 2]; [0; 2]],
   [[2]; [0; 1; 2]; [0; 1; 2]; [0; 1; 2]; [0; 2]]).
Proof.
  split; [reflexivity|]. split; [|vm_compute; reflexivity].
  eexists. apply (ProofsLive.live_run_terminates true ex_cfg [2] eq_refl [1; 0; 3]).
Qed.
