(** V.C09.Walks — walks in a finite graph.  A walk of at least [n] edges through blocks [< n]
    revisits a block and so yields a [closed] set (every block has a successor inside), and a
    closed set carries walks of every length: [pump]. *)
From Coq Require Import List Arith Lia.
From V.C09 Require Import SetLemmas Spec.
Import ListNotations.

Section Walks.
Variable n : nat.
Variable E : nat -> list nat.
Variable ok : nat -> Prop.

Definition okwalk (b : nat) (p : list nat) : Prop :=
  walk E b p /\ forall c, In c (b :: p) -> c < n /\ ok c.

(* the finite form of an infinite walk *)
Definition closed (T : list nat) : Prop :=
  forall c, In c T -> c < n /\ ok c /\ exists c', In c' T /\ In c' (E c).

Lemma closed_walks : forall T, closed T -> forall k c, In c T -> exists p, length p = k /\ okwalk c p.
Proof.
  intros T HT. induction k as [|k IH]; intros c Hc.
  - exists []. split; auto. split; [exact I|]. intros c0 [<-|[]]. destruct (HT c Hc) as [? [? _]]. auto.
  - destruct (HT c Hc) as [Hcn [Hok [c' [Hc' He]]]]. destruct (IH c' Hc') as [p [Hl [Hw Hn]]].
    exists (c' :: p). split; [simpl; auto|]. split; [simpl; auto|].
    intros c0 [<-|Hin]; auto.
Qed.

(* Pigeonhole.  Follow the walk and remember the blocks left behind: each has a successor among them or was
   followed by the current block [b].  When the next block is a remembered one they form a closed set, and
   with [n] distinct blocks remembered there is no other next block. *)
Lemma walk_closes : forall p b seen, okwalk b p -> NoDup (b :: seen) ->
  (forall c, In c seen -> c < n /\ ok c /\ exists c', In c' (b :: seen) /\ In c' (E c)) ->
  n <= length seen + length p -> exists T, incl (b :: seen) T /\ closed T.
Proof.
  induction p as [|c t IH]; intros b seen [Hw Hn] Hnd Hseen Hlen.
  - exfalso. assert (length (b :: seen) <= n); [|simpl in *; lia].
    apply NoDup_bounded_length; [exact Hnd|].
    intros c [<-|Hc]; [apply Hn; left; reflexivity | apply (Hseen c Hc)].
  - destruct Hw as [Hc Hw].
    assert (Hseen' : forall c0, In c0 (b :: seen) ->
              c0 < n /\ ok c0 /\ exists c', In c' (c :: b :: seen) /\ In c' (E c0)).
    { intros c0 [<-|Hc0].
      - destruct (Hn b (or_introl eq_refl)) as [Hbn Hok]. repeat split; auto. exists c. simpl; auto.
      - destruct (Hseen c0 Hc0) as (Hc0n & Hok & c' & Hc' & He). repeat split; auto. exists c'. simpl; auto. }
    destruct (in_dec Nat.eq_dec c (b :: seen)) as [Hin|Hnin].
    + exists (b :: seen). split; [apply incl_refl|]. intros c0 Hc0.
      destruct (Hseen' c0 Hc0) as (Hc0n & Hok & c' & [<-|Hc'] & He); eauto.
    + destruct (IH c (b :: seen)) as [T [Hsub HT]].
      * split; [exact Hw|]. intros c0 Hc0. apply Hn. right. exact Hc0.
      * constructor; assumption.
      * exact Hseen'.
      * simpl in *. lia.
      * exists T. split; [|exact HT]. intros c0 Hc0. apply Hsub. right. exact Hc0.
Qed.

Lemma long_walk_closed : forall b p, okwalk b p -> n <= length p -> exists T, In b T /\ closed T.
Proof.
  intros b p Hw Hlen.
  destruct (walk_closes p b [] Hw (NoDup_cons b (@in_nil _ b) (NoDup_nil _))) as [T [Hsub HT]];
    [intros c [] | exact Hlen |].
  exists T. split; [apply Hsub; left; reflexivity | exact HT].
Qed.

Theorem pump : forall b p, okwalk b p -> n <= length p ->
  forall k, exists p', length p' = k /\ okwalk b p'.
Proof.
  intros b p Hw Hlen k. destruct (long_walk_closed b p Hw Hlen) as [T [Hb HT]].
  exact (closed_walks T HT k b Hb).
Qed.
End Walks.
