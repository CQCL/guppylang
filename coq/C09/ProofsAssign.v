(** V.C09.ProofsAssign — the assignment model (repaired re-queue) refines the abstract
    system of Generic.v with keys (component, variable): component [true] is
    "NOT definitely assigned after the block", component [false] is "maybe assigned after
    the block".  Termination, path characterisation of the returned vals_before. *)
From Coq Require Import List Bool Arith Lia.
From V.C09 Require Import Analysis SetLemmas Generic Spec.
Import ListNotations.

Lemma forallb_map : forall (A B : Type) (h : A -> B) (f : B -> bool) l,
  forallb f (map h l) = forallb (fun c => f (h c)) l.
Proof. intros. induction l as [|c t IH]; simpl; auto. rewrite IH. reflexivity. Qed.

Lemma memb_joinD : forall AD AM D0 ps x,
  memb x (fst (ass_join AD AM D0 ps)) =
  match ps with [] => memb x D0 | _ => forallb (fun c => memb x (getv AD c)) ps end.
Proof.
  intros AD AM D0 [|p ps'] x; simpl; auto.
  rewrite memb_fold_inter, forallb_map. reflexivity.
Qed.

Lemma memb_joinM : forall AD AM D0 ps x,
  memb x (snd (ass_join AD AM D0 ps)) =
  match ps with [] => memb x D0 | _ => existsb (fun c => memb x (getv AM c)) ps end.
Proof.
  intros AD AM D0 [|p ps'] x; auto. unfold ass_join, snd. apply memb_flat_map.
Qed.

Section Ass.
Variable g : cfg.
Variables D0 M0 : list nat.
Hypothesis W : wf_cfg g = true.

Notation n := (nblocks g).
Definition aK := (bool * nat)%type.
Definition aN := flow_pred true g.
Definition aR := flow_succ true g.
Notation ALL := (all_vars g D0).
Definition agen (b : nat) (k : aK) : bool :=
  let (t, x) := k in if t then false else memb x (b_def (blk g b)).
Definition apass (b : nat) (k : aK) : bool :=
  let (t, x) := k in if t then negb (memb x (b_def (blk g b))) else true.
Definition abnd (k : aK) : bool := let (t, x) := k in if t then negb (memb x D0) else memb x D0.
Definition ahi (k : aK) : bool := let (t, x) := k in if t then negb (memb x ALL) else memb x M0.
Definition avars := ass_vars g D0 M0.
Definition akeys : list aK := map (pair true) avars ++ map (pair false) avars.

Lemma aK_eq_dec : forall a b : aK, {a = b} + {a <> b}.
Proof. decide equality; [apply Nat.eq_dec | apply bool_dec]. Qed.

Lemma akeys_In : forall t x, In x avars -> In (t, x) akeys.
Proof.
  intros t x H. unfold akeys. apply in_app_iff. destruct t; [left|right]; apply in_map; auto.
Qed.

Lemma outside_ALL : forall x, memb x ALL = false ->
  memb x D0 = false /\ forall b, b < n -> memb x (b_def (blk g b)) = false.
Proof.
  intros x HA. apply memb_false in HA. unfold all_vars in HA.
  split; [|intros b Hb]; apply memb_false; intros H; apply HA, in_app_iff.
  - right. exact H.
  - left. apply in_flat_map. exists (blk g b). split; [apply blk_In|]; auto.
Qed.
Lemma ALL_sub_vars : forall x, memb x ALL = true -> In x avars.
Proof. intros x H. unfold avars, ass_vars. apply in_app_iff. left. apply memb_In; auto. Qed.
Lemma M0_sub_vars : forall x, memb x M0 = true -> In x avars.
Proof. intros x H. unfold avars, ass_vars. apply in_app_iff. right. apply memb_In; auto. Qed.

Lemma aN_wf : forall b c, b < n -> In c (aN b) -> c < n.
Proof. intros b c _ H. apply (inv_edges_In n (flow_succ true g) b c), H. Qed.
Lemma aR_wf : forall b c, b < n -> In c (aR b) -> c < n.
Proof. intros b c. apply (wf_succ_lt true g b c W). Qed.
Lemma aRN : forall b c, b < n -> c < n -> In b (aN c) -> In c (aR b).
Proof. intros b c _ _ H. apply (inv_edges_In n (flow_succ true g) c b), H. Qed.

Lemma aout_lo : forall k, ~ In k akeys -> ahi k = false ->
  abnd k = false /\ forall b, b < n -> agen b k = false.
Proof.
  intros [[|] x] Hk Hh; simpl in *.
  - exfalso. apply Hk, akeys_In, ALL_sub_vars. apply negb_false_iff; auto.
  - apply outside_ALL, not_true_is_false. intros E. apply Hk, akeys_In, ALL_sub_vars, E.
Qed.

Lemma aout_hi : forall k, ~ In k akeys -> ahi k = true ->
  abnd k = true /\ forall b, b < n -> apass b k = true.
Proof.
  intros [[|] x] Hk Hh; simpl in *.
  - apply negb_true_iff in Hh. destruct (outside_ALL x Hh) as [HD Hd].
    split; [rewrite HD | intros b Hb; rewrite Hd]; auto.
  - exfalso. apply Hk, akeys_In, M0_sub_vars; auto.
Qed.

Notation aF := (F aK aN agen apass abnd).
Notation acomb := (comb aK aN abnd).
Notation aainv := (ainv aK n aN agen apass abnd ahi akeys).
Notation areach := (reach aK n aN agen apass abnd).
Notation afail := (fail aK n aN agen apass abnd).
Notation aastep := (astep aK aN aR agen apass abnd).
Notation ainflow := (inflow aK n aN abnd).

(* the abstract value of a pair (definitely assigned [d], maybe assigned [m]): key [(true, x)] holds
   when x is NOT in [d], key [(false, x)] when x is in [m] *)
Definition pairv (d m : list nat) (k : aK) : bool :=
  let (t, x) := k in if t then negb (memb x d) else memb x m.
Definition alphaA (AD AM : vals) : AV aK := fun b => pairv (getv AD b) (getv AM b).

Lemma alphaA_setv : forall AD AM b d m v, b < length AD -> b < length AM ->
  (forall k, pairv d m k = v k) ->
  forall c k, alphaA (setv AD b d) (setv AM b m) c k = upd aK (alphaA AD AM) b v c k.
Proof.
  intros AD AM b d m v HD HM Hv c k. unfold alphaA, upd. rewrite !getv_setv by assumption.
  destruct (Nat.eqb c b); [apply Hv | reflexivity].
Qed.

Lemma pairv_same : forall d m d' m', set_eqb d d' && set_eqb m m' = true ->
  forall k, pairv d m k = pairv d' m' k.
Proof.
  intros d m d' m' E [[|] x]; apply andb_true_iff in E; destruct E as [ED EM]; simpl;
    [f_equal|]; apply set_eqb_true; assumption.
Qed.

Lemma pairv_differ : forall d m d' m', set_eqb d d' && set_eqb m m' = false ->
  exists k, pairv d m k <> pairv d' m' k.
Proof.
  intros d m d' m' E. apply andb_false_iff in E.
  destruct E as [E|E]; apply set_eqb_false in E; destruct E as [x Hx];
    [exists (true, x) | exists (false, x)]; simpl; auto.
  intros E. apply Hx. apply (f_equal negb) in E. rewrite !negb_involutive in E. exact E.
Qed.

Lemma join_comb : forall AD AM b k,
  pairv (fst (ass_join AD AM D0 (aN b))) (snd (ass_join AD AM D0 (aN b))) k = acomb (alphaA AD AM) b k.
Proof.
  intros AD AM b [[|] x]; simpl; rewrite ?memb_joinD, ?memb_joinM; unfold comb, abnd, alphaA;
    destruct (aN b) as [|p ps]; try reflexivity. apply negb_forallb.
Qed.

Lemma join_F : forall AD AM b k,
  pairv (fst (ass_join AD AM D0 (aN b)) ++ b_def (blk g b))
        (snd (ass_join AD AM D0 (aN b)) ++ b_def (blk g b)) k = aF (alphaA AD AM) b k.
Proof.
  intros AD AM b [[|] x]; unfold F; rewrite <- join_comb; simpl; rewrite memb_app.
  - rewrite negb_orb. apply andb_comm.
  - apply orb_comm.
Qed.

Definition fabs (s : fstate) : AV aK := alphaA (aftD s) (aftM s).
(** beside the abstract invariant: the returned vals_before of a block outside the work list
    is the join of the current vals_after of its predecessors *)
Definition bef_ok (s : fstate) : Prop :=
  ainflow (fq s) (fabs s) (alphaA (befD s) (befM s)).
Definition fside (s : fstate) : Prop :=
  length (befD s) = n /\ length (befM s) = n /\ length (aftD s) = n /\ length (aftM s) = n /\
  bef_ok s.
Definition finv : fstate -> Prop := rinv aK n aN agen apass abnd ahi akeys fstate fq fabs fside.
Notation fmu := (rmu aK n ahi akeys fstate fq fabs).

Lemma ass_step_refines : forall s b, fside s -> b < n ->
  fside (ass_step Repaired g D0 b s) /\
  aastep b (fq s) (fabs s)
        (fq (ass_step Repaired g D0 b s)) (fabs (ass_step Repaired g D0 b s)).
Proof.
  intros s b (HbD & HbM & HaD & HaM & HB) Hb. unfold ass_step. fold aN.
  pose proof (join_comb (aftD s) (aftM s) b) as HC. pose proof (join_F (aftD s) (aftM s) b) as HF.
  destruct (ass_join (aftD s) (aftM s) D0 (aN b)) as [bd bm]. simpl fst in HC, HF. simpl snd in HC, HF.
  (* vals_before: b gets the join just computed, the other blocks keep theirs *)
  assert (Hside : forall q' AD' AM', length AD' = n -> length AM' = n ->
    aastep b (fq s) (fabs s) q' (alphaA AD' AM') ->
    fside (mkF q' (setv (befD s) b bd) (setv (befM s) b bm) AD' AM')).
  { intros q' AD' AM' HD' HM' Hst. unfold fside; simpl. rewrite !setv_length. repeat (split; [assumption|]).
    apply (inflow_step aK n aN aR agen apass abnd aRN b _ _ _ _ _ _ Hb Hst HB).
    apply alphaA_setv; [lia | lia | exact HC]. }
  destruct (set_eqb _ _ && set_eqb _ _) eqn:E; simpl.
  - assert (Hst : aastep b (fq s) (fabs s) (q_remove b (fq s)) (fabs s)).
    { apply as_same; [|apply q_remove_In|reflexivity]. intros k. rewrite <- HF. apply pairv_same, E. }
    split; [apply Hside; assumption | exact Hst].
  - assert (Hst : aastep b (fq s) (fabs s) (q_add (aR b) (q_remove b (fq s)))
                    (alphaA (setv (aftD s) b (bd ++ b_def (blk g b))) (setv (aftM s) b (bm ++ b_def (blk g b))))).
    { apply as_chg.
      - destruct (pairv_differ _ _ _ _ E) as [k Hk]. exists k. rewrite <- HF. exact Hk.
      - intros c. rewrite q_add_In, q_remove_In. apply or_comm.
      - apply alphaA_setv; [lia | lia | exact HF]. }
    split; [apply Hside; rewrite ?setv_length; assumption | exact Hst].
Qed.

Lemma ass_step_ok : forall s b, finv s -> In b (fq s) ->
  finv (ass_step Repaired g D0 b s) /\ fmu (ass_step Repaired g D0 b s) < fmu s.
Proof.
  exact (refine_step aK aK_eq_dec n aN aR agen apass abnd ahi akeys aN_wf aR_wf aRN aout_lo aout_hi
           fstate (ass_step Repaired g D0) fq fabs fside ass_step_refines).
Qed.

Lemma fabs_init_D : forall b x, b < n -> fabs (ass_init g D0 M0) b (true, x) = negb (memb x ALL).
Proof.
  intros b x Hb. unfold fabs, alphaA, ass_init. simpl.
  rewrite (getv_map block (fun bl => ALL ++ b_def bl) g empty_block b Hb). fold (blk g b).
  rewrite memb_app. destruct (memb x ALL) eqn:E; auto. destruct (outside_ALL x E) as [_ ->]; auto.
Qed.

Lemma fabs_init_M : forall b x, b < n ->
  fabs (ass_init g D0 M0) b (false, x) = memb x M0 || memb x (b_def (blk g b)).
Proof.
  intros b x Hb. unfold fabs, alphaA, ass_init. simpl.
  rewrite (getv_map block (fun bl => M0 ++ b_def bl) g empty_block b Hb). fold (blk g b).
  apply memb_app.
Qed.

Lemma ass_init_inv : finv (ass_init g D0 M0).
Proof.
  split.
  - unfold fside, ass_init; simpl. rewrite !map_length. repeat (split; [reflexivity|]).
    intros b Hb Hq. exfalso. apply Hq, in_seq. lia.
  - apply ainv_init; auto using aout_lo; intros b [[|] x] Hb Hh;
      rewrite ?fabs_init_D, ?fabs_init_M by auto; simpl in *; rewrite Hh; auto.
Qed.

Lemma reach_unass : forall x b, areach (true, x) b <-> unassigned_after g D0 x b.
Proof.
  intros x b. split; intros H.
  - induction H as [b Hb Hg|b Hb Hp HN Hbn|b c Hb Hp Hc Hr IH]; simpl in *.
    + discriminate.
    + apply ua_src; auto; apply memb_false; apply negb_true_iff; auto.
    + apply ua_step with c; auto. apply memb_false; apply negb_true_iff; auto.
  - induction H as [b Hb Hd HN HD|b p Hb Hd Hp Hu IH].
    + apply r_bnd; simpl; auto; apply negb_true_iff; apply memb_false; auto.
    + apply r_step with p; simpl; auto. apply negb_true_iff; apply memb_false; auto.
Qed.

Lemma reach_ass : forall x b, areach (false, x) b <-> assigned_after g D0 x b.
Proof.
  intros x b. split; intros H.
  - induction H as [b Hb Hg|b Hb Hp HN Hbn|b c Hb Hp Hc Hr IH]; simpl in *.
    + apply aa_def; auto. apply memb_In; auto.
    + apply aa_src; auto. apply memb_In; auto.
    + apply aa_step with c; auto.
  - induction H as [b Hb Hd|b Hb HN HD|b p Hb Hp Hu IH].
    + apply r_gen; simpl; auto. apply memb_In; auto.
    + apply r_bnd; simpl; auto. apply memb_In; auto.
    + apply r_step with p; simpl; auto.
Qed.

Lemma fail_never : forall x b, afail (false, x) b <-> never_assigned_after g D0 x b.
Proof.
  intros x. split.
  - intros H. induction H as [b Hb Hg Hd] using fail_ind2. simpl in *.
    apply na; auto. { apply memb_false; auto. }
    destruct Hd as [Hp|[[E Hbn]|[Hne Hall]]].
    + discriminate.
    + left. split; auto. apply memb_false; auto.
    + right. split; auto. intros p Hp. apply Hall; auto.
  - (* structural recursion through the nested [forall p] premise *)
    revert b. fix IH 2. intros b [b' Hb Hd Hc].
    apply f_intro; [exact Hb | apply memb_false; exact Hd |].
    destruct Hc as [[E HD]|[Hne Hall]].
    + right; left. split; [exact E | apply memb_false; exact HD].
    + right; right. split; [exact Hne|]. intros p Hp. apply IH, Hall, Hp.
Qed.

Lemma reach_in_unass : forall x b, reach_in aK n aN agen apass abnd (true, x) b <-> unassigned_before g D0 x b.
Proof.
  intros x b. unfold reach_in, unassigned_before, abnd. fold aN. rewrite negb_true_iff, memb_false.
  split; (intros [H|[p [Hp H]]]; [left; exact H | right; exists p; split; auto; apply reach_unass; auto]).
Qed.

Lemma reach_in_ass : forall x b, reach_in aK n aN agen apass abnd (false, x) b <-> assigned_before g D0 x b.
Proof.
  intros x b. unfold reach_in, assigned_before, abnd. fold aN. rewrite memb_In.
  split; (intros [H|[p [Hp H]]]; [left; exact H | right; exists p; split; auto; apply reach_ass; auto]).
Qed.

Lemma fail_in_never : forall x b, fail_in aK n aN agen apass abnd (false, x) b <-> never_assigned_before g D0 x b.
Proof.
  intros x b. unfold fail_in, never_assigned_before, abnd. fold aN. rewrite memb_false.
  split; (intros [H|[Hne H]]; [left; exact H | right; split; auto; intros p Hp; apply fail_never; auto]).
Qed.

(* an unknown variable counts as not definitely assigned everywhere: nothing stops its key *)
Lemma no_fail_in_outside : forall x b, memb x ALL = false -> ~ fail_in aK n aN agen apass abnd (true, x) b.
Proof.
  intros x b HA. destruct (outside_ALL x HA) as [HD Hd]. intros [[_ Hbn]|[Hne Hall]].
  - simpl in Hbn. rewrite HD in Hbn. discriminate.
  - destruct (aN b) as [|p ps]; [congruence|]. apply (fail_needs_stop aK n aN agen apass abnd (true, x)) with p.
    + simpl. rewrite HD. reflexivity.
    + intros c Hc. simpl. rewrite Hd; auto.
    + apply Hall. left. reflexivity.
Qed.

Theorem ass_solution : forall V BD BM, aainv [] V -> ainflow [] V (alphaA BD BM) -> forall b x, b < n ->
  (In x (getv BD b) <-> In x ALL /\ ~ unassigned_before g D0 x b) /\
  (~ In x M0 -> (In x (getv BM b) <-> assigned_before g D0 x b)) /\
  (In x M0 -> (~ In x (getv BM b) <-> never_assigned_before g D0 x b)).
Proof.
  intros V BD BM HA HB b x Hb.
  assert (TC := fun k => inflow_char aK n aN agen apass abnd ahi akeys aN_wf V _ HA HB b k Hb).
  split; [|split].
  - destruct (TC (true, x)) as [Hlo Hhi]. simpl in Hlo, Hhi.
    rewrite <- reach_in_unass, <- (memb_In x (getv BD b)), <- (memb_In x ALL).
    destruct (memb x ALL) eqn:EA; simpl in *.
    + rewrite <- (Hlo eq_refl), negb_true_iff, not_false_iff_true. tauto.
    + split; [|intros [? _]; discriminate]. intros Hc. exfalso.
      apply (no_fail_in_outside x b EA), (Hhi eq_refl). rewrite Hc. reflexivity.
  - intros HM0. apply memb_false in HM0. destruct (TC (false, x)) as [Hlo _].
    rewrite <- reach_in_ass, <- (Hlo HM0). symmetry. apply memb_In.
  - intros HM0. apply memb_In in HM0. destruct (TC (false, x)) as [_ Hhi].
    rewrite <- fail_in_never, <- (Hhi HM0). symmetry. apply memb_false.
Qed.

Lemma ass_solution_unique : forall V V' BD BM BD' BM', aainv [] V -> aainv [] V' ->
  ainflow [] V (alphaA BD BM) -> ainflow [] V' (alphaA BD' BM') ->
  same_sets n BD BD' /\ same_sets n BM BM'.
Proof.
  intros V V' BD BM BD' BM' HA HA' HB HB'.
  assert (E := inflow_unique aK n aN agen apass abnd ahi akeys aN_wf V V' _ _ HA HA' HB HB').
  split; intros b x Hb; rewrite <- !memb_In.
  - specialize (E b (true, x) Hb). simpl in E.
    rewrite <- (negb_involutive (memb x (getv BD b))), E, negb_involutive. reflexivity.
  - specialize (E b (false, x) Hb). simpl in E. rewrite E. reflexivity.
Qed.

Lemma ass_terminal : forall s', sched_run (ass_step Repaired g D0) fq (ass_init g D0 M0) s' ->
  aainv [] (fabs s') /\ ainflow [] (fabs s') (alphaA (befD s') (befM s')).
Proof.
  intros s' Hrun.
  destruct (sched_run_inv _ _ _ finv fmu ass_step_ok _ _ Hrun ass_init_inv) as [((_ & _ & _ & _ & HB) & HA) Hq].
  unfold bef_ok in HB. rewrite Hq in HA, HB. auto.
Qed.

Theorem ass_run_terminates : forall sched,
  fq (ass_run Repaired g D0 M0 sched) = [] /\
  sched_run (ass_step Repaired g D0) fq (ass_init g D0 M0) (ass_run Repaired g D0 M0 sched).
Proof.
  intros sched. apply (run_with_done _ _ _ finv fmu ass_step_ok); [apply ass_init_inv|].
  unfold ass_fuel. replace (2 * length (ass_vars g D0 M0)) with (length akeys)
    by (unfold akeys, avars; rewrite app_length, !map_length; lia).
  apply amu_bound.
Qed.

End Ass.
