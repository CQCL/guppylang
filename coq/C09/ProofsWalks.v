(** V.C09.ProofsWalks — the inductive path predicates of Spec.v with the paths written out:
    the least-fixpoint case as an explicit witness, the greatest-fixpoint cases in positive
    form with a walk of exactly [nblocks g] edges (pigeonhole: it revisits a block, so it
    is an infinite path). *)
From Coq Require Import List Bool.
From V.C09 Require Import Analysis SetLemmas Generic Spec Walks GenericWalks ProofsLive ProofsAssign.
Import ListNotations.

Lemma last_cons : forall (p : list nat) c b, last (c :: p) b = last p c.
Proof.
  induction p as [|d t IH]; intros c b; [reflexivity|].
  change (last (c :: d :: t) b) with (last (d :: t) b). rewrite (IH d b), (IH d c). reflexivity.
Qed.

Lemma live_witness_cons : forall incl g x b c t,
  live_witness incl g x b (c :: t) <->
  b < nblocks g /\ ~ In x (b_def (blk g b)) /\ In c (flow_succ incl g b) /\ live_witness incl g x c t.
Proof.
  intros. unfold live_witness. rewrite last_cons.
  change (removelast (b :: c :: t)) with (b :: removelast (c :: t)). split.
  - intros [[Hc Hw] [Hn [Hu Hd]]]. repeat split; auto; intros; (apply Hn || apply Hd); simpl; auto.
  - intros [Hb [Hdb [Hc [Hw [Hn [Hu Hd]]]]]]. repeat split; auto; intros c' [<-|Hc']; auto.
Qed.

Theorem live_on_path_iff_witness : forall incl g x b,
  live_on_path incl g x b <-> exists p, live_witness incl g x b p.
Proof.
  intros incl g x b. split.
  - intros H. induction H as [b Hb Hu|b c Hb Hd Hc Hl [p IH]].
    + exists []. split; [exact I|]. split; [intros c [<-|[]]; auto|]. split; [exact Hu | intros c []].
    + exists (c :: p). apply live_witness_cons. auto.
  - intros [p H]. revert b H. induction p as [|c t IH]; intros b H.
    + destruct H as [_ [Hn [Hu _]]]. apply lp_use; [apply Hn; left; auto | exact Hu].
    + apply live_witness_cons in H. destruct H as (Hb & Hd & Hc & H). apply lp_step with c; auto.
Qed.

Lemma okwalk_idle_walk : forall incl g x b p,
  okwalk (nblocks g) (lN incl g) (fun c => lpass g c x = true) b p <-> idle_walk incl g x b p.
Proof.
  intros. unfold okwalk, idle_walk, lN, lpass.
  split; intros [Hw Hn]; (split; [exact Hw|]); intros c Hc; destruct (Hn c Hc) as [Hcn Hd];
    (split; [exact Hcn|]).
  - apply memb_false, negb_true_iff, Hd.
  - apply negb_true_iff, memb_false, Hd.
Qed.

Theorem live_initial_solution : forall incl g I, wf_cfg g = true ->
  forall L, ainv nat (nblocks g) (lN incl g) (lgen g) (lpass g) lbnd (lhi I) (lkeys g I) [] (alpha L) ->
  forall b x, b < nblocks g -> In x I ->
    (In x (getv L b) <->
     live_on_path incl g x b \/ exists p, length p = nblocks g /\ idle_walk incl g x b p).
Proof.
  intros incl g I W L HA b x Hb HI. apply memb_In in HI.
  rewrite <- memb_In, <- reach_live. change (memb x (getv L b)) with (alpha L b x).
  rewrite (terminal_walk_char _ _ _ _ _ _ _ _ (lN_wf incl g W) _ HA x HI b Hb).
  split; (intros [H|[p [Hl Hw]]]; [left; exact H | right; exists p; split; auto; apply okwalk_idle_walk, Hw]).
Qed.

Definition back_walk (g : cfg) (b : nat) (q : list nat) : Prop :=
  walk (flow_pred true g) b q /\ forall c, In c (b :: q) -> c < nblocks g.

Lemma okwalk_back_walk : forall g x b q,
  okwalk (nblocks g) (aN g) (fun c => apass g c (false, x) = true) b q <-> back_walk g b q.
Proof.
  intros g x b q. unfold back_walk, okwalk. split; intros [Hw Hn]; split; auto;
    intros c Hc; try (split; [apply Hn; auto | reflexivity]); apply (Hn c Hc).
Qed.

(* nothing stops the "maybe assigned" key, so the value flowing into b is decided by walks *)
Theorem maybe_initial_solution : forall g D0 M0 V BD BM,
  ainv aK (nblocks g) (aN g) (agen g) (apass g) (abnd D0) (ahi g D0 M0) (akeys g D0 M0) [] V ->
  inflow aK (nblocks g) (aN g) (abnd D0) [] V (alphaA BD BM) ->
  forall b x, b < nblocks g -> In x M0 ->
    (In x (getv BM b) <->
     assigned_before g D0 x b \/ exists q, length q = nblocks g /\ back_walk g b q).
Proof.
  intros g D0 M0 V BD BM HA HB b x Hb HM. apply memb_In in HM.
  rewrite <- memb_In, <- reach_in_ass. change (memb x (getv BM b)) with (alphaA BD BM b (false, x)).
  rewrite (inflow_walk_char _ _ _ _ _ _ _ _ (aN_wf g) _ HA (false, x) HM _ HB b Hb eq_refl).
  split; (intros [H|[q [Hl Hw]]]; [left; exact H | right; exists q; split; auto; apply (okwalk_back_walk g x), Hw]).
Qed.
