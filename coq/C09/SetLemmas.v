(** V.C09.SetLemmas — facts about the list-as-set operations, the work list, [setv]/[getv],
    the edges of a graph and the generic [run_with]/[sched_run] of Analysis.v. *)
From Coq Require Import List Bool Arith Lia.
From V.C09 Require Import Analysis.
Import ListNotations.

Lemma memb_In : forall x l, memb x l = true <-> In x l.
Proof.
  intros x l. unfold memb. rewrite existsb_exists. split.
  - intros [y [Hy E]]. apply Nat.eqb_eq in E. subst; auto.
  - intros H. exists x. split; auto. apply Nat.eqb_refl.
Qed.

Lemma memb_false : forall x l, memb x l = false <-> ~ In x l.
Proof.
  intros x l. split.
  - intros H Hin. apply memb_In in Hin. congruence.
  - intros H. destruct (memb x l) eqn:E; auto. apply memb_In in E. contradiction.
Qed.

Lemma memb_app : forall x a b, memb x (a ++ b) = memb x a || memb x b.
Proof. intros. unfold memb. apply existsb_app. Qed.

Lemma memb_filter : forall x f l, memb x (filter f l) = memb x l && f x.
Proof.
  intros x f l. apply eq_true_iff_eq. rewrite andb_true_iff, !memb_In. apply filter_In.
Qed.

Lemma memb_diff : forall x a b, memb x (diff a b) = memb x a && negb (memb x b).
Proof. intros. unfold diff. apply memb_filter. Qed.

Lemma memb_inter : forall x a b, memb x (inter a b) = memb x a && memb x b.
Proof. intros. unfold inter. apply memb_filter. Qed.

Lemma memb_flat_map : forall x (f : nat -> list nat) l,
  memb x (flat_map f l) = existsb (fun c => memb x (f c)) l.
Proof.
  intros x f l. induction l as [|c t IH]; simpl; auto. rewrite memb_app, IH. reflexivity.
Qed.

Lemma memb_fold_inter : forall x ls a,
  memb x (fold_left inter ls a) = memb x a && forallb (memb x) ls.
Proof.
  intros x ls. induction ls as [|l t IH]; intros a; simpl.
  - rewrite andb_true_r. reflexivity.
  - rewrite IH, memb_inter. rewrite andb_assoc. reflexivity.
Qed.

Lemma subsetb_true : forall a b, subsetb a b = true <-> forall x, memb x a = true -> memb x b = true.
Proof.
  intros a b. unfold subsetb. rewrite forallb_forall. split.
  - intros H x Hx. apply H. apply memb_In; auto.
  - intros H x Hx. apply H. apply memb_In; auto.
Qed.

Lemma set_eqb_true : forall a b, set_eqb a b = true -> forall x, memb x a = memb x b.
Proof.
  intros a b H x. unfold set_eqb in H. apply andb_true_iff in H. destruct H as [H1 H2].
  rewrite subsetb_true in H1, H2. specialize (H1 x). specialize (H2 x).
  destruct (memb x a), (memb x b); auto. symmetry; auto.
Qed.

Lemma negb_forallb : forall (A : Type) (f : A -> bool) l,
  negb (forallb f l) = existsb (fun c => negb (f c)) l.
Proof. intros A f l. induction l as [|c t IH]; simpl; auto. rewrite negb_andb, IH. reflexivity. Qed.

Lemma subsetb_false : forall a b, subsetb a b = false -> exists x, memb x a = true /\ memb x b = false.
Proof.
  intros a b H. unfold subsetb in H. apply (f_equal negb) in H. rewrite negb_forallb in H.
  apply existsb_exists in H. destruct H as [x [Hx Hm]]. exists x.
  split; [apply memb_In, Hx | apply negb_true_iff, Hm].
Qed.

Lemma set_eqb_false : forall a b, set_eqb a b = false -> exists x, memb x a <> memb x b.
Proof.
  intros a b H. unfold set_eqb in H. apply andb_false_iff in H. destruct H as [H|H];
    apply subsetb_false in H; destruct H as [x [H1 H2]]; exists x; congruence.
Qed.

Lemma q_remove_In : forall b q c, In c (q_remove b q) <-> In c q /\ c <> b.
Proof.
  intros. unfold q_remove. rewrite filter_In. rewrite negb_true_iff, Nat.eqb_neq. reflexivity.
Qed.

Lemma q_remove_NoDup : forall b q, NoDup q -> NoDup (q_remove b q).
Proof. intros. unfold q_remove. apply NoDup_filter. assumption. Qed.

Lemma ins_pos_In : forall x l c, In c (ins_pos x l) <-> c = x \/ In c l.
Proof.
  intros x l c. induction l as [|y t IH]; simpl.
  - split; intros [H|[]]; auto.
  - destruct (x <=? y); simpl; rewrite ?IH.
    + split; intros [H|H]; auto.
    + split; intros [H|[H|H]]; auto.
Qed.

Lemma ins_pos_NoDup : forall x l, ~ In x l -> NoDup l -> NoDup (ins_pos x l).
Proof.
  intros x l. induction l as [|y t IH]; intros Hx Hn; simpl.
  - constructor; auto.
  - destruct (x <=? y).
    + constructor; auto.
    + inversion Hn; subst. constructor.
      * rewrite ins_pos_In. intros [->|H]; [apply Hx; left; auto | auto].
      * apply IH; auto. intro; apply Hx; right; auto.
Qed.

Lemma q_ins_In : forall x q c, In c (q_ins x q) <-> c = x \/ In c q.
Proof.
  intros x q c. unfold q_ins. destruct (memb x q) eqn:E.
  - apply memb_In in E. split; auto. intros [->|H]; auto.
  - apply ins_pos_In.
Qed.

Lemma q_ins_NoDup : forall x q, NoDup q -> NoDup (q_ins x q).
Proof.
  intros x q H. unfold q_ins. destruct (memb x q) eqn:E; auto.
  apply ins_pos_NoDup; auto. apply memb_false; auto.
Qed.

Lemma q_add_In : forall l q c, In c (q_add l q) <-> In c l \/ In c q.
Proof.
  intros l. unfold q_add. induction l as [|x t IH]; intros q c; simpl.
  - tauto.
  - rewrite IH, q_ins_In. intuition.
Qed.

Lemma q_add_NoDup : forall l q, NoDup q -> NoDup (q_add l q).
Proof.
  intros l. unfold q_add. induction l as [|x t IH]; intros q H; simpl; auto.
  apply IH. apply q_ins_NoDup; auto.
Qed.

Lemma NoDup_bounded_length : forall q n, NoDup q -> (forall c, In c q -> c < n) -> length q <= n.
Proof.
  intros q n Hn Hb. rewrite <- (seq_length n 0). apply NoDup_incl_length; auto.
  intros c Hc. apply in_seq. specialize (Hb c Hc). lia.
Qed.

Lemma setv_length : forall A (l : list A) i v, length (setv l i v) = length l.
Proof. intros A l. induction l as [|h t IH]; intros [|i] v; simpl; auto. Qed.

Lemma nth_setv : forall A (l : list A) i j v d, i < length l ->
  nth j (setv l i v) d = if Nat.eqb j i then v else nth j l d.
Proof.
  intros A l. induction l as [|h t IH]; intros i j v d Hi; simpl in Hi; [lia|].
  destruct i as [|i], j as [|j]; simpl; auto. apply IH. lia.
Qed.

Lemma getv_setv : forall (L : vals) b c v, b < length L ->
  getv (setv L b v) c = if Nat.eqb c b then v else getv L c.
Proof. intros. unfold getv. apply nth_setv. assumption. Qed.

Lemma getv_map : forall (A : Type) (f : A -> list nat) (g : list A) (d : A) b, b < length g ->
  getv (map f g) b = f (nth b g d).
Proof.
  intros A f g d b Hb. unfold getv. rewrite (nth_indep _ [] (f d)) by (rewrite map_length; auto).
  apply map_nth.
Qed.

Lemma blk_In : forall (g : cfg) b, b < nblocks g -> In (blk g b) g.
Proof. intros. unfold blk. apply nth_In. assumption. Qed.

Lemma wf_succ_lt : forall incl g b c, wf_cfg g = true -> b < nblocks g ->
  In c (flow_succ incl g b) -> c < nblocks g.
Proof.
  intros incl g b c W Hb Hc. unfold wf_cfg in W. rewrite forallb_forall in W.
  specialize (W _ (blk_In g b Hb)). rewrite forallb_forall in W.
  apply Nat.ltb_lt. apply W. unfold flow_succ in Hc. apply in_app_iff in Hc.
  apply in_app_iff. destruct Hc as [Hc|Hc]; auto. destruct incl; [auto | destruct Hc].
Qed.

Lemma inv_edges_In : forall n e b p, In p (inv_edges n e b) <-> p < n /\ In b (e p).
Proof.
  intros. unfold inv_edges. rewrite filter_In, in_seq, memb_In.
  split; intros [H1 H2]; split; auto; lia.
Qed.

Lemma pick_In : forall k q, q <> [] -> In (pick k q) q.
Proof.
  intros k q Hq. unfold pick. apply nth_In. apply Nat.mod_upper_bound.
  destruct q; simpl; [congruence | lia].
Qed.

Section RunLemmas.
Variable St : Type.
Variable step : nat -> St -> St.
Variable queue : St -> list nat.
Variable Inv : St -> Prop.
Variable mu : St -> nat.
Hypothesis Hstep : forall s b, Inv s -> In b (queue s) -> Inv (step b s) /\ mu (step b s) < mu s.

Lemma run_with_done : forall fuel sched s, Inv s -> mu s < fuel ->
  queue (run_with step queue sched fuel s) = [] /\
  sched_run step queue s (run_with step queue sched fuel s).
Proof.
  induction fuel as [|f IH]; intros sched s Hi Hm; [lia|].
  simpl. destruct (queue s) as [|c t] eqn:Eq.
  - split; auto. apply sr_stop; auto.
  - assert (Hin : In (pick (hd 0 sched) (c :: t)) (queue s)).
    { rewrite Eq. apply pick_In. discriminate. }
    destruct (Hstep s _ Hi Hin) as [Hi' Hm'].
    destruct (IH (tl sched) _ Hi') as [H1 H2]; [lia|].
    split; auto. eapply sr_pop; eauto.
Qed.

Lemma sched_run_inv : forall s s', sched_run step queue s s' -> Inv s -> Inv s' /\ queue s' = [].
Proof.
  intros s s' H. induction H as [s Hq | s b s' Hb Hr IH]; intros Hi; auto.
  apply IH. apply Hstep; auto.
Qed.

(** at every state, not only under [Inv]: the guard supplies the invariant wherever a pop is taken *)
Lemma pops_wf : forall s, Acc (fun s2 s1 => Inv s1 /\ exists b, In b (queue s1) /\ s2 = step b s1) s.
Proof.
  intros s. remember (mu s) as m eqn:Em. revert s Em.
  induction m as [m IH] using lt_wf_ind. intros s Em. constructor.
  intros s2 [Hi [b [Hb ->]]]. destruct (Hstep s b Hi Hb) as [_ Hm].
  apply (IH (mu (step b s))); auto. lia.
Qed.
End RunLemmas.
