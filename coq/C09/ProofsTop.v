(** V.C09.ProofsTop — CFG.analyze, and the analyses as C06 / C08 / C10 consume them. *)
From Coq Require Import List Bool Arith.
From V.C09 Require Import Analysis SetLemmas Spec ProofsLive ProofsAssign.

Lemma forallb_setv : forall A (f : A -> bool) l i v, forallb f l = true -> f v = true ->
  forallb f (setv l i v) = true.
Proof.
  intros A f l. induction l as [|h t IH]; intros i v Hl Hv; simpl in *; auto.
  apply andb_true_iff in Hl. destruct Hl as [Hh Ht]. destruct i; simpl; rewrite ?Hh, ?Hv; simpl; auto.
Qed.

Lemma wf_with_exit_uses : forall g inout, wf_cfg g = true -> wf_cfg (with_exit_uses g inout) = true.
Proof.
  intros g inout W. unfold wf_cfg, with_exit_uses. unfold nblocks. rewrite setv_length.
  apply forallb_setv; auto. simpl.
  unfold wf_cfg in W. rewrite forallb_forall in W.
  destruct (Nat.lt_ge_cases exit_idx (length g)) as [Hlt|Hge].
  - apply W. apply blk_In. exact Hlt.
  - unfold blk. rewrite nth_overflow by exact Hge. reflexivity.
Qed.

Lemma nblocks_with_exit_uses : forall g inout, nblocks (with_exit_uses g inout) = nblocks g.
Proof. intros. unfold with_exit_uses, nblocks. apply setv_length. Qed.

Lemma liveness_correct_lemma : forall incl g I, wf_cfg g = true -> forall sched b x, b < nblocks g ->
  (~ In x I -> (In x (getv (liveness Repaired incl g I sched) b) <-> live_on_path incl g x b)) /\
  (In x I -> (~ In x (getv (liveness Repaired incl g I sched) b) <-> dead_on_all_paths incl g x b)).
Proof.
  intros incl g I W sched. destruct (live_run_terminates incl g I W sched) as [_ R].
  apply live_solution, (live_terminal incl g I W _ R).
Qed.

Lemma assignment_correct_lemma : forall g D0 M0, wf_cfg g = true -> forall sched b x, b < nblocks g ->
  (In x (getv (fst (assignment Repaired g D0 M0 sched)) b) <->
     In x (all_vars g D0) /\ ~ unassigned_before g D0 x b) /\
  (~ In x M0 -> (In x (getv (snd (assignment Repaired g D0 M0 sched)) b) <-> assigned_before g D0 x b)) /\
  (In x M0 -> (~ In x (getv (snd (assignment Repaired g D0 M0 sched)) b) <-> never_assigned_before g D0 x b)).
Proof.
  intros g D0 M0 W sched. destruct (ass_run_terminates g D0 M0 W sched) as [_ R].
  destruct (ass_terminal g D0 M0 W _ R) as [HA HB]. exact (ass_solution g D0 M0 _ _ _ HA HB).
Qed.
