(** V.C09.ProofsLive — the liveness model (repaired re-queue) refines the abstract
    system of Generic.v with the variables as keys: a use generates, an assignment stops, nothing
    is live after a block without successors, and the variables of the initial set are iterated
    from above.  Termination, path characterisation. *)
From Coq Require Import List Bool Arith Lia.
From V.C09 Require Import Analysis SetLemmas Generic Spec.
Import ListNotations.

Section Live.
Variable incl : bool.
Variable g : cfg.
Variable I : list nat.
Hypothesis W : wf_cfg g = true.

Notation n := (nblocks g).
Definition lN := flow_succ incl g.
Definition lR := flow_pred incl g.
Definition lgen (b x : nat) := memb x (b_use (blk g b)).
Definition lpass (b x : nat) := negb (memb x (b_def (blk g b))).
Definition lbnd (x : nat) := false.
Definition lhi (x : nat) := memb x I.
Definition lkeys := live_keys g I.

Lemma lN_wf : forall b c, b < n -> In c (lN b) -> c < n.
Proof. intros b c. apply (wf_succ_lt incl g b c W). Qed.
Lemma lR_wf : forall b c, b < n -> In c (lR b) -> c < n.
Proof. intros b c _ H. apply (inv_edges_In n (flow_succ incl g) b c), H. Qed.
Lemma lRN : forall b c, b < n -> c < n -> In b (lN c) -> In c (lR b).
Proof. intros. apply inv_edges_In. auto. Qed.
Lemma lout_lo : forall k, ~ In k lkeys -> lhi k = false ->
  lbnd k = false /\ forall b, b < n -> lgen b k = false.
Proof.
  intros k Hk _. split; auto. intros b Hb. unfold lgen. apply memb_false. intro Hin.
  apply Hk. unfold lkeys, live_keys. apply in_app_iff. right. apply in_flat_map.
  exists (blk g b). split; auto. apply blk_In; auto.
Qed.
Lemma lout_hi : forall k, ~ In k lkeys -> lhi k = true ->
  lbnd k = true /\ forall b, b < n -> lpass b k = true.
Proof.
  intros k Hk Hh. exfalso. apply Hk. unfold lkeys, live_keys. apply in_app_iff. left.
  apply memb_In. exact Hh.
Qed.

Notation lF := (F nat lN lgen lpass lbnd).
Notation lainv := (ainv nat n lN lgen lpass lbnd lhi lkeys).
Definition alpha (L : vals) : AV nat := fun b x => memb x (getv L b).

Lemma transfer_F : forall L b x,
  memb x (live_transfer g b (live_join L (flow_succ incl g b))) = lF (alpha L) b x.
Proof.
  intros L b x. unfold live_transfer, live_join, F, comb, lgen, lpass, lbnd, lN, alpha.
  rewrite memb_app, memb_diff, memb_flat_map. f_equal. rewrite andb_comm. f_equal.
  destruct (flow_succ incl g b); reflexivity.
Qed.

Definition lside (s : bstate) : Prop := length (snd s) = n /\ NoDup (fst s).

Lemma live_step_refines : forall s b, lside s -> b < n ->
  lside (live_step Repaired incl g b s) /\
  astep nat lN lR lgen lpass lbnd b (fst s) (alpha (snd s))
        (fst (live_step Repaired incl g b s)) (alpha (snd (live_step Repaired incl g b s))).
Proof.
  intros [q L] b [HL Hnd] Hb. simpl in HL, Hnd. unfold live_step, lside.
  set (v := live_transfer g b (live_join L (flow_succ incl g b))).
  assert (Hv : forall k, lF (alpha L) b k = memb k v) by (intros; symmetry; apply transfer_F).
  destruct (set_eqb (getv L b) v) eqn:E; simpl.
  - split; [split; [exact HL | apply q_remove_NoDup, Hnd]|]. apply as_same.
    + intros k. rewrite Hv. symmetry. apply set_eqb_true. exact E.
    + intros c. apply q_remove_In.
    + reflexivity.
  - split; [split; [rewrite setv_length; exact HL | apply q_add_NoDup, q_remove_NoDup, Hnd]|].
    apply as_chg.
    + apply set_eqb_false in E. destruct E as [k Hk]. exists k. rewrite Hv. unfold alpha. congruence.
    + intros c. rewrite q_add_In, q_remove_In. apply or_comm.
    + intros c k. unfold upd, alpha. rewrite Hv, getv_setv by lia. destruct (Nat.eqb c b); auto.
Qed.

(* the refinement's invariant [rinv], i.e. [lside s /\ lainv (fst s) (alpha (snd s))], written as the flat
   conjunction that Props.live_pops_well_founded states; [live_step_ok] is [refine_step] re-nested.
   [NoDup] is kept for that statement only: the measure counts the queue by membership ([qsize]) *)
Definition linv (s : bstate) : Prop :=
  length (snd s) = n /\ NoDup (fst s) /\ lainv (fst s) (alpha (snd s)).
Notation lmu := (rmu nat n lhi lkeys bstate fst (fun s => alpha (snd s))).

Lemma live_step_ok : forall s b, linv s -> In b (fst s) ->
  linv (live_step Repaired incl g b s) /\ lmu (live_step Repaired incl g b s) < lmu s.
Proof.
  intros s b (HL & Hnd & A) Hb.
  destruct (refine_step nat Nat.eq_dec n lN lR lgen lpass lbnd lhi lkeys lN_wf lR_wf lRN lout_lo lout_hi
              bstate (live_step Repaired incl g) fst (fun s => alpha (snd s)) lside
              live_step_refines s b (conj (conj HL Hnd) A) Hb) as [[[HL' Hnd'] A'] Hm].
  split; [split; [|split]|]; assumption.
Qed.

Lemma live_init_inv : linv (live_init g I).
Proof.
  assert (HI : forall b, b < n -> getv (map (fun _ : block => I) g) b = I).
  { intros b Hb. rewrite (getv_map block (fun _ => I) g empty_block b Hb). reflexivity. }
  split; [apply map_length | split; [apply seq_NoDup|]].
  apply ainv_init; auto using lout_lo; unfold alpha, lhi; simpl; intros b k Hb Hh; rewrite HI; auto.
  congruence.
Qed.

Lemma reach_live : forall x b, reach nat n lN lgen lpass lbnd x b <-> live_on_path incl g x b.
Proof.
  intros x b. split; intros H.
  - induction H as [b Hb Hg|b Hb Hp HN Hbn|b c Hb Hp Hc Hr IH].
    + apply lp_use; auto. apply memb_In; auto.
    + discriminate.
    + apply lp_step with c; auto. unfold lpass in Hp. apply negb_true_iff in Hp. apply memb_false; auto.
  - induction H as [b Hb Hu|b c Hb Hd Hc Hl IH].
    + apply r_gen; auto. apply memb_In; auto.
    + apply r_step with c; auto. unfold lpass. apply negb_true_iff, memb_false; auto.
Qed.

Lemma fail_live : forall x b, fail nat n lN lgen lpass lbnd x b <-> dead_on_all_paths incl g x b.
Proof.
  intros x. split.
  - intros H. induction H as [b Hb Hg Hd] using fail_ind2.
    apply dp; auto. { apply memb_false; auto. }
    destruct Hd as [Hp|[[E _]|[_ Hall]]].
    + left. unfold lpass in Hp. apply negb_false_iff in Hp. apply memb_In; auto.
    + right. intros c Hc. unfold lN in E. rewrite E in Hc. destruct Hc.
    + right. intros c Hc. apply Hall; auto.
  - (* structural recursion through the nested [forall c] premise *)
    revert b. fix IH 2. intros b [b' Hb Hu Hd].
    apply f_intro; [exact Hb | apply memb_false; exact Hu |].
    destruct Hd as [Hd|Hall].
    + left. unfold lpass. apply negb_false_iff, memb_In; exact Hd.
    + right. destruct (lN b') as [|c0 l] eqn:E; [left; split; reflexivity | right].
      split; [discriminate|]. rewrite <- E. intros c Hc. apply IH, Hall, Hc.
Qed.

Lemma live_solution : forall L, lainv [] (alpha L) -> forall b x, b < n ->
  (~ In x I -> (In x (getv L b) <-> live_on_path incl g x b)) /\
  (In x I -> (~ In x (getv L b) <-> dead_on_all_paths incl g x b)).
Proof.
  intros L HA b x Hb.
  destruct (terminal_char nat n lN lgen lpass lbnd lhi lkeys _ HA b x Hb) as [Hlo Hhi].
  split; intros HI.
  - rewrite <- reach_live, <- Hlo; [|apply memb_false; auto]. unfold alpha. symmetry. apply memb_In.
  - rewrite <- fail_live, <- Hhi; [|apply memb_In; auto]. unfold alpha. symmetry. apply memb_false.
Qed.

Lemma live_terminal : forall s', sched_run (live_step Repaired incl g) fst (live_init g I) s' ->
  lainv [] (alpha (snd s')).
Proof.
  intros s' Hrun.
  destruct (sched_run_inv _ _ _ linv lmu live_step_ok _ _ Hrun live_init_inv) as [[_ [_ HA]] Hq].
  rewrite <- Hq. exact HA.
Qed.

Theorem live_run_terminates : forall sched,
  fst (live_run Repaired incl g I sched) = [] /\
  sched_run (live_step Repaired incl g) fst (live_init g I) (live_run Repaired incl g I sched).
Proof.
  intros sched. apply (run_with_done _ _ _ linv lmu live_step_ok); [apply live_init_inv|].
  apply amu_bound.
Qed.

End Live.
