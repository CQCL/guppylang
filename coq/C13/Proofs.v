(** C13 — lemmas about the de Bruijn algebra of [Model.v].
    The one induction over terms is [hom_ext]: two maps that commute with the constructors agree on the
    terms scoped by n once they agree on the variables below n; the laws of [insf] are instances.
    [ip_loop_spec] reads the loop of instantiate_partial as the pair ([ip_full], [remaining_spec]);
    [Section View] proves the composition law once, for the identity and for [erase].  Then the rank
    equations, the marking of partially_monomorphize_args as a single [mark_vars], and the return wires
    of an instantiated signature. *)
From Coq Require Import List Bool Arith Lia.
From V.C13 Require Import Model.
Import ListNotations.

Section TmInd.
  Variable P : tm -> Prop.
  Hypothesis HVar : forall i cp dr, P (TVar i cp dr).
  Hypothesis HNum : forall k, P (TNum k).
  Hypothesis HNone : forall p, P (TNone p).
  Hypothesis HTup : forall ts p, Forall P ts -> P (TTup ts p).
  Hypothesis HOpq : forall d args, Forall P args -> P (TOpq d args).
  Hypothesis HFun : forall ins fl out, Forall P ins -> P out -> P (TFun ins fl out).
  Hypothesis HCVal : forall t v, P t -> P (CVal t v).
  Hypothesis HCVar : forall t i, P t -> P (CVar t i).
  Fixpoint tm_ind' (t : tm) : P t :=
    let go := fix go (l : list tm) : Forall P l :=
      match l with [] => Forall_nil P | x :: l' => Forall_cons x (tm_ind' x) (go l') end in
    match t with
    | TVar i cp dr => HVar i cp dr
    | TNum k => HNum k
    | TNone p => HNone p
    | TTup ts p => HTup ts p (go ts)
    | TOpq d args => HOpq d args (go args)
    | TFun ins fl out => HFun ins fl out (go ins) (tm_ind' out)
    | CVal t v => HCVal t v (tm_ind' t)
    | CVar t i => HCVar t i (tm_ind' t)
    end.
End TmInd.

Lemma map_ext_forallb {A B} (f g : A -> B) (b : A -> bool) l :
  Forall (fun x => b x = true -> f x = g x) l -> forallb b l = true -> map f l = map g l.
Proof.
  induction 1; simpl; intros H1; auto.
  apply andb_true_iff in H1. destruct H1. f_equal; auto.
Qed.

(* F leaves TNum / TNone alone and commutes with TTup, TOpq, TFun; what it does on variables and on
   constant values is open ([inst s], [erase], [subst r], compositions of these) *)
Definition hom (F : tm -> tm) : Prop :=
  (forall k, F (TNum k) = TNum k) /\ (forall p, F (TNone p) = TNone p) /\
  (forall ts p, F (TTup ts p) = TTup (map F ts) p) /\
  (forall d a, F (TOpq d a) = TOpq d (map F a)) /\
  (forall ins fl out, F (TFun ins fl out) = TFun (map F ins) fl (F out)).

Lemma hom_inst s : hom (inst s).
Proof. repeat split. Qed.

Lemma hom_comp F G : hom F -> hom G -> hom (fun t => F (G t)).
Proof.
  intros (F1 & F2 & F3 & F4 & F5) (G1 & G2 & G3 & G4 & G5).
  repeat split; intros; rewrite ?G1, ?G2, ?G3, ?G4, ?G5, ?F1, ?F2, ?F3, ?F4, ?F5, ?map_map; auto.
Qed.

Lemma hom_id : hom (fun t => t).
Proof. repeat split; intros; now rewrite map_id. Qed.

(* v is a type variable or a const variable (whatever its annotation) with index i *)
Definition var_at (i : nat) (v : tm) : Prop :=
  match v with TVar j _ _ | CVar _ j => j = i | _ => False end.

Lemma hom_ext n F G : hom F -> hom G ->
  (forall i v, i < n -> var_at i v -> F v = G v) -> (forall t v, F (CVal t v) = G (CVal t v)) ->
  forall t, scoped n t = true -> F t = G t.
Proof.
  intros (F1 & F2 & F3 & F4 & F5) (G1 & G2 & G3 & G4 & G5) HV HC.
  induction t using tm_ind'; simpl; intros S; auto.
  - apply (HV i); simpl; auto. now apply Nat.ltb_lt.
  - now rewrite F1, G1.
  - now rewrite F2, G2.
  - rewrite F3, G3. f_equal. eapply map_ext_forallb; eauto.
  - rewrite F4, G4. f_equal. eapply map_ext_forallb; eauto.
  - apply andb_true_iff in S. destruct S. rewrite F5, G5. f_equal; auto. eapply map_ext_forallb; eauto.
  - apply andb_true_iff in S. destruct S as [S _]. apply (HV i); simpl; auto. now apply Nat.ltb_lt.
Qed.

Lemma insf_var l i v d : i < length l -> var_at i v -> insf l v = nth i l d.
Proof.
  intros L V. destruct v; destruct V; unfold insf; simpl;
    now rewrite nth_error_map, (nth_error_nth' l d L).
Qed.

(* composition of instantiations as a map [E] that commutes with the constructors shows it: [l12] need
   only look like [l1] instantiated by [l2] *)
Lemma insf_compose_hom E l1 l2 l12 : hom E -> map E l12 = map E (map (insf l2) l1) ->
  forall t, scoped (length l1) t = true -> E (insf l12 t) = E (insf l2 (insf l1 t)).
Proof.
  intros HE R.
  apply (hom_ext _ (fun t => E (insf l12 t)) (fun t => E (insf l2 (insf l1 t)))); try reflexivity.
  - apply hom_comp; [exact HE | apply hom_inst].
  - apply hom_comp; [exact HE | apply hom_comp; apply hom_inst].
  - intros i v L V. rewrite (insf_var l1 i v (TNone false) L V), (insf_var l12 i v (TNone false)); auto.
    + rewrite <- (map_nth E), R, (map_nth E). f_equal. exact (map_nth (insf l2) l1 (TNone false) i).
    + apply (f_equal (@length _)) in R. rewrite !map_length in R. now rewrite R.
Qed.

Lemma insf_compose : forall l1 l2 t, scoped (length l1) t = true ->
  insf l2 (insf l1 t) = insf (map (insf l2) l1) t.
Proof. intros l1 l2 t S. symmetry. now apply (insf_compose_hom (fun t => t) l1 l2 _ hom_id). Qed.

Lemma inst_closed : forall s t, scoped 0 t = true -> inst s t = t.
Proof.
  intros s. apply (hom_ext 0 (inst s) (fun t => t)); try reflexivity.
  - apply hom_inst.
  - apply hom_id.
  - intros; lia.
Qed.

Lemma insf_closed l t : scoped 0 t = true -> insf l t = t.
Proof. apply inst_closed. Qed.

Lemma insf_app_len : forall pre ext t n, length pre = n -> scoped n t = true ->
  insf (pre ++ ext) t = insf pre t.
Proof.
  intros pre ext t n <-. revert t.
  apply (hom_ext _ (insf (pre ++ ext)) (insf pre)); try reflexivity; try apply hom_inst.
  intros i v L V. rewrite (insf_var pre i v (TNone false) L V), (insf_var _ i v (TNone false)); auto.
  - now apply app_nth1.
  - rewrite app_length. lia.
Qed.

(* the instantiation [ip_loop] builds: the given arguments, and for each unspecialised parameter its
   bound variable renumbered from k *)
Fixpoint ip_full (ps : list param) (args : list (option tm)) (k : nat) : list tm :=
  match ps, args with
  | p :: ps', None :: args' => to_bound (with_idx k p) :: ip_full ps' args' (S k)
  | p :: ps', Some x :: args' => set_preserve x :: ip_full ps' args' k
  | _, _ => []
  end.

Lemma sp_to_bound p : set_preserve (to_bound p) = to_bound p.
Proof. destruct p; reflexivity. Qed.

Lemma remaining_spec_none p ps a F k :
  remaining_spec (p :: ps) (None :: a) F k
  = inst_bounds (map Some F) (with_idx k p)
    :: remaining_spec ps a (F ++ [to_bound (with_idx k p)]) (S k).
Proof. destruct p; reflexivity. Qed.

Lemma ip_loop_spec : forall ps args F R,
  ip_loop ps args F R = (F ++ ip_full ps args (length R), R ++ remaining_spec ps args F (length R)).
Proof.
  induction ps as [|p ps IH]; intros [|[x|] args] F R;
    rewrite ?remaining_spec_none; simpl; rewrite ?app_nil_r; auto.
  - rewrite IH. now rewrite <- !app_assoc.
  - rewrite IH, sp_to_bound, app_length, Nat.add_1_r. now rewrite <- !app_assoc.
Qed.

Lemma instantiate_partial_eq f a :
  instantiate_partial f a
  = let full := ip_full (f_params f) a 0 in
    mkF (map (insf full) (f_ins f)) (f_fl f) (insf full (f_out f))
        (remaining_spec (f_params f) a [] 0) (map (insf full) (f_cargs f)).
Proof. unfold instantiate_partial. now rewrite ip_loop_spec. Qed.

Lemma ip_full_length : forall ps a k, length a = length ps -> length (ip_full ps a k) = length ps.
Proof.
  induction ps as [|p ps IH]; intros [|[x|] a] k L; simpl in *; try discriminate; auto.
Qed.

Lemma ip_loop_all : forall ps args F R, length args = length ps ->
  ip_loop ps (map Some args) F R = (F ++ map set_preserve args, R).
Proof.
  induction ps as [|p ps IH]; intros [|x args] F R L; simpl in *; try discriminate.
  - now rewrite app_nil_r.
  - rewrite IH by lia. now rewrite <- app_assoc.
Qed.

(* a given argument is closed, so that a later step leaves it alone ([follows_arg]); the arguments of a
   monomorphization are (compiler/core.py partially_monomorphize_args asserts it of its result) *)
Definition arg_closed (o : option tm) : bool :=
  match o with Some x => scoped 0 x | None => true end.

Lemma set_preserve_scoped : forall n a, scoped n a = true -> scoped n (set_preserve a) = true.
Proof. destruct a; simpl; auto. Qed.

Lemma wf_params_cons k p ps : wf_params k (p :: ps) = true ->
  (match p with PCon _ t _ => scoped k t = true | _ => True end) /\ wf_params (S k) ps = true.
Proof.
  simpl. intros H. apply andb_true_iff in H. destruct H as [H H2].
  apply andb_true_iff in H. destruct H as [_ H1]. destruct p; auto.
Qed.

Lemma insf_mid F x X v : var_at (length F) v -> insf (F ++ x :: X) v = x.
Proof.
  intros V. rewrite (insf_var _ (length F) v x); auto using nth_middle.
  rewrite app_length. simpl. lia.
Qed.

Lemma snoc_app {A} (l : list A) x l' : l ++ x :: l' = (l ++ [x]) ++ l'.
Proof. now rewrite <- app_assoc. Qed.

Lemma length_snoc {A} (l : list A) x n : length l = n -> length (l ++ [x]) = S n.
Proof. intros <-. apply last_length. Qed.

Section View.
  (* Two-step and one-step partial instantiation are compared under a view [E] of terms: the identity
     (for parameters [okp] with closed const type) or [erase] (for all).  Needed of [E]: it commutes with
     the constructors, so that instantiations seen through it are compared on variables alone, and it does
     not show whether the annotation of a parameter's bound variable has been instantiated. *)
  Variable E : tm -> tm.
  Variable okp : param -> bool.
  Hypothesis E_hom : hom E.
  Hypothesis E_rebound : forall k k' s p, okp p = true ->
    E (to_bound (with_idx k (inst_bounds s (with_idx k' p)))) = E (to_bound (with_idx k p)).

  Definition view_param (p : param) : param :=
    match p with PTy _ _ _ => p | PCon i t c => PCon i (E t) c end.
  (* [erase_fty] is, up to conversion, this at [erase] *)
  Definition view_fty (f : fty) : fty :=
    mkF (map E (f_ins f)) (f_fl f) (E (f_out f)) (map view_param (f_params f)) (map E (f_cargs f)).

  (* the instantiations accumulated by the first step (F1, over its remaining parameters), by the second
     (F2, one entry for each of those) and by the one-step run (F12): F12 is F1 followed by F2, and
     stays so however F2 is extended *)
  Definition follows F1 F2 F12 :=
    forall X, map E F12 = map E (map (insf (F2 ++ X)) F1).

  Lemma follows_insf F1 F2 F12 : follows F1 F2 F12 -> forall t, scoped (length F1) t = true ->
    E (insf F12 t) = E (insf F2 (insf F1 t)).
  Proof.
    intros R. specialize (R []). rewrite app_nil_r in R. now apply insf_compose_hom.
  Qed.

  Lemma follows_arg F1 F2 F12 x : follows F1 F2 F12 -> scoped 0 x = true ->
    follows (F1 ++ [x]) F2 (F12 ++ [x]).
  Proof.
    intros R Cx X. rewrite !map_app, (R X). simpl. now rewrite insf_closed.
  Qed.

  Lemma follows_var F1 F2 F12 p z c : follows F1 F2 F12 -> E c = E z ->
    follows (F1 ++ [to_bound (with_idx (length F2) p)]) (F2 ++ [z]) (F12 ++ [c]).
  Proof.
    intros R Ec X. rewrite !map_app, <- app_assoc. simpl.
    rewrite <- R, Ec, insf_mid; auto. now destruct p.
  Qed.

  (* The three runs of [ip_loop] after the same prefix of the parameters: n1 parameters are behind, k1 of
     them remain after the first step, k2 after both. *)
  Lemma compose_view : forall ps a1 a2 n1 k1 F1 F2 F12 k2,
    wf_params n1 ps = true -> forallb okp ps = true -> forallb arg_closed a1 = true ->
    length a1 = length ps -> length a2 = length (filter is_none a1) ->
    length F1 = n1 -> length F2 = k1 -> follows F1 F2 F12 ->
    follows (F1 ++ ip_full ps a1 k1) (F2 ++ ip_full (remaining_spec ps a1 F1 k1) a2 k2)
            (F12 ++ ip_full ps (compose_args a1 a2) k2)
    /\ map view_param (remaining_spec ps (compose_args a1 a2) F12 k2)
       = map view_param (remaining_spec (remaining_spec ps a1 F1 k1) a2 F2 k2).
  Proof.
    induction ps as [|p ps IH]; intros a1 a2 n1 k1 F1 F2 F12 k2 WF OK CA L1 L2 N1 K1 R.
    - destruct a1; [|discriminate]. destruct a2; [|discriminate]. simpl. now rewrite !app_nil_r.
    - apply wf_params_cons in WF. destruct WF as [Wp WF].
      simpl in OK. apply andb_true_iff in OK. destruct OK as [Op OK].
      destruct a1 as [|[x|] a1]; [discriminate| |]; simpl in CA, L1, L2.
      + apply andb_true_iff in CA. destruct CA as [Cx CA]. apply (set_preserve_scoped 0) in Cx.
        simpl. rewrite (snoc_app F1), (snoc_app F12). apply IH with (n1 := S n1); auto using follows_arg, length_snoc.
      + destruct a2 as [|y a2]; [discriminate|]. cbn [compose_args]. rewrite remaining_spec_none.
        subst k1. destruct y as [z|]; rewrite ?remaining_spec_none; simpl;
          rewrite (snoc_app F1), (snoc_app F2), (snoc_app F12).
        * apply IH with (n1 := S n1); auto using follows_var, length_snoc.
        * (* both sides put out a remaining parameter: the heads are compared by [follows_insf], the tails
             by the induction hypothesis *)
          destruct (IH a1 a2 (S n1) (S (length F2)) (F1 ++ [to_bound (with_idx (length F2) p)])
                       (F2 ++ [to_bound (with_idx k2 (inst_bounds (map Some F1) (with_idx (length F2) p)))])
                       (F12 ++ [to_bound (with_idx k2 p)]) (S k2)) as [I1 I2];
            auto using follows_var, length_snoc, eq_sym, E_rebound.
          split; [exact I1|]. f_equal; [|exact I2].
          destruct p as [|i t c]; simpl; auto. f_equal. apply follows_insf; auto. now rewrite N1.
  Qed.

  Lemma ip_compose_view f a1 a2 :
    wf_fty f = true -> forallb okp (f_params f) = true -> forallb arg_closed a1 = true ->
    length a1 = length (f_params f) -> length a2 = length (filter is_none a1) ->
    view_fty (instantiate_partial (instantiate_partial f a1) a2)
    = view_fty (instantiate_partial f (compose_args a1 a2)).
  Proof.
    intros WF OK CA L1 L2. unfold wf_fty in WF. repeat (apply andb_true_iff in WF; destruct WF as [WF ?]).
    destruct (compose_view (f_params f) a1 a2 0 0 [] [] [] 0) as [R E2]; auto.
    { now intros X. }
    pose proof (follows_insf _ _ _ R) as K. simpl in K. rewrite ip_full_length in K by exact L1.
    rewrite !instantiate_partial_eq. unfold view_fty. simpl. symmetry.
    f_equal; auto; rewrite !map_map; eapply map_ext_forallb; eauto; apply Forall_forall; auto.
  Qed.

End View.

Lemma view_id f : view_fty (fun t => t) f = f.
Proof.
  destruct f as [ins fl out ps cs]. unfold view_fty. simpl. rewrite !map_id. f_equal.
  rewrite <- (map_id ps) at 2. apply map_ext. now intros [].
Qed.

Lemma erase_sp a : erase (set_preserve a) = set_preserve (erase a).
Proof. destruct a; reflexivity. Qed.

Lemma rank_S {A} (m : list (option A)) i :
  rank m (S i) = rank m i + match nth_error m i with Some None => 1 | _ => 0 end.
Proof.
  unfold rank. revert i. induction m as [|x m IH]; intros [|i]; simpl; auto.
  - destruct x; simpl; auto.
  - specialize (IH i). destruct x; simpl in *; lia.
Qed.

Lemma rank_mono {A} (m : list (option A)) i j : i <= j -> rank m i <= rank m j.
Proof. induction 1; auto. rewrite rank_S. lia. Qed.

Lemma rank_strict {A} (m : list (option A)) i j :
  i < j -> nth_error m i = Some None -> rank m i < rank m j.
Proof.
  intros L E. apply Nat.lt_le_trans with (rank m (S i)).
  - rewrite rank_S, E. lia.
  - apply rank_mono. lia.
Qed.

Lemma rank_total {A} (m : list (option A)) :
  rank m (length m) = length (filter is_none m).
Proof. unfold rank. now rewrite firstn_all. Qed.

Lemma rank_lt_total {A} (m : list (option A)) i :
  nth_error m i = Some None -> rank m i < length (filter is_none m).
Proof.
  intros E. rewrite <- rank_total. apply rank_strict; auto.
  apply nth_error_Some. congruence.
Qed.

Lemma rank_onto {A} (m : list (option A)) j k :
  k < rank m j -> exists i, nth_error m i = Some None /\ rank m i = k.
Proof.
  induction j as [|j IH]; [unfold rank; simpl; lia|].
  rewrite rank_S. intros L. destruct (Nat.lt_ge_cases k (rank m j)) as [|G]; auto.
  exists j. destruct (nth_error m j) as [[a|]|]; try lia. split; auto. lia.
Qed.

Lemma map_sel {A B} (f : A -> B) keep l fl : map f (sel keep l fl) = sel keep (map f l) fl.
Proof.
  revert fl. induction l as [|x l IH]; intros [|b fl]; simpl; auto.
  destruct (keep b); simpl; now rewrite IH.
Qed.

Lemma set_nth_length {A} (l : list A) i x : length (set_nth l i x) = length l.
Proof. revert i; induction l; destruct i; simpl; auto. Qed.

Lemma nth_error_set_nth {A} (l : list A) i x j :
  nth_error (set_nth l i x) j
  = if i =? j then option_map (fun _ => x) (nth_error l j) else nth_error l j.
Proof.
  revert i j; induction l as [|a l IH]; intros [|i] [|j]; simpl; auto.
  now destruct (i =? j).
Qed.

Lemma nth_error_mark_vars args vs : forall mono j,
  nth_error (mark_vars args vs mono) j
  = if existsb (Nat.eqb j) vs then option_map (fun _ => nth_error args j) (nth_error mono j)
    else nth_error mono j.
Proof.
  unfold mark_vars. induction vs as [|v vs IH]; simpl; intros mono j; auto.
  rewrite IH, nth_error_set_nth, (Nat.eqb_sym v j).
  destruct (j =? v) eqn:J; simpl; auto.
  apply Nat.eqb_eq in J. subst v.
  destruct (existsb (Nat.eqb j) vs), (nth_error mono j); reflexivity.
Qed.

(* the positions parameter p has marked: the whole marking is one [mark_vars] over these *)
Definition marks (args : list tm) (p : param) : list nat :=
  match p with
  | PCon j oty _ => (if is_nat oty then [] else bound_vars oty) ++ (if is_nat (insf args oty) then [] else [j])
  | _ => []
  end.

Lemma mark_vars_app args v1 v2 mono :
  mark_vars args (v1 ++ v2) mono = mark_vars args v2 (mark_vars args v1 mono).
Proof. apply fold_left_app. Qed.

Lemma pma_step_marks args mono p a :
  (forall i t c, p = PCon i t c -> nth_error args i = Some a) ->
  pma_step args mono (p, a) = mark_vars args (marks args p) mono.
Proof.
  intros HA. unfold pma_step, marks. simpl. destruct p as [|i t c]; auto.
  rewrite mark_vars_app, <- (HA i t c eq_refl). destruct (is_nat t), (is_nat (insf args t)); reflexivity.
Qed.

Lemma pma_fold_marks args : forall ps l mono, length ps = length l ->
  Forall (fun pa => forall i t c, fst pa = PCon i t c -> nth_error args i = Some (snd pa)) (combine ps l) ->
  fold_left (pma_step args) (combine ps l) mono = mark_vars args (flat_map (marks args) ps) mono.
Proof.
  induction ps as [|p ps IH]; intros [|a l] mono L HF; simpl in *; try discriminate; auto.
  inversion HF; subst. rewrite mark_vars_app, <- (pma_step_marks args mono p a); auto.
Qed.

Lemma needs_mono_marks args j ps : existsb (Nat.eqb j) (flat_map (marks args) ps) = needs_mono ps args j.
Proof.
  induction ps as [|p ps IH]; simpl; auto. rewrite existsb_app, IH. f_equal.
  destruct p as [|i t c]; simpl; auto. rewrite existsb_app.
  destruct (is_nat t), (is_nat (insf args t)); simpl; rewrite ?orb_false_r; auto.
Qed.

Lemma ip_full_one_wire : forall ps a k, Forall (fun t => pack_returns_consumes t = 1) (ip_full ps a k).
Proof.
  induction ps as [|p ps IH]; intros [|[x|] a] k; simpl; try constructor; auto.
  - destruct x as [| |[|]|? [|]| | | |]; reflexivity.
  - destruct p; reflexivity.
Qed.

Lemma consumes_insf : forall full t,
  Forall (fun a => pack_returns_consumes a = 1) full ->
  pack_returns_consumes (insf full t) = declared_outs t.
Proof.
  intros full t ST. rewrite Forall_forall in ST. unfold insf, declared_outs.
  destruct t as [i cp dr| |[|]|ts [|]| | | |ty i]; simpl; auto.
  - rewrite nth_error_map. destruct (nth_error full i) eqn:E; simpl; eauto using nth_error_In.
  - now rewrite map_length.
  - rewrite nth_error_map. destruct (nth_error full i) eqn:E; simpl; eauto using nth_error_In.
Qed.
