(** C14 — lemmas about Model.v, whose rules are the generated text of GenTyTable.v: a rule changed
    in /repo changes that text, and the lemma that depended on it stops checking.
    In order: what `info` computes, i.e. the one-step rule of the classification and Guppy's own
    `hugr_bound`; what follows from such a rule for any classification; the translation to HUGR, one
    definition of the table at a time; the syntactic side condition `nophantomb`; the drop pass as
    two nested sweeps. *)
From Coq Require Import List Bool String NArith Arith Lia.
From V.C14 Require Import Base GenTyTable Model.
Import ListNotations.
Open Scope string_scope.
Open Scope list_scope.

Arguments lookup_def : simpl never.

Section ty_ind_nested.
  Variable P : ty -> Prop.
  Hypothesis Hnone : P TNone.
  Hypothesis Hnum : forall k, P (TNum k).
  Hypothesis Hvar : forall i c d, P (TVar i c d).
  Hypothesis Hfun : forall ins out, Forall P ins -> P out -> P (TFun ins out).
  Hypothesis Htuple : forall els, Forall P els -> P (TTuple els).
  Hypothesis Hopaque : forall n args, Forall P (type_args args) -> P (TOpaque n args).
  Hypothesis Hstruct : forall s args fields, Forall P (type_args args) -> Forall P fields -> P (TStruct s args fields).

  Fixpoint ty_ind' (t : ty) : P t :=
    let list_rec := (fix go (l : list ty) : Forall P l :=
                       match l with [] => Forall_nil P | x :: r => Forall_cons x (ty_ind' x) (go r) end) in
    let args_rec := (fix go (l : list (arg ty)) : Forall P (type_args l) :=
                       match l return Forall P (type_args l) with
                       | [] => Forall_nil P
                       | ATy x :: r => Forall_cons x (ty_ind' x) (go r)
                       | AConst _ :: r => go r
                       | AConstVar _ :: r => go r
                       end) in
    match t with
    | TNone => Hnone
    | TNum k => Hnum k
    | TVar i c d => Hvar i c d
    | TFun ins out => Hfun ins out (list_rec ins) (ty_ind' out)
    | TTuple els => Htuple els (list_rec els)
    | TOpaque n args => Hopaque n args (args_rec args)
    | TStruct s args fields => Hstruct s args fields (args_rec args) (list_rec fields)
    end.
End ty_ind_nested.

Lemma components_Forall : forall (P : ty -> Prop) t,
  match t with
  | TTuple els => Forall P els
  | TOpaque _ args => Forall P (type_args args)
  | TStruct _ args fields => Forall P (type_args args) /\ Forall P fields
  | _ => True end -> Forall P (components t).
Proof. destruct t; simpl; auto. intros [A B]. apply Forall_app; auto. Qed.

Lemma components_ind : forall P : ty -> Prop,
  (forall t, Forall P (components t) -> P t) -> forall t, P t.
Proof. intros P step t. induction t using ty_ind'; apply step, components_Forall; auto. Qed.

Lemma forallb_map : forall {A B} (f : A -> B) (g : B -> bool) l, forallb g (map f l) = forallb (fun x => g (f x)) l.
Proof. induction l; simpl; auto. rewrite IHl; auto. Qed.

Lemma forallb_type_args : forall (f : ty -> bool) args,
  forallb (fun a => match a with ATy c => f c | _ => true end) args = forallb f (type_args args).
Proof. induction args as [|[] r IH]; simpl; rewrite ?IH; reflexivity. Qed.

Lemma existsb_type_args : forall (f : ty -> bool) args,
  existsb (fun a => match a with ATy c => f c | _ => false end) args = existsb f (type_args args).
Proof. induction args as [|[] r IH]; simpl; rewrite ?IH; reflexivity. Qed.

(* the generated `all(not isinstance(arg, TypeArg) or arg.ty.X for arg in args)` *)
Lemma all_types : forall (g : argview -> bool) av,
  forallb (fun a => negb (av_is_type a) || g a) av = forallb g (filter av_is_type av).
Proof. induction av as [|[] r IH]; simpl; rewrite ?IH; reflexivity. Qed.

Lemma types_of_args : forall args,
  filter av_is_type (map (arg_view info) args) = map (fun t => AVType (info t)) (type_args args).
Proof. induction args as [|[] r IH]; simpl; rewrite ?IH; reflexivity. Qed.

Lemma types_of_els : forall els : list ty,
  filter av_is_type (map (fun e => AVType (info e)) els) = map (fun t => AVType (info t)) els.
Proof. induction els as [|a r IH]; simpl; rewrite ?IH; reflexivity. Qed.

Lemma lookup_def_Forall : forall (P : string -> odef -> Prop) defs, Forall (fun d => P (od_name d) d) defs ->
  forall name d, lookup_def defs name = Some d -> P name d.
Proof.
  unfold lookup_def. induction 1 as [|x r Hx _ IH]; intros name d H; [discriminate|].
  destruct (String.eqb (od_name x) name) eqn:E; [|exact (IH _ _ H)].
  apply String.eqb_eq in E. inversion H; subst. exact Hx.
Qed.

(* the intrinsic rules of the property text; and no definition overrides the HUGR bound *)
Definition def_rules (name : string) (d : odef) : Prop :=
  od_never_copyable d = (String.eqb name "qubit" || String.eqb name "array") /\
  od_never_droppable d = String.eqb name "qubit" /\ od_bound d = None.

Lemma table_matches_rules : Forall (fun d => def_rules (od_name d) d) gen_opaque_defs.
Proof. repeat (constructor; [vm_compute; auto|]). constructor. Qed.

Definition known_def_rules := lookup_def_Forall def_rules _ table_matches_rules.

Definition flags_of (a : arg ty) : option (bool * bool) :=
  match a with ATy c => Some (copyable c, droppable c) | _ => None end.

Lemma wfb_opaque : forall name args, wfb (TOpaque name args) = true ->
  exists d, lookup_def gen_opaque_defs name = Some d /\ the_def name = d /\
            args_fit (od_params d) (map flags_of args) = true.
Proof.
  intros name args H. simpl in H. apply andb_prop in H as [_ H].
  unfold the_def. destruct (lookup_def gen_opaque_defs name) as [d|]; [|discriminate]. eauto.
Qed.

Lemma wfb_components : forall t, wfb t = true -> forallb wfb (components t) = true.
Proof.
  destruct t; simpl; auto; rewrite forallb_type_args.
  - intros H. apply andb_prop in H as [H _]. exact H.
  - rewrite forallb_app, andb_comm. auto.
Qed.

(* The head's own flag as the generated table has it (for an opaque type, the row of its definition).
   [info_spec] is stated with these; [table_heads] turns them into the name tests [head_copy] / [head_drop]. *)
Definition table_copy (t : ty) : bool :=
  match t with TOpaque name _ => negb (od_never_copyable (the_def name)) | _ => head_copy t end.
Definition table_drop (t : ty) : bool :=
  match t with TOpaque name _ => negb (od_never_droppable (the_def name)) | _ => head_drop t end.

Lemma the_def_bound : forall name, od_bound (the_def name) = None.
Proof.
  intros. unfold the_def. destruct (lookup_def gen_opaque_defs name) eqn:L; [|reflexivity].
  exact (proj2 (proj2 (known_def_rules _ _ L))).
Qed.

Definition bound_of (c : bool) : bound := if c then Copyable else Linear.

Lemma bound_of_iff : forall b c, b = bound_of c -> (b = Copyable <-> c = true).
Proof. intros b [] ->; simpl; split; auto; discriminate. Qed.

(* TypeBase.hugr_bound: Linear if linear or affine *)
Lemma base_bound : forall c d : bool,
  (if (negb c && negb d) || (negb c && d) then Linear else Copyable) = bound_of c.
Proof. destruct c, d; reflexivity. Qed.

Lemma bound_join_cons : forall b bs,
  bound_join (b :: bs) = if is_linear_bound b then Linear else bound_join bs.
Proof. intros. unfold bound_join. simpl. destruct (is_linear_bound b); reflexivity. Qed.

Lemma bound_join_of : forall {A} (f : A -> bool) l,
  bound_join (map (fun x => bound_of (f x)) l) = bound_of (forallb f l).
Proof.
  induction l as [|x r IH]; [reflexivity|]. rewrite map_cons, bound_join_cons, IH. simpl.
  destruct (f x); reflexivity.
Qed.

(* ParametrizedTypeBase of tys/ty.py with the subclass's intrinsic flags [ic], [id].  TupleType, OpaqueType and
   StructType take the three properties from it (OpaqueType puts its definition's `bound`, if set, before the
   inherited `hugr_bound`); the generator prints the inherited bodies once per subclass. *)
Definition parametrized (ic id : bool) (av : list argview) : tinfo :=
  let c := ic && forallb (fun a => negb (av_is_type a) || av_copyable a) av in
  let d := id && forallb (fun a => negb (av_is_type a) || av_droppable a) av in
  mkInfo c d (bound_join ((if (negb c && negb d) || (negb c && d) then Linear else Copyable)
                          :: map av_hugr_bound (filter av_is_type av))).

Definition bound_ok (t : ty) : Prop := hugr_bound t = bound_of (copyable t).

Lemma parametrized_spec : forall ic id av ts,
  filter av_is_type av = map (fun t => AVType (info t)) ts -> Forall bound_ok ts ->
  parametrized ic id av =
  mkInfo (ic && forallb copyable ts) (id && forallb droppable ts) (bound_of (ic && forallb copyable ts)).
Proof.
  intros ic id av ts V IH. unfold parametrized. rewrite !all_types, V, !forallb_map, map_map, base_bound. f_equal.
  change (bound_join (bound_of (ic && forallb copyable ts) :: map hugr_bound ts) = bound_of (ic && forallb copyable ts)).
  (* a copyable type has only copyable type arguments, so the join adds nothing *)
  rewrite (map_ext_Forall _ _ IH), bound_join_cons, bound_join_of.
  destruct ic, (forallb copyable ts); reflexivity.
Qed.

Lemma info_bound : forall t c d, info t = mkInfo c d (bound_of c) -> bound_ok t.
Proof. unfold bound_ok, hugr_bound, copyable. intros t c d ->. reflexivity. Qed.

Lemma info_spec : forall t,
  info t = mkInfo (table_copy t && forallb copyable (components t)) (table_drop t && forallb droppable (components t))
                  (bound_of (table_copy t && forallb copyable (components t))).
Proof.
  induction t as [t IH] using components_ind.
  apply (Forall_impl _ (fun c => info_bound c _ _)) in IH.
  destruct t as [| k | i c d | ins out | els | name args | s args fields]; try reflexivity.
  - destruct c, d; reflexivity.
  - exact (parametrized_spec true true _ els (types_of_els els) IH).
  - simpl. unfold gen_OpaqueType_hugr_bound. rewrite the_def_bound.
    exact (parametrized_spec _ _ _ _ (types_of_args args) IH).
  - simpl in IH |- *. apply Forall_app in IH as [_ IH].
    rewrite !forallb_app, <- (forallb_map info ti_copyable), <- (forallb_map info ti_droppable).
    exact (parametrized_spec _ _ _ _ (types_of_args args) IH).
Qed.

Lemma copyable_step t : copyable t = table_copy t && forallb copyable (components t).
Proof. exact (f_equal ti_copyable (info_spec t)). Qed.
Lemma droppable_step t : droppable t = table_drop t && forallb droppable (components t).
Proof. exact (f_equal ti_droppable (info_spec t)). Qed.
Lemma hugr_bound_copyable t : hugr_bound t = bound_of (copyable t).
Proof. exact (info_bound t _ _ (info_spec t)). Qed.

(* Well-formedness meets the classification here and nowhere else: a known definition's flags are
   the name tests of the property text. *)
Lemma table_heads : forall t, wfb t = true -> table_copy t = head_copy t /\ table_drop t = head_drop t.
Proof.
  destruct t; try (split; reflexivity). intros W.
  destruct (wfb_opaque _ _ W) as (d & L & D & _). destruct (known_def_rules _ _ L) as (Hc & Hd & _).
  simpl. rewrite D, Hc, Hd, negb_orb. split; reflexivity.
Qed.

Lemma occurs_inherits : forall P : ty -> bool,
  (forall t, P t = true -> forallb P (components t) = true) ->
  forall s t, occurs s t -> P t = true -> P s = true.
Proof.
  intros P down. induction 1 as [|s c t Hc _ IH]; auto. intros H.
  exact (IH (proj1 (forallb_forall _ _) (down t H) c Hc)).
Qed.

(* A classification that obeys a one-step rule — head allows it and all components have it —
   is the absence of a forbidding head anywhere inside. *)
Section Structural.
  Variables cls head : ty -> bool.
  Hypothesis step : forall t, cls t = head t && forallb cls (components t).

  Lemma cls_down : forall t, cls t = true -> forallb cls (components t) = true.
  Proof. intros t C. rewrite step in C. apply andb_prop in C. tauto. Qed.

  Definition cls_occurs := occurs_inherits cls cls_down.

  Lemma cls_leaves : forall t, cls t = true <-> forall s, occurs s t -> head s = true.
  Proof.
    intros t. split.
    - intros C s O. pose proof (cls_occurs _ _ O C) as Cs. rewrite step in Cs. apply andb_prop in Cs. tauto.
    - induction t as [t IH] using components_ind. intros Hs.
      rewrite step, (Hs _ (occ_here _)). apply forallb_forall. intros c Hc.
      apply (proj1 (Forall_forall _ _) IH c Hc). intros s O. exact (Hs s (occ_in s c t Hc O)).
  Qed.

  Variable text : ty -> bool.
  Hypothesis agree : forall t, wfb t = true -> head t = text t.

  Theorem structural : forall t, wfb t = true ->
    (cls t = true <-> text t = true /\ Forall (fun c => cls c = true) (components t)) /\
    (cls t = true <-> forall s, occurs s t -> text s = true).
  Proof.
    intros t W. split.
    - rewrite step, (agree t W), andb_true_iff, forallb_forall, Forall_forall. tauto.
    - rewrite cls_leaves. split; intros H s O; specialize (H s O);
        rewrite (agree s (occurs_inherits wfb wfb_components s t O W)) in *; exact H.
  Qed.
End Structural.

Lemma tb_tuple : forall hs, type_bound (h_tuple hs) = bound_join (map type_bound hs).
Proof. intros. unfold h_tuple. simpl. rewrite app_nil_r. reflexivity. Qed.

Lemma tb_option : forall h, type_bound (h_option h) = type_bound h.
Proof. intros. unfold h_option, bound_join. simpl. destruct (type_bound h); reflexivity. Qed.

Lemma tb_list : forall h, type_bound (HExt "collections.list.List" [HTy h]) = type_bound h.
Proof. intros. unfold bound_join. simpl. destruct (type_bound h); reflexivity. Qed.

Lemma tb_barray : forall a h, type_bound (HExt "collections.borrow_arr.borrow_array" [a; HTy h]) = Linear.
Proof. reflexivity. Qed.

Lemma tb_static : forall h, type_bound (HExt "collections.static_array.static_array" [HTy h]) = Copyable.
Proof. reflexivity. Qed.

Lemma rd_tuple : forall hs, requires_drop (h_tuple hs) = existsb requires_drop hs.
Proof.
  intros. unfold h_tuple. simpl. unfold gen_requires_drop_Sum. simpl. rewrite app_nil_r.
  induction hs; simpl; auto. rewrite IHhs. reflexivity.
Qed.

Lemma rd_option : forall h, requires_drop (h_option h) = requires_drop h.
Proof. intros. unfold h_option. simpl. unfold gen_requires_drop_Sum. simpl. rewrite orb_false_r. reflexivity. Qed.

Lemma rd_list : forall h, requires_drop (HExt "collections.list.List" [HTy h]) = requires_drop h.
Proof. intros. simpl. unfold gen_requires_drop_ExtType. simpl. rewrite orb_false_r. reflexivity. Qed.

Lemma rd_barray : forall a h, requires_drop (HExt "collections.borrow_arr.borrow_array" [a; HTy h]) = true.
Proof. reflexivity. Qed.

Lemma rd_static : forall h, requires_drop (HExt "collections.static_array.static_array" [HTy h]) = requires_drop h.
Proof. intros. simpl. unfold gen_requires_drop_ExtType. simpl. rewrite orb_false_r. reflexivity. Qed.

(* What the HUGR type [h] of a Guppy type with flags copyable = [c], droppable = [d] has to satisfy:
   hugr-py's bound is Copyable iff [c]; [requires_drop] only if not [c]; and always if affine. *)
Definition Qb (c d : bool) (h : hty) : Prop :=
  type_bound h = bound_of c /\
  (requires_drop h = true -> c = false) /\
  (c = false -> d = true -> requires_drop h = true).

Lemma Qb_copyable : forall d h, type_bound h = Copyable -> requires_drop h = false -> Qb true d h.
Proof. intros d h B R. unfold Qb. rewrite B, R. repeat split; intros; discriminate. Qed.

Lemma Qb_linear : forall d h, type_bound h = Linear -> (d = true -> requires_drop h = true) -> Qb false d h.
Proof. intros d h B R. unfold Qb. rewrite B. auto. Qed.

Lemma Qb_same : forall c d h h', type_bound h' = type_bound h -> requires_drop h' = requires_drop h ->
  Qb c d h -> Qb c d h'.
Proof. intros c d h h' B R. unfold Qb. rewrite B, R. auto. Qed.

Definition translates (t : ty) : Prop :=
  exists h, to_hugr t = Some h /\ Qb (copyable t) (droppable t) h.

Lemma fields_translate : forall ts, Forall translates ts ->
  exists hs, all_some (map to_hugr ts) = Some hs /\
    Qb (forallb copyable ts) (forallb droppable ts) (h_tuple hs).
Proof.
  unfold Qb. induction 1 as [|t r (h & E & B & S & C) _ (hs & Ehs & IB & IS & IC)].
  - exists []. repeat split; intros; discriminate.
  - exists (h :: hs). split; [simpl; rewrite E, Ehs; reflexivity|].
    rewrite tb_tuple in IB |- *. rewrite rd_tuple in IS, IC |- *. simpl. repeat split.
    + rewrite bound_join_cons, B, IB. destruct (copyable t); reflexivity.
    + intros R. apply orb_prop in R as [R|R]; [rewrite (S R) | rewrite (IS R), andb_false_r]; reflexivity.
    + intros Hc Hd. apply andb_prop in Hd as [D1 D2]. destruct (copyable t) eqn:Ct.
      * rewrite (IC Hc D2). apply orb_true_r.
      * rewrite (C eq_refl D1). reflexivity.
Qed.

Lemma Qb_fields : forall c d c' d' h, Qb c' d' h -> c = c' -> (d = true -> d' = true) -> Qb c d h.
Proof. intros c d c' d' h (B & S & K) -> D. unfold Qb. auto. Qed.

Lemma Forall_type_args_1 : forall (P : ty -> Prop) t r, Forall P (type_args (ATy t :: r)) -> P t.
Proof. intros P t r H. simpl in H. inversion H; auto. Qed.

Definition carg_of (a : arg ty) : option carg :=
  match a with
  | ATy t => option_map (fun h => CTy h (linear t)) (to_hugr t)
  | AConst n => Some (CConst (HNat n))
  | AConstVar i => Some (CConst (HNatVar i))
  end.

Lemma to_hugr_opaque : forall name args,
  to_hugr (TOpaque name args) =
  match all_some (map carg_of args) with
  | Some cs => match lookup_def gen_opaque_defs name with Some d => od_to_hugr d cs | None => None end
  | None => None
  end.
Proof. reflexivity. Qed.

(* What is left of a definition's `to_hugr` function [f] once some arguments are consumed: [ps] the
   parameters still to come, [ic], [id] the intrinsic flags met with those of the type arguments consumed. *)
Definition args_translate (ps : list param) (ic id : bool) (f : list carg -> option hty) : Prop := forall args,
  args_fit ps (map flags_of args) = true -> Forall translates (type_args args) ->
  exists cs h, all_some (map carg_of args) = Some cs /\ f cs = Some h /\
    Qb (ic && forallb copyable (type_args args)) (id && forallb droppable (type_args args)) h.

Definition def_translates (d : odef) : Prop :=
  args_translate (od_params d) (negb (od_never_copyable d)) (negb (od_never_droppable d)) (od_to_hugr d).

(* One lemma per kind of parameter; a row of the table composes them along its parameter list. *)
Lemma args_done : forall ic id f h, f [] = Some h -> Qb ic id h -> args_translate [] ic id f.
Proof.
  intros ic id f h E q [|a r] AF _; [|discriminate]. exists [], h. simpl. rewrite !andb_true_r. auto.
Qed.

Lemma args_type : forall mc md ps ic id f,
  (forall h c d, implb mc c = true -> implb md d = true -> Qb c d h ->
     args_translate ps (ic && c) (id && d) (fun cs => f (CTy h (negb c && negb d) :: cs))) ->
  args_translate (PType mc md :: ps) ic id f.
Proof.
  intros mc md ps ic id f H [|[t|n|i] r] AF TR; try discriminate. simpl in AF, TR.
  apply andb_prop in AF as [M AF]. apply andb_prop in M as [Mc Md].
  inversion TR as [|? ? (h & E & q) TRr]; subst.
  destruct (H h _ _ Mc Md q r AF TRr) as (cs & h' & A & E' & q').
  exists (CTy h (linear t) :: cs), h'. simpl. rewrite E, A, !andb_assoc. auto.
Qed.

Lemma args_const : forall ps ic id f,
  (forall a, args_translate ps ic id (fun cs => f (CConst a :: cs))) -> args_translate (PConst :: ps) ic id f.
Proof.
  intros ps ic id f H [|[t|n|i] r] AF TR; try discriminate.
  - destruct (H (HNat n) r AF TR) as (cs & h & A & E & q). exists (CConst (HNat n) :: cs), h. simpl. rewrite A. auto.
  - destruct (H (HNatVar i) r AF TR) as (cs & h & A & E & q). exists (CConst (HNatVar i) :: cs), h. simpl. rewrite A. auto.
Qed.

(* one bullet per definition, in the order of [gen_opaque_defs] *)
Lemma table_translates : Forall def_translates gen_opaque_defs.
Proof.
  repeat constructor; unfold def_translates; simpl.
  - eapply args_done; [reflexivity | apply Qb_copyable; reflexivity].
  - eapply args_done; [reflexivity | apply Qb_copyable; reflexivity].
  - (* list: a linear element type is wrapped in an option *)
    apply args_type. intros h c d _ _ q. eapply args_done; [reflexivity|].
    apply (Qb_same _ _ (if negb c && negb d then h_option h else h)); [apply tb_list | apply rd_list |].
    destruct (negb c && negb d); [apply (Qb_same _ _ h); [apply tb_option | apply rd_option |]|]; exact q.
  - apply args_type. intros h c d _ _ q. apply args_const. intros a. eapply args_done; [reflexivity|].
    apply Qb_linear; [apply tb_barray | intros _; apply rd_barray].
  - (* frozenarray: the parameter demands a copyable and droppable element type *)
    apply args_type. intros h c d Mc Md (_ & S & _). simpl in Mc, Md. subst c d.
    apply args_const. intros a. eapply args_done; [reflexivity|]. apply Qb_copyable; [apply tb_static|].
    rewrite rd_static. destruct (requires_drop h); [discriminate (S eq_refl) | reflexivity].
  - apply args_type. intros h c d _ _ q. apply args_const. intros a. eapply args_done; [reflexivity | exact q].
  - apply args_type. intros h c d _ _ q. eapply args_done; [reflexivity|].
    apply (Qb_same _ _ h); [apply tb_option | apply rd_option | exact q].
  - eapply args_done; [reflexivity | apply Qb_linear; [reflexivity | discriminate]].
Qed.

Lemma droppable_all_of_step : forall b l, b && forallb droppable l = true -> forallb droppable l = true.
Proof. intros. apply andb_prop in H. tauto. Qed.

Lemma witnessedb_step : forall t,
  witnessedb t = forallb witnessedb (components t) &&
    match t with
    | TStruct _ args fields => implb (forallb copyable fields) (forallb copyable (type_args args))
    | _ => true
    end.
Proof.
  destruct t; simpl; rewrite ?forallb_type_args, ?andb_true_r; try reflexivity.
  rewrite forallb_app, (andb_comm (forallb witnessedb fields)). reflexivity.
Qed.

(* Every well-formed type whose struct arguments are witnessed by fields translates; the three
   theorems of Props.v about [to_hugr] are read off this. *)
Theorem Inv_all : forall t, wfb t = true -> witnessedb t = true -> translates t.
Proof.
  induction t as [t IH] using components_ind. intros W Wit.
  rewrite witnessedb_step in Wit. apply andb_prop in Wit as [WitC Wimp].
  assert (TR : Forall translates (components t)).
  { pose proof (wfb_components _ W) as WC. rewrite forallb_forall in WC, WitC.
    rewrite Forall_forall in *. intros c Hc. apply IH; auto. }
  pose proof (copyable_step t) as CS. pose proof (droppable_step t) as DS. clear IH WitC.
  destruct t as [| k | i c d | ins out | els | name args | s args fields]; simpl in TR, CS, DS;
    unfold translates.
  - eexists; split; [reflexivity|]. apply Qb_copyable; reflexivity.
  - eexists; split; [reflexivity|]. destruct k; apply Qb_copyable; reflexivity.
  - eexists; split; [reflexivity|]. destruct c, d; (apply Qb_copyable || apply Qb_linear); try reflexivity; discriminate.
  - eexists; split; [reflexivity|]. apply Qb_copyable; reflexivity.
  - destruct (fields_translate _ TR) as (hs & E & q). simpl. rewrite E. eexists; split; [reflexivity|].
    apply (Qb_fields _ _ _ _ _ q CS). rewrite DS. auto.
  - destruct (wfb_opaque _ _ W) as (d & L & D & AF).
    pose proof (lookup_def_Forall (fun _ => def_translates) _ table_translates _ _ L) as T.
    destruct (T args AF TR) as (cs & h & A & E & q).
    rewrite to_hugr_opaque, A, L, E. eexists; split; [reflexivity|].
    rewrite CS, DS, D. exact q.
  - apply Forall_app in TR as [TRf _]. destruct (fields_translate _ TRf) as (hs & E & q).
    simpl. rewrite E. eexists; split; [reflexivity|].
    rewrite forallb_app in CS, DS. apply (Qb_fields _ _ _ _ _ q).
    + rewrite CS. destruct (forallb copyable fields); [exact Wimp | reflexivity].
    + rewrite DS. intros D. apply andb_prop in D. tauto.
Qed.

(* The element and argument comparisons inside [ty_eqb] are anonymous fixpoints.  On two tuples, and
   on two opaque types of empty name (the name test computes away), [ty_eqb] reduces to them. *)
Lemma ty_eqb_tuple : forall l1, Forall (fun x => forall y, ty_eqb x y = true -> x = y) l1 ->
  forall l2, ty_eqb (TTuple l1) (TTuple l2) = true -> l1 = l2.
Proof.
  induction 1 as [|x r Hx _ IH]; intros [|y r2] E; simpl in E; try discriminate; auto.
  apply andb_prop in E as [E1 E2]. f_equal; [exact (Hx _ E1) | exact (IH _ E2)].
Qed.

Lemma ty_eqb_opaque : forall l1, Forall (fun x => forall y, ty_eqb x y = true -> x = y) (type_args l1) ->
  forall l2, ty_eqb (TOpaque "" l1) (TOpaque "" l2) = true -> l1 = l2.
Proof.
  induction l1 as [|x r IH]; intros F [|y r2] E; simpl in E; try discriminate; auto.
  apply andb_prop in E as [E1 E2].
  destruct x as [s|m|m], y as [s'|m'|m']; try discriminate; simpl in F.
  - inversion F; subst. f_equal; [f_equal|]; auto.
  - apply N.eqb_eq in E1. subst. f_equal; auto.
  - apply N.eqb_eq in E1. subst. f_equal; auto.
Qed.

Lemma ty_eqb_eq : forall a b, ty_eqb a b = true -> a = b.
Proof.
  induction a using ty_ind'; intros b E; destruct b; try discriminate E; simpl in E; auto.
  - destruct k, k0; try discriminate; auto.
  - apply andb_prop in E as [E E3]. apply andb_prop in E as [E1 E2].
    apply N.eqb_eq in E1. apply Bool.eqb_prop in E2, E3. subst. auto.
  - apply andb_prop in E as [E1 E2]. f_equal; [apply ty_eqb_tuple; assumption | auto].
  - f_equal. apply ty_eqb_tuple; assumption.
  - apply andb_prop in E as [E1 E2]. f_equal; [apply String.eqb_eq, E1 | apply ty_eqb_opaque; assumption].
  - apply andb_prop in E as [E E3]. apply andb_prop in E as [E1 E2].
    f_equal; [apply N.eqb_eq, E1 | apply ty_eqb_opaque; assumption | apply ty_eqb_tuple; assumption].
Qed.

Lemma occursb_step : forall s t, occursb s t = ty_eqb s t || existsb (occursb s) (components t).
Proof. destruct t; simpl; rewrite ?existsb_type_args, ?existsb_app; reflexivity. Qed.

Lemma occursb_sound : forall s t, occursb s t = true -> occurs s t.
Proof.
  intros s t. induction t as [t IH] using components_ind. rewrite occursb_step. intros E.
  apply orb_prop in E as [E|E]; [apply ty_eqb_eq in E; subst; apply occ_here|].
  apply existsb_exists in E as (c & Hc & O).
  exact (occ_in s c t Hc (proj1 (Forall_forall _ _) IH c Hc O)).
Qed.

Lemma forallb_andb : forall {A} (f g : A -> bool) l,
  forallb (fun x => f x && g x) l = forallb f l && forallb g l.
Proof.
  induction l as [|x r IH]; [reflexivity|]. simpl. rewrite IH.
  destruct (f x), (g x), (forallb f r); reflexivity.
Qed.

Lemma nophantomb_step : forall t,
  nophantomb t = forallb nophantomb (components t) &&
    match t with
    | TStruct _ args fields => forallb (fun c => existsb (occursb c) fields) (type_args args)
    | _ => true
    end.
Proof.
  destruct t; simpl; rewrite ?forallb_type_args, ?andb_true_r; try reflexivity.
  rewrite forallb_andb, forallb_app.
  destruct (forallb nophantomb fields), (forallb nophantomb (type_args args)),
    (forallb (fun c => existsb (occursb c) fields) (type_args args)); reflexivity.
Qed.

(* a type argument that occurs in a field is copyable when the field is *)
Lemma nophantom_witnessed : forall t, nophantomb t = true -> witnessedb t = true.
Proof.
  induction t as [t IH] using components_ind. intros N.
  rewrite nophantomb_step in N. apply andb_prop in N as [NC NO].
  rewrite witnessedb_step. apply andb_true_intro. split.
  - rewrite forallb_forall in *. rewrite Forall_forall in IH. auto.
  - destruct t as [| | | | | |s args fields]; try reflexivity.
    destruct (forallb copyable fields) eqn:CF; [simpl | reflexivity].
    rewrite forallb_forall in *. intros c Hc.
    destruct (proj1 (existsb_exists _ _) (NO c Hc)) as (f & Hf & O).
    exact (cls_occurs copyable table_copy copyable_step c f (occursb_sound _ _ O) (CF f Hf)).
Qed.

(* The vocabulary in which Props.v states [drops_complete]: whether a port needs a drop, the drops
   recorded for port [j] of node [i], and the drop that port is to get. *)
Definition port_needs (p : port) : bool :=
  Nat.eqb (p_links p) 0 && match p_kind p with KValue t => requires_drop t | KOther => false end.

Definition drops_at (i j : nat) (ds : list drop) : list drop :=
  filter (fun d => Nat.eqb (d_node d) i && Nat.eqb (d_port d) j) ds.

Definition expected_drop (i j : nat) (p : port) : list drop :=
  if port_needs p then match p_kind p with KValue t => [mkDrop i j t] | KOther => [] end else [].

Lemma port_gets_drop_spec : forall p, port_gets_drop p = port_needs p.
Proof.
  intros [k l]. unfold port_gets_drop, port_needs, gen_insert_drops_cond. simpl.
  destruct k; simpl; rewrite ?andb_true_r, ?andb_false_r; reflexivity.
Qed.

Lemma drop_port_spec : forall ni pi p,
  snd (drop_port ni pi p) = expected_drop ni pi p /\
  p_kind (fst (drop_port ni pi p)) = p_kind p /\
  p_links (fst (drop_port ni pi p)) = p_links p + List.length (expected_drop ni pi p).
Proof.
  intros. unfold drop_port, expected_drop. rewrite port_gets_drop_spec.
  destruct (port_needs p) eqn:PN; simpl; [|auto].
  unfold port_needs in PN. destruct (p_kind p); [|rewrite andb_false_r in PN; discriminate].
  simpl. repeat split. lia.
Qed.

Lemma expected_drop_In : forall i j p d, In d (expected_drop i j p) -> d_node d = i /\ d_port d = j.
Proof.
  unfold expected_drop. intros i j p d H. destruct (port_needs p); [|contradiction].
  destruct (p_kind p); [|contradiction]. destruct H as [<-|[]]. auto.
Qed.

Lemma filter_all : forall {A} (f : A -> bool) l, (forall x, In x l -> f x = true) -> filter f l = l.
Proof. induction l as [|x r IH]; simpl; intros H; [reflexivity|]. rewrite (H x), IH; auto. Qed.

Lemma filter_none : forall {A} (f : A -> bool) l, (forall x, In x l -> f x = false) -> filter f l = [].
Proof. induction l as [|x r IH]; simpl; intros H; [reflexivity|]. rewrite (H x), IH; auto. Qed.

(* Both loops of the pass (nodes; out-ports of a node) have this shape; every drop records the
   index it came from. *)
Section Sweep.
  Context {A : Type} (f : nat -> A -> A * list drop) (key : drop -> nat).
  Hypothesis key_f : forall i x d, In d (snd (f i x)) -> key d = i.

  Fixpoint sweep (i : nat) (l : list A) : list A * list drop :=
    match l with
    | [] => ([], [])
    | x :: r => let '(x', d) := f i x in let '(r', ds) := sweep (S i) r in (x' :: r', d ++ ds)
    end.

  Lemma sweep_In : forall l i d, In d (snd (sweep i l)) -> exists j x, In d (snd (f (i + j) x)).
  Proof.
    induction l as [|x r IH]; simpl; intros i d H; [contradiction|].
    destruct (f i x) as [x' dd] eqn:E, (sweep (S i) r) as [r' ds] eqn:Sw. simpl in H.
    apply in_app_or in H as [H|H].
    - exists 0, x. rewrite Nat.add_0_r, E. auto.
    - specialize (IH (S i) d). rewrite Sw in IH. destruct (IH H) as (j & y & I).
      exists (S j), y. rewrite Nat.add_succ_r. auto.
  Qed.

  Lemma sweep_nth : forall l i j x, nth_error l j = Some x ->
    nth_error (fst (sweep i l)) j = Some (fst (f (i + j) x)) /\
    filter (fun d => Nat.eqb (key d) (i + j)) (snd (sweep i l)) = snd (f (i + j) x).
  Proof.
    induction l as [|y r IH]; intros i j x H; [destruct j; discriminate|].
    pose proof (key_f i y) as Ky. pose proof (sweep_In r (S i)) as In_r.
    destruct j as [|j]; simpl in H |- *.
    - inversion H; subst y. rewrite Nat.add_0_r.
      destruct (f i x) as [x' dd], (sweep (S i) r) as [r' ds]. simpl in *.
      rewrite filter_app, (filter_all _ dd) by (intros d Hd; apply Nat.eqb_eq; auto).
      rewrite (filter_none _ ds), app_nil_r; [auto|].
      intros d Hd. destruct (In_r d Hd) as (j & z & I). apply key_f in I. apply Nat.eqb_neq. lia.
    - specialize (IH (S i) j x H). rewrite Nat.add_succ_comm in IH.
      destruct (f i y) as [y' dd], (sweep (S i) r) as [r' ds]. simpl in *.
      rewrite filter_app, (filter_none _ dd); [exact IH|].
      intros d Hd. apply Nat.eqb_neq. rewrite (Ky d Hd). lia.
  Qed.
End Sweep.

Definition drop_node (ni : nat) (n : node) : node * list drop :=
  if gen_insert_drops_skip_node (n_funcdefn n) then (n, [])
  else let '(ps, d) := drop_ports ni 0 (n_out n) in (mkNode (n_funcdefn n) ps, d).

Lemma drop_ports_sweep : forall ni ps pi, drop_ports ni pi ps = sweep (drop_port ni) pi ps.
Proof. induction ps as [|p r IH]; intros pi; simpl; [|rewrite IH]; reflexivity. Qed.

Lemma drop_nodes_sweep : forall ns ni, drop_nodes ni ns = sweep drop_node ni ns.
Proof. induction ns as [|n r IH]; intros ni; simpl; [|rewrite IH]; reflexivity. Qed.

Lemma drop_port_key : forall ni pi p d, In d (snd (drop_port ni pi p)) -> d_node d = ni /\ d_port d = pi.
Proof. intros ni pi p d. rewrite (proj1 (drop_port_spec ni pi p)). apply expected_drop_In. Qed.

Lemma drop_node_key : forall ni n d, In d (snd (drop_node ni n)) -> d_node d = ni.
Proof.
  unfold drop_node. intros ni n d. destruct (gen_insert_drops_skip_node (n_funcdefn n)); [contradiction|].
  rewrite drop_ports_sweep. destruct (sweep (drop_port ni) 0 (n_out n)) as [ps ds] eqn:Sw. simpl. intros H.
  pose proof (sweep_In (drop_port ni) (n_out n) 0 d) as I. rewrite Sw in I.
  destruct (I H) as (j & p & Hd). exact (proj1 (drop_port_key _ _ _ _ Hd)).
Qed.

Lemma drops_at_split : forall i j ds,
  drops_at i j ds = filter (fun d => Nat.eqb (d_port d) j) (filter (fun d => Nat.eqb (d_node d) i) ds).
Proof.
  induction ds as [|d r IH]; [reflexivity|]. unfold drops_at in *. simpl. rewrite IH.
  destruct (Nat.eqb (d_node d) i); simpl; [destruct (Nat.eqb (d_port d) j)|]; reflexivity.
Qed.
